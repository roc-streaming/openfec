(* Ownership ledger of a Reed-Solomon decoder session (C08): the model RSHeap.v is never stuck (no double or
   invalid free), the live library blocks are at every moment exactly the codec context plus the blocks handed to
   the application as decoded source symbols, and release leaves exactly the latter. *)
From Coq Require Import List Arith Bool Lia Permutation.
From OFV Require Import ListAux RSApi RSRun LdpcHeap LdpcHeapProofs RSHeap.
Import ListNotations.

Definition RInv (s : rsh) : Prop :=
  NoDup (ctxb s ++ given s) /\ (forall b, In b (live (rhp s)) <-> In b (ctxb s ++ given s)) /\
  NoDup (live (rhp s)) /\ (forall b, In b (live (rhp s)) -> b < nxt (rhp s)).

Lemma RInv_Led s : RInv s <-> Led (rhp s) (ctxb s ++ given s).
Proof. symmetry. apply Led_iff. Qed.

Lemma alloc_n_spec : forall m (h : heap) l h' Z, alloc_n m h = (l, h') -> Led h Z -> Led h' (l ++ Z).
Proof.
  induction m as [|m IH]; intros h l h' Z E L; cbn [alloc_n] in E.
  - injection E as <- <-. exact L.
  - destruct (halloc h) as [h1 b] eqn:Eh. destruct (alloc_n m h1) as [l2 h2] eqn:E2. injection E as <- <-.
    cbn [app]. rewrite Permutation_middle. exact (IH _ _ _ _ E2 (Led_alloc _ _ _ _ Eh L)).
Qed.

Theorem rsh_init_inv k n : RInv (rsh_init k n).
Proof. apply RInv_Led. split; [constructor|]. split; [constructor|intros b []]. Qed.

Section OPS.
Variable ctxn : nat.
Variable keep : bool.
Variable cbf : nat -> bool.
Variable cb : bool.

Lemma ctx_create_inv s l h : RInv s -> ctxb s = [] -> alloc_n ctxn (rhp s) = (l, h) ->
  RInv {| api := api s; ctxb := l; given := given s; rhp := h; rncb := rncb s |}.
Proof. intros HI Ec Ea. apply RInv_Led in HI. rewrite Ec in HI. apply RInv_Led. exact (alloc_n_spec _ _ _ _ _ Ea HI). Qed.

Theorem rsh_build_inv s : RInv s -> RInv (rsh_build ctxn s).
Proof.
  intros HI. unfold rsh_build. destruct (ctxb s) as [|c0 cl] eqn:Ec; [|exact HI].
  destruct (alloc_n ctxn (rhp s)) as [l h] eqn:Ea. exact (ctx_create_inv s l h HI Ec Ea).
Qed.

Lemma rsh_build_given s : given (rsh_build ctxn s) = given s.
Proof.
  unfold rsh_build. destruct (ctxb s) as [|c0 cl]; [|reflexivity].
  destruct (alloc_n ctxn (rhp s)) as [l h]. reflexivity.
Qed.

(* the context around a decoding touches nothing else *)
Lemma ctx_decode_frame s s1 : ctx_decode ctxn keep s = Some s1 -> given s1 = given s /\ rncb s1 = rncb s.
Proof.
  unfold ctx_decode. destruct keep.
  - destruct (ctxb s); [destruct (alloc_n ctxn (rhp s)) as [l h]|]; intros E; injection E as <-; auto.
  - destruct (free_all (ctxb s) (rhp s)) as [h|]; [|discriminate].
    destruct (alloc_n ctxn h) as [l h1]. destruct (free_all l h1) as [h2|]; [|discriminate].
    intros E; injection E as <-; auto.
Qed.

Lemma ctx_decode_inv s : RInv s -> exists s1, ctx_decode ctxn keep s = Some s1 /\ RInv s1.
Proof.
  intros HI. unfold ctx_decode. destruct keep.
  - destruct (ctxb s) as [|c0 cl] eqn:Ec; [|exists s; auto].
    destruct (alloc_n ctxn (rhp s)) as [l h] eqn:Ea. eexists. split; [reflexivity|exact (ctx_create_inv s l h HI Ec Ea)].
  - destruct (Led_free_all _ _ _ (proj1 (RInv_Led s) HI)) as (h & Eh & L). rewrite Eh.
    destruct (alloc_n ctxn h) as [l h1] eqn:Ea.
    destruct (Led_free_all _ _ _ (alloc_n_spec _ _ _ _ _ Ea L)) as (h2 & E2 & L2). rewrite E2.
    eexists. split; [reflexivity|]. apply RInv_Led. exact L2.
Qed.

(* number of filled source entries whose callback returns no buffer *)
Fixpoint filled_nocb (old new : list (option bool)) (nc : nat) : nat :=
  match old, new with
  | o :: old', nw :: new' =>
      match o, nw with
      | None, Some _ => (if cbf nc then 0 else 1) + filled_nocb old' new' (S nc)
      | _, _ => filled_nocb old' new' nc
      end
  | _, _ => 0
  end.

Fixpoint filled (old new : list (option bool)) : nat :=
  match old, new with
  | o :: old', nw :: new' =>
      match o, nw with
      | None, Some _ => S (filled old' new')
      | _, _ => filled old' new'
      end
  | _, _ => 0
  end.

(* Y: the context blocks *)
Lemma give_spec : forall (old new : list (option bool)) g (h : heap) nc Y, Led h (Y ++ g) ->
  let '(g', h', _) := give cbf old new g h nc in Led h' (Y ++ g').
Proof.
  induction old as [|o old IH]; intros [|nw new] g h nc Y L; try exact L.
  cbn [give]. destruct o as [ov|]; [exact (IH new g h nc Y L)|]. destruct nw as [nv|]; [|exact (IH new g h nc Y L)].
  destruct (cbf nc); [exact (IH new g h (S nc) Y L)|].
  destruct (halloc h) as [h1 b] eqn:Eh. apply IH. rewrite <- Permutation_middle. exact (Led_alloc _ _ _ _ Eh L).
Qed.

(* new blocks are put in front of those already given, one for each filled entry without a callback buffer *)
Theorem give_grows old new g h nc :
  exists add, fst (fst (give cbf old new g h nc)) = add ++ g /\ length add = filled_nocb old new nc.
Proof.
  revert new g h nc. induction old as [|o old IH]; intros new g h nc; [exists []; split; reflexivity|].
  destruct new as [|nw new]; [exists []; split; reflexivity|].
  cbn [give filled_nocb]. destruct o as [ov|]; [apply IH|]. destruct nw as [nv|]; [|apply IH].
  destruct (cbf nc); [apply IH|].
  destruct (halloc h) as [h1 b0]. destruct (IH new (b0 :: g) h1 (S nc)) as (add & E & L).
  exists (add ++ [b0]). rewrite <- app_assoc, app_length, L. split; [exact E|cbn [length]; lia].
Qed.

Theorem give_length old new g h nc :
  length (fst (fst (give cbf old new g h nc))) = length g + filled_nocb old new nc.
Proof. destruct (give_grows old new g h nc) as (add & -> & <-). rewrite app_length. lia. Qed.

Theorem give_ncb old new g h nc : snd (give cbf old new g h nc) = nc + filled old new.
Proof.
  revert new g h nc. induction old as [|o old IH]; intros new g h nc; [cbn [give snd filled]; lia|].
  destruct new as [|nw new]; [cbn [give snd filled]; lia|].
  cbn [give filled]. destruct o as [ov|]; [apply IH|]. destruct nw as [nv|]; [|apply IH].
  destruct (cbf nc).
  - rewrite IH. lia.
  - destruct (halloc h) as [h1 b0]. rewrite IH. lia.
Qed.

Theorem rsh_after_inv s old a' : RInv s -> exists s', rsh_after ctxn keep cbf s old a' = Some s' /\ RInv s'.
Proof.
  intros HI. unfold rsh_after. destruct (decoded_now (api s) a'); [|eexists; split; [reflexivity|exact HI]].
  destruct (ctx_decode_inv s HI) as (s1 & E1 & HI1). rewrite E1.
  pose proof (give_spec (firstn (rk (api s)) old) (firstn (rk (api s)) (RSApi.tab a')) (given s1) (rhp s1) (rncb s1)
                _ (proj1 (RInv_Led s1) HI1)) as L.
  destruct (give cbf (firstn (rk (api s)) old) (firstn (rk (api s)) (RSApi.tab a')) (given s1) (rhp s1) (rncb s1))
    as [[g h] nc]. eexists. split; [reflexivity|]. apply RInv_Led. exact L.
Qed.

Lemma rsh_release_Led s h : RInv s -> rsh_release s = Some h -> Led h (given s).
Proof.
  intros HI E. destruct (Led_free_all _ _ _ (proj1 (RInv_Led s) HI)) as (h0 & E0 & L).
  unfold rsh_release in E. rewrite E in E0. injection E0 as <-. exact L.
Qed.

Theorem rsh_release_spec s : RInv s ->
  exists h, rsh_release s = Some h /\ (forall b, In b (live h) <-> In b (given s)) /\ NoDup (live h).
Proof.
  intros HI. destruct (Led_free_all _ _ _ (proj1 (RInv_Led s) HI)) as (h & E & L).
  exists h. split; [exact E|]. apply Led_iff in L. destruct L as (_ & I & N & _). exact (conj I N).
Qed.

(* releasing twice is impossible to express on the heap alone (release returns the heap, the session is gone);
   what can be said: after release none of the context blocks is live any more, so a second free of any of them
   would be stuck *)
Theorem rsh_release_ctx_dead s h b : RInv s -> rsh_release s = Some h -> In b (ctxb s) -> hfree h b = None.
Proof.
  intros HI E Hb. apply hfree_dead. intros Hl.
  apply (proj1 (proj2 (proj1 (Led_iff _ _) (rsh_release_Led s h HI E)))) in Hl.
  destruct HI as (Hnd & _). apply in_split in Hb. destruct Hb as (l1 & l2 & Ec). rewrite Ec, <- app_assoc in Hnd.
  apply NoDup_remove_2 in Hnd. apply Hnd. rewrite !in_app_iff. auto.
Qed.

Inductive rsop := RBuild | RSubmit (esi : nat) | RSetAvail (t : list (option bool)) | RFinish.

Definition rsh_op (s : rsh) (o : rsop) : option rsh :=
  match o with
  | RBuild => Some (rsh_build ctxn s)
  | RSubmit esi => rsh_submit ctxn keep cbf cb s esi
  | RSetAvail t => rsh_set_available ctxn keep cbf s t
  | RFinish => rsh_finish ctxn keep cbf cb s
  end.

Fixpoint rsh_run (s : rsh) (ops : list rsop) : option rsh :=
  match ops with
  | [] => Some s
  | o :: rest => match rsh_op s o with None => None | Some s' => rsh_run s' rest end
  end.

Theorem rsh_op_inv s o : RInv s -> exists s', rsh_op s o = Some s' /\ RInv s'.
Proof.
  intros HI. destruct o as [|esi|t|]; cbn [rsh_op]; try (apply rsh_after_inv; exact HI).
  eexists. split; [reflexivity|apply rsh_build_inv; exact HI].
Qed.

Theorem rsh_run_inv : forall ops s, RInv s -> exists s', rsh_run s ops = Some s' /\ RInv s'.
Proof.
  induction ops as [|o ops IH]; intros s HI.
  - exists s. split; [reflexivity|exact HI].
  - cbn [rsh_run]. destruct (rsh_op_inv s o HI) as (s1 & E1 & HI1). rewrite E1. exact (IH s1 HI1).
Qed.

Theorem rs_session_leaves_nothing_behind k n : forall ops,
  exists s, rsh_run (rsh_init k n) ops = Some s /\ RInv s /\
    exists h, rsh_release s = Some h /\ (forall b, In b (live h) <-> In b (given s)) /\ NoDup (live h).
Proof.
  intros ops. destruct (rsh_run_inv ops (rsh_init k n) (rsh_init_inv k n)) as (s & E & HI).
  exists s. split; [exact E|]. split; [exact HI|]. exact (rsh_release_spec s HI).
Qed.

(* one API step: one new block per filled entry without a callback buffer *)
Lemma rsh_after_given s old a' s' : rsh_after ctxn keep cbf s old a' = Some s' ->
  (exists add, given s' = add ++ given s) /\
  length (given s') = length (given s) +
    (if decoded_now (api s) a'
     then filled_nocb (firstn (rk (api s)) old) (firstn (rk (api s)) (RSApi.tab a')) (rncb s)
     else 0).
Proof.
  unfold rsh_after. destruct (decoded_now (api s) a').
  2:{ intros E. injection E as <-. cbn [given]. split; [exists []; reflexivity|lia]. }
  destruct (ctx_decode ctxn keep s) as [s1|] eqn:E1; [|discriminate]. destruct (ctx_decode_frame s s1 E1) as [<- <-].
  destruct (give_grows (firstn (rk (api s)) old) (firstn (rk (api s)) (RSApi.tab a')) (given s1) (rhp s1) (rncb s1))
    as (add & Hg & <-).
  destruct (give cbf (firstn (rk (api s)) old) (firstn (rk (api s)) (RSApi.tab a')) (given s1) (rhp s1) (rncb s1))
    as [[g h] nc]. intros E. injection E as <-. cbn [fst] in Hg. cbn [given]. rewrite Hg, app_length.
  split; [exists add; reflexivity|lia].
Qed.

Theorem rsh_op_given_grows s o s' : rsh_op s o = Some s' -> exists add, given s' = add ++ given s.
Proof.
  destruct o as [|esi|t|]; cbn [rsh_op]; intros E; try exact (proj1 (rsh_after_given _ _ _ _ E)).
  injection E as <-. exists []. apply rsh_build_given.
Qed.

Theorem rsh_run_given_mono : forall ops s s' b, rsh_run s ops = Some s' -> In b (given s) -> In b (given s').
Proof.
  induction ops as [|o ops IH]; intros s s' b E Hb; cbn [rsh_run] in E.
  - injection E as <-. exact Hb.
  - destruct (rsh_op s o) as [s1|] eqn:E1; [|discriminate]. apply (IH s1 s' b E).
    destruct (rsh_op_given_grows s o s1 E1) as (add & ->). apply in_or_app. right. exact Hb.
Qed.

Theorem rsh_after_given_count s old a' s' : RInv s -> rsh_after ctxn keep cbf s old a' = Some s' ->
  length (given s') = length (given s) +
    (if decoded_now (api s) a'
     then filled_nocb (firstn (rk (api s)) old) (firstn (rk (api s)) (RSApi.tab a')) (rncb s)
     else 0).
Proof. intros _ E. exact (proj2 (rsh_after_given s old a' s' E)). Qed.

Theorem rsh_release_count s h : RInv s -> rsh_release s = Some h -> length (live h) = length (given s).
Proof. intros HI E. apply Permutation_length. exact (proj1 (rsh_release_Led s h HI E)). Qed.

End OPS.

Print Assumptions rsh_init_inv.
Print Assumptions rsh_build_inv.
Print Assumptions rsh_after_inv.
Print Assumptions rsh_release_spec.
Print Assumptions rsh_release_ctx_dead.
Print Assumptions rs_session_leaves_nothing_behind.
Print Assumptions give_length.
Print Assumptions give_ncb.
Print Assumptions rsh_run_given_mono.
Print Assumptions rsh_after_given_count.
Print Assumptions rsh_release_count.
