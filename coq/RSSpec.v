(* RSSpec: abstract algebra behind systematic Reed-Solomon codes over an
   arbitrary field; polynomials are coefficient lists, low degree first. *)
From Coq Require Import List Arith Bool Lia Ring.
From OFV Require Import ListAux.
Import ListNotations.

Section Defs.
  Variable F : Type.
  Variables (zero one : F) (add mul : F -> F -> F) (opp inv : F -> F).

  Definition sub a b := add a (opp b).

  Definition peval (p : list F) (x : F) : F :=
    fold_right (fun c acc => add c (mul x acc)) zero p.

  Fixpoint pow (x : F) (n : nat) : F :=
    match n with O => one | S m => mul x (pow x m) end.

  Definition sum (l : list F) : F := fold_right add zero l.
  Definition prod (l : list F) : F := fold_right mul one l.

  (* Lagrange basis polynomial number i on the points pts, evaluated at x *)
  Definition lagr (pts : list F) (i : nat) (x : F) : F :=
    prod (map (fun j => mul (sub x (nth j pts zero))
                            (inv (sub (nth i pts zero) (nth j pts zero))))
              (filter (fun j => negb (Nat.eqb j i)) (seq 0 (length pts)))).

  (* symbol at evaluation point x of the systematic code with base points pts *)
  Definition rs_sym (pts src : list F) (x : F) : F :=
    sum (map (fun i => mul (nth i src zero) (lagr pts i x)) (seq 0 (length pts))).

  Definition pscale (c : F) (p : list F) : list F := map (mul c) p.

  Fixpoint padd (p q : list F) : list F :=
    match p, q with
    | [], _ => q
    | _, [] => p
    | a :: p', b :: q' => add a b :: padd p' q'
    end.

  Definition psub (p q : list F) : list F := padd p (pscale (opp one) q).

  (* multiplication by the linear factor a + b X *)
  Definition pmul_lin (a b : F) (p : list F) : list F :=
    padd (pscale a p) (zero :: pscale b p).

  (* synthetic division by (X - a) *)
  Fixpoint quot (p : list F) (a : F) : list F :=
    match p with
    | [] => []
    | _ :: p' => match p' with
                 | [] => []
                 | _ :: _ => peval p' a :: quot p' a
                 end
    end.

  (* coefficient list of the Lagrange basis polynomial *)
  Definition lagr_poly (pts : list F) (i : nat) : list F :=
    fold_right
      (fun j acc =>
         pmul_lin (mul (opp (nth j pts zero))
                       (inv (sub (nth i pts zero) (nth j pts zero))))
                  (inv (sub (nth i pts zero) (nth j pts zero))) acc)
      [one]
      (filter (fun j => negb (Nat.eqb j i)) (seq 0 (length pts))).

  (* sum of a list of polynomials, padded to length n *)
  Definition psum (n : nat) (l : list (list F)) : list F :=
    fold_right padd (repeat zero n) l.

  (* coefficient list of the encoding polynomial *)
  Definition rs_poly (pts src : list F) : list F :=
    psum (length pts)
         (map (fun i => pscale (nth i src zero) (lagr_poly pts i))
              (seq 0 (length pts))).

  (* the monomial X^t as a list of length k (when t < k) *)
  Definition mono (t k : nat) : list F :=
    repeat zero t ++ one :: repeat zero (k - t - 1).
End Defs.

Section Hom.
  Variables F1 F2 : Type.
  Variables (zero1 one1 : F1) (add1 mul1 : F1 -> F1 -> F1) (opp1 inv1 : F1 -> F1).
  Variables (zero2 one2 : F2) (add2 mul2 : F2 -> F2 -> F2) (opp2 inv2 : F2 -> F2).
  Variable phi : F1 -> F2.
  Hypothesis phi_zero : phi zero1 = zero2.
  Hypothesis phi_one : phi one1 = one2.
  Hypothesis phi_add : forall a b, phi (add1 a b) = add2 (phi a) (phi b).
  Hypothesis phi_mul : forall a b, phi (mul1 a b) = mul2 (phi a) (phi b).
  Hypothesis phi_opp : forall a, phi (opp1 a) = opp2 (phi a).
  Hypothesis phi_inv : forall a, phi (inv1 a) = inv2 (phi a).

  Lemma hom_sub : forall a b,
    phi (sub F1 add1 opp1 a b) = sub F2 add2 opp2 (phi a) (phi b).
  Proof. intros a b. unfold sub. rewrite phi_add, phi_opp. reflexivity. Qed.

  (* peval, sum and prod are all right folds *)
  Lemma hom_fold_right : forall (f : F1 -> F1 -> F1) (g : F2 -> F2 -> F2) a l,
    (forall c acc, phi (f c acc) = g (phi c) (phi acc)) ->
    phi (fold_right f a l) = fold_right g (phi a) (map phi l).
  Proof.
    intros f g a l H. induction l as [|c l IH]; [reflexivity|].
    cbn [map fold_right]. rewrite H, IH. reflexivity.
  Qed.

  Lemma hom_peval : forall p x,
    phi (peval F1 zero1 add1 mul1 p x) = peval F2 zero2 add2 mul2 (map phi p) (phi x).
  Proof.
    intros p x. unfold peval. rewrite <- phi_zero. apply hom_fold_right.
    intros c acc. rewrite phi_add, phi_mul. reflexivity.
  Qed.

  Lemma hom_pow : forall x n,
    phi (pow F1 one1 mul1 x n) = pow F2 one2 mul2 (phi x) n.
  Proof.
    intros x n. induction n as [|n IH].
    - exact phi_one.
    - cbn [pow]. rewrite phi_mul, IH. reflexivity.
  Qed.

  Lemma hom_sum : forall l,
    phi (sum F1 zero1 add1 l) = sum F2 zero2 add2 (map phi l).
  Proof.
    intros l. unfold sum. rewrite <- phi_zero. apply hom_fold_right. exact phi_add.
  Qed.

  Lemma hom_prod : forall l,
    phi (prod F1 one1 mul1 l) = prod F2 one2 mul2 (map phi l).
  Proof.
    intros l. unfold prod. rewrite <- phi_one. apply hom_fold_right. exact phi_mul.
  Qed.

  Lemma hom_nth : forall l i, nth i (map phi l) zero2 = phi (nth i l zero1).
  Proof. intros l i. rewrite <- phi_zero. apply map_nth. Qed.

  Lemma hom_lagr : forall pts i x,
    phi (lagr F1 zero1 one1 add1 mul1 opp1 inv1 pts i x)
    = lagr F2 zero2 one2 add2 mul2 opp2 inv2 (map phi pts) i (phi x).
  Proof.
    intros pts i x. unfold lagr. rewrite hom_prod, map_map, map_length.
    f_equal. apply map_ext. intros j.
    rewrite phi_mul, phi_inv, !hom_sub, !hom_nth. reflexivity.
  Qed.

  Lemma hom_rs_sym : forall pts src x,
    phi (rs_sym F1 zero1 one1 add1 mul1 opp1 inv1 pts src x)
    = rs_sym F2 zero2 one2 add2 mul2 opp2 inv2 (map phi pts) (map phi src) (phi x).
  Proof.
    intros pts src x. unfold rs_sym. rewrite hom_sum, map_map, map_length.
    f_equal. apply map_ext. intros i.
    rewrite phi_mul, hom_lagr, hom_nth. reflexivity.
  Qed.
End Hom.

Section Theory.
  Variable F : Type.
  Variables (zero one : F) (add mul : F -> F -> F) (opp inv : F -> F).

  Hypothesis eq_dec : forall a b : F, {a = b} + {a <> b}.
  Hypothesis add_comm : forall a b, add a b = add b a.
  Hypothesis add_assoc : forall a b c, add a (add b c) = add (add a b) c.
  Hypothesis add_0_l : forall a, add zero a = a.
  Hypothesis add_opp_r : forall a, add a (opp a) = zero.
  Hypothesis mul_comm : forall a b, mul a b = mul b a.
  Hypothesis mul_assoc : forall a b c, mul a (mul b c) = mul (mul a b) c.
  Hypothesis mul_1_l : forall a, mul one a = a.
  Hypothesis mul_add_distr_l : forall a b c, mul a (add b c) = add (mul a b) (mul a c).
  Hypothesis mul_inv_r : forall a, a <> zero -> mul a (inv a) = one.
  Hypothesis one_neq_zero : one <> zero.

  Local Notation fsub := (sub F add opp).
  Local Notation pe := (peval F zero add mul).
  Local Notation fpow := (pow F one mul).
  Local Notation fsum := (sum F zero add).
  Local Notation fprod := (prod F one mul).
  Local Notation flagr := (lagr F zero one add mul opp inv).
  Local Notation frs := (rs_sym F zero one add mul opp inv).
  Local Notation fpscale := (pscale F mul).
  Local Notation fpadd := (padd F add).
  Local Notation fpsub := (psub F one add mul opp).
  Local Notation fpmul_lin := (pmul_lin F zero add mul).
  Local Notation fquot := (quot F zero add mul).
  Local Notation flagr_poly := (lagr_poly F zero one add mul opp inv).
  Local Notation fpsum := (psum F zero add).
  Local Notation frs_poly := (rs_poly F zero one add mul opp inv).
  Local Notation fmono := (mono F zero one).

  Lemma F_ring : ring_theory zero one add mul fsub opp (@eq F).
  Proof.
    constructor.
    - exact add_0_l.
    - exact add_comm.
    - exact add_assoc.
    - exact mul_1_l.
    - exact mul_comm.
    - exact mul_assoc.
    - intros x y z. rewrite (mul_comm (add x y) z), mul_add_distr_l,
        (mul_comm z x), (mul_comm z y). reflexivity.
    - intros x y. reflexivity.
    - exact add_opp_r.
  Qed.

  Add Ring F_ring_inst : F_ring.

  Lemma sub_eq_zero : forall x a, fsub x a = zero -> x = a.
  Proof.
    intros x a H. assert (E : x = add (fsub x a) a) by ring.
    rewrite E, H. ring.
  Qed.

  Lemma sub_neq_zero : forall x a, x <> a -> fsub x a <> zero.
  Proof. intros x a H E. apply H. apply sub_eq_zero. exact E. Qed.

  Lemma mul_eq_zero : forall a b, mul a b = zero -> a = zero \/ b = zero.
  Proof.
    intros a b H. destruct (eq_dec a zero) as [Ea|Na].
    - left. exact Ea.
    - right. assert (E : b = mul (mul a (inv a)) b).
      { rewrite (mul_inv_r a Na). ring. }
      assert (E2 : mul (mul a (inv a)) b = mul (inv a) (mul a b)) by ring.
      rewrite E, E2, H. ring.
  Qed.

  Lemma mul_neq_zero : forall a b, a <> zero -> b <> zero -> mul a b <> zero.
  Proof.
    intros a b Ha Hb E. destruct (mul_eq_zero a b E); contradiction.
  Qed.

  Lemma inv_one : inv one = one.
  Proof.
    rewrite <- (mul_1_l (inv one)). apply mul_inv_r. exact one_neq_zero.
  Qed.

  Lemma inv_mul : forall a b, a <> zero -> b <> zero ->
    inv (mul a b) = mul (inv a) (inv b).
  Proof.
    intros a b Ha Hb.
    transitivity (mul (mul (mul a b) (inv (mul a b))) (mul (inv a) (inv b))).
    - transitivity (mul (inv (mul a b)) (mul (mul a (inv a)) (mul b (inv b)))); [|ring].
      rewrite (mul_inv_r a Ha), (mul_inv_r b Hb). ring.
    - rewrite (mul_inv_r _ (mul_neq_zero a b Ha Hb)). ring.
  Qed.

  Lemma peval_nil : forall x, pe [] x = zero.
  Proof. reflexivity. Qed.

  Lemma peval_cons : forall c p x, pe (c :: p) x = add c (mul x (pe p x)).
  Proof. reflexivity. Qed.

  Lemma sum_cons : forall c l, fsum (c :: l) = add c (fsum l).
  Proof. reflexivity. Qed.

  Lemma prod_cons : forall c l, fprod (c :: l) = mul c (fprod l).
  Proof. reflexivity. Qed.

  Lemma sum_map_zero : forall (A : Type) (f : A -> F) l,
    (forall i, In i l -> f i = zero) -> fsum (map f l) = zero.
  Proof.
    intros A f l. induction l as [|a l IH]; intros H.
    - reflexivity.
    - cbn [map]. rewrite sum_cons, IH, (H a).
      + ring.
      + left. reflexivity.
      + intros i Hi. apply H. right. exact Hi.
  Qed.

  Lemma sum_map_add : forall (A : Type) (f h : A -> F) l,
    fsum (map (fun i => add (f i) (h i)) l) = add (fsum (map f l)) (fsum (map h l)).
  Proof.
    intros A f h l. induction l as [|a l IH].
    - cbn. ring.
    - cbn [map]. rewrite !sum_cons, IH. ring.
  Qed.

  Lemma sum_map_scale : forall (A : Type) c (f : A -> F) l,
    fsum (map (fun i => mul c (f i)) l) = mul c (fsum (map f l)).
  Proof.
    intros A c f l. induction l as [|a l IH].
    - cbn. ring.
    - cbn [map]. rewrite !sum_cons, IH. ring.
  Qed.

  Lemma sum_map_ext_in : forall (A : Type) (f h : A -> F) l,
    (forall i, In i l -> f i = h i) -> fsum (map f l) = fsum (map h l).
  Proof. intros A f h l H. f_equal. apply map_ext_in. exact H. Qed.

  Lemma sum_app : forall l l', fsum (l ++ l') = add (fsum l) (fsum l').
  Proof.
    intros l l'. induction l as [|a l IH].
    - symmetry. apply add_0_l.
    - cbn [app]. rewrite !sum_cons, IH. ring.
  Qed.

  Lemma prod_all_one : forall l, (forall y, In y l -> y = one) -> fprod l = one.
  Proof.
    intros l. induction l as [|a l IH]; intros H.
    - reflexivity.
    - rewrite prod_cons, IH, (H a).
      + ring.
      + left. reflexivity.
      + intros y Hy. apply H. right. exact Hy.
  Qed.

  Lemma prod_has_zero : forall l, In zero l -> fprod l = zero.
  Proof.
    intros l. induction l as [|a l IH]; intros H.
    - destruct H.
    - rewrite prod_cons. destruct H as [E|Hin].
      + subst a. ring.
      + rewrite (IH Hin). ring.
  Qed.

  Lemma prod_neq_zero : forall l, (forall y, In y l -> y <> zero) -> fprod l <> zero.
  Proof.
    intros l. induction l as [|a l IH]; intros H.
    - exact one_neq_zero.
    - rewrite prod_cons. apply mul_neq_zero.
      + apply H. left. reflexivity.
      + apply IH. intros y Hy. apply H. right. exact Hy.
  Qed.

  (* a product of quotients needs one inversion only *)
  Lemma prod_div : forall (A : Type) (f g : A -> F) (l : list A),
    (forall j, In j l -> g j <> zero) ->
    fprod (map (fun j => mul (f j) (inv (g j))) l)
    = mul (fprod (map f l)) (inv (fprod (map g l))).
  Proof.
    intros A f g l. induction l as [|a l IH]; intros H.
    - cbn. rewrite inv_one. ring.
    - assert (Hl : forall j, In j l -> g j <> zero) by (intros j Hj; apply H; right; exact Hj).
      cbn [map]. rewrite !prod_cons, (IH Hl), inv_mul.
      + ring.
      + apply H. left. reflexivity.
      + apply prod_neq_zero. intros y Hy. apply in_map_iff in Hy.
        destruct Hy as [j [<- Hj]]. exact (Hl j Hj).
  Qed.

  Lemma peval_pscale : forall c p x, pe (fpscale c p) x = mul c (pe p x).
  Proof.
    intros c p x. induction p as [|a p IH].
    - cbn. ring.
    - unfold pscale in *. cbn [map]. rewrite !peval_cons, IH. ring.
  Qed.

  Lemma pscale_length : forall c p, length (fpscale c p) = length p.
  Proof. intros c p. unfold pscale. apply map_length. Qed.

  Lemma peval_padd : forall p q x, pe (fpadd p q) x = add (pe p x) (pe q x).
  Proof.
    intros p. induction p as [|a p IH]; intros q x.
    - cbn [padd]. rewrite peval_nil. ring.
    - destruct q as [|b q].
      + cbn [padd]. rewrite peval_nil. ring.
      + cbn [padd]. rewrite !peval_cons, IH. ring.
  Qed.

  Lemma padd_length : forall p q, length (fpadd p q) = Nat.max (length p) (length q).
  Proof.
    intros p. induction p as [|a p IH]; intros q.
    - reflexivity.
    - destruct q as [|b q].
      + reflexivity.
      + cbn [padd length]. rewrite IH. reflexivity.
  Qed.

  Lemma peval_pmul_lin : forall a b p x,
    pe (fpmul_lin a b p) x = mul (add a (mul b x)) (pe p x).
  Proof.
    intros a b p x. unfold pmul_lin.
    rewrite peval_padd, peval_cons, !peval_pscale. ring.
  Qed.

  Lemma pmul_lin_length : forall a b p, length (fpmul_lin a b p) = S (length p).
  Proof.
    intros a b p. unfold pmul_lin. rewrite padd_length. cbn [length].
    rewrite !pscale_length. lia.
  Qed.

  Lemma nth_pscale : forall c p m, nth m (fpscale c p) zero = mul c (nth m p zero).
  Proof.
    intros c p. unfold pscale. induction p as [|a p IH]; intros m.
    - destruct m; cbn [map nth]; ring.
    - destruct m as [|m]; cbn [map nth]; [reflexivity|apply IH].
  Qed.

  Lemma nth_padd : forall p q m,
    nth m (fpadd p q) zero = add (nth m p zero) (nth m q zero).
  Proof.
    intros p. induction p as [|a p IH]; intros q m.
    - cbn [padd]. destruct m; cbn [nth]; ring.
    - destruct q as [|b q].
      + cbn [padd]. destruct m; cbn [nth]; ring.
      + cbn [padd]. destruct m as [|m]; cbn [nth]; [reflexivity|apply IH].
  Qed.

  Lemma nth_pmul_lin : forall a q m,
    nth m (fpmul_lin a one q) zero
    = add (mul a (nth m q zero)) (match m with O => zero | S m' => nth m' q zero end).
  Proof.
    intros a q m. unfold pmul_lin. rewrite nth_padd, nth_pscale.
    destruct m as [|m]; cbn [nth]; [reflexivity|].
    rewrite nth_pscale. ring.
  Qed.

  Lemma peval_repeat_zero : forall n x, pe (repeat zero n) x = zero.
  Proof.
    intros n x. induction n as [|n IH].
    - reflexivity.
    - cbn [repeat]. rewrite peval_cons, IH. ring.
  Qed.

  Lemma peval_shift : forall n q x, pe (repeat zero n ++ q) x = mul (fpow x n) (pe q x).
  Proof.
    intros n q x. induction n as [|n IH].
    - cbn [repeat app pow]. ring.
    - cbn [repeat app pow]. rewrite peval_cons, IH. ring.
  Qed.

  Lemma peval_mono : forall t k x, pe (fmono t k) x = fpow x t.
  Proof.
    intros t k x. unfold mono. rewrite peval_shift, peval_cons, peval_repeat_zero. ring.
  Qed.

  Lemma mono_length : forall t k, t < k -> length (fmono t k) = k.
  Proof.
    intros t k H. unfold mono. rewrite app_length. cbn [length].
    rewrite !repeat_length. lia.
  Qed.

  Lemma peval_as_sum : forall q x,
    pe q x = fsum (map (fun m => mul (fpow x m) (nth m q zero)) (seq 0 (length q))).
  Proof.
    intros q x. induction q as [|a q IH].
    - reflexivity.
    - cbn [length seq map]. rewrite peval_cons, sum_cons, <- seq_shift, map_map, IH.
      cbn [nth pow]. rewrite <- sum_map_scale.
      f_equal; [ring|]. f_equal. apply map_ext. intros m. ring.
  Qed.

  Lemma peval_psum : forall n l x, pe (fpsum n l) x = fsum (map (fun q => pe q x) l).
  Proof.
    intros n l x. unfold psum. induction l as [|q l IH].
    - cbn [fold_right map]. apply peval_repeat_zero.
    - cbn [fold_right map]. rewrite peval_padd, sum_cons, IH. reflexivity.
  Qed.

  Lemma psum_length : forall n l, (forall q, In q l -> length q = n) -> length (fpsum n l) = n.
  Proof.
    intros n l. unfold psum. induction l as [|q l IH]; intros H.
    - apply repeat_length.
    - cbn [fold_right]. rewrite padd_length, IH, (H q).
      + lia.
      + left. reflexivity.
      + intros q' Hq'. apply H. right. exact Hq'.
  Qed.

  Lemma psub_length : forall p q, length p = length q -> length (fpsub p q) = length p.
  Proof.
    intros p q H. unfold psub. rewrite padd_length, pscale_length. lia.
  Qed.

  Lemma peval_psub : forall p q x, pe (fpsub p q) x = fsub (pe p x) (pe q x).
  Proof.
    intros p q x. unfold psub. rewrite peval_padd, peval_pscale. ring.
  Qed.

  Lemma psub_zero_eq : forall p q, length p = length q ->
    Forall (fun c => c = zero) (fpsub p q) -> p = q.
  Proof.
    intros p. induction p as [|a p IH]; intros q H HF.
    - destruct q as [|b q]; [reflexivity|discriminate H].
    - destruct q as [|b q]; [discriminate H|]. injection H as H.
      unfold psub, pscale in *. cbn [map padd] in HF.
      inversion HF as [|c l Hc HF']; subst c l.
      f_equal.
      + apply sub_eq_zero. rewrite <- Hc. ring.
      + apply IH; assumption.
  Qed.

  Lemma quot_cons2 : forall c d p a,
    fquot (c :: d :: p) a = pe (d :: p) a :: fquot (d :: p) a.
  Proof. reflexivity. Qed.

  Lemma quot_spec : forall p a x,
    pe p x = add (pe p a) (mul (fsub x a) (pe (fquot p a) x)).
  Proof.
    intros p a x. induction p as [|c p IH].
    - cbn. ring.
    - destruct p as [|d p].
      + cbn. ring.
      + rewrite quot_cons2. remember (d :: p) as p' eqn:Ep in *.
        rewrite !peval_cons, IH. ring.
  Qed.

  Lemma quot_length : forall p a, length (fquot p a) = pred (length p).
  Proof.
    intros p a. induction p as [|c p IH].
    - reflexivity.
    - destruct p as [|d p].
      + reflexivity.
      + rewrite quot_cons2. cbn [length] in *. rewrite IH. reflexivity.
  Qed.

  Lemma quot_nth_rec : forall p a i,
    nth i (fquot p a) zero
    = add (nth (S i) p zero) (mul a (nth (S i) (fquot p a) zero)).
  Proof.
    intros p a. induction p as [|c p IH]; intros i.
    - cbn [quot nth]. destruct i; ring.
    - destruct p as [|d p].
      + cbn [quot nth]. destruct i; ring.
      + rewrite quot_cons2. destruct i as [|i]; cbn [nth]; [|apply IH].
        rewrite peval_cons. destruct p as [|e p]; [cbn [quot nth peval fold_right]; ring|].
        rewrite quot_cons2. reflexivity.
  Qed.

  Lemma quot_monic_top : forall c a, 1 <= length c ->
    nth (length c - 1) (fquot (c ++ [one]) a) zero = one.
  Proof.
    intros c a Hc. rewrite quot_nth_rec. replace (S (length c - 1)) with (length c) by lia.
    rewrite nth_middle, nth_overflow; [ring|].
    rewrite quot_length, app_length. cbn [length]. lia.
  Qed.

  Lemma quot_root : forall p a x, x <> a -> pe p a = zero -> pe p x = zero ->
    pe (fquot p a) x = zero.
  Proof.
    intros p a x Hne Ha Hx. rewrite (quot_spec p a x), Ha in Hx.
    destruct (mul_eq_zero (fsub x a) (pe (fquot p a) x)) as [E|E].
    - etransitivity; [|exact Hx]. ring.
    - exfalso. apply Hne, sub_eq_zero, E.
    - exact E.
  Qed.

  Lemma quot_zero : forall p a,
    Forall (fun c => c = zero) (fquot p a) -> pe p a = zero ->
    Forall (fun c => c = zero) p.
  Proof.
    intros p a. induction p as [|c p IH]; intros HF H0.
    - constructor.
    - destruct p as [|d p].
      + constructor; [|constructor]. rewrite <- H0. cbn. ring.
      + rewrite quot_cons2 in HF. remember (d :: p) as p' eqn:Ep in *.
        inversion HF as [|c' l' Hc HF']; subst c' l'.
        rewrite peval_cons, Hc in H0. constructor.
        * rewrite <- H0. ring.
        * apply IH; assumption.
  Qed.

  Theorem root_bound : forall (p xs : list F),
    NoDup xs -> length p <= length xs ->
    (forall x, In x xs -> pe p x = zero) ->
    Forall (fun c => c = zero) p.
  Proof.
    intros p xs. revert p. induction xs as [|a xs IH]; intros p ND HL HR.
    - destruct p as [|c p]; [constructor|]. cbn in HL. lia.
    - inversion ND as [|a' l' Hna ND']; subst a' l'.
      assert (Ha : pe p a = zero) by (apply HR; left; reflexivity).
      apply (quot_zero p a); [|exact Ha].
      apply IH.
      + exact ND'.
      + rewrite quot_length. cbn [length] in HL. lia.
      + intros x Hx. apply quot_root; [|exact Ha|apply HR; right; exact Hx].
        intros E. apply Hna. rewrite <- E. exact Hx.
  Qed.

  Theorem peval_inj : forall p q xs,
    length p = length q -> NoDup xs -> length p <= length xs ->
    (forall x, In x xs -> pe p x = pe q x) -> p = q.
  Proof.
    intros p q xs HL ND HLx HE.
    apply psub_zero_eq; [exact HL|].
    apply (root_bound _ xs ND).
    - rewrite psub_length; assumption.
    - intros x Hx. rewrite peval_psub, (HE x Hx). ring.
  Qed.

  Lemma in_others : forall n i j,
    In j (filter (fun j => negb (Nat.eqb j i)) (seq 0 n)) <-> j < n /\ j <> i.
  Proof.
    intros n i j. rewrite filter_In, in_seq, negb_true_iff, Nat.eqb_neq. lia.
  Qed.

  Theorem lagr_delta : forall pts i j,
    NoDup pts -> i < length pts -> j < length pts ->
    flagr pts i (nth j pts zero) = if Nat.eqb i j then one else zero.
  Proof.
    intros pts i j ND Hi Hj. unfold lagr.
    destruct (Nat.eqb_spec i j) as [E|NE].
    - subst j. apply prod_all_one. intros y Hy.
      apply in_map_iff in Hy. destruct Hy as [m [Hm Hin]].
      apply in_others in Hin. destruct Hin as [Hmk Hmi].
      subst y. apply mul_inv_r. apply sub_neq_zero.
      intros E. apply Hmi. symmetry. apply (proj1 (NoDup_nth pts zero) ND i m Hi Hmk E).
    - apply prod_has_zero. apply in_map_iff. exists j. split.
      + ring.
      + apply in_others. split; [exact Hj|]. intros E. apply NE. symmetry. exact E.
  Qed.

  Lemma lagr_one_inv : forall pts i x,
    NoDup pts -> i < length pts ->
    flagr pts i x
    = mul (fprod (map (fun j => fsub x (nth j pts zero))
                      (filter (fun j => negb (Nat.eqb j i)) (seq 0 (length pts)))))
          (inv (fprod (map (fun j => fsub (nth i pts zero) (nth j pts zero))
                           (filter (fun j => negb (Nat.eqb j i)) (seq 0 (length pts)))))).
  Proof.
    intros pts i x ND Hi. unfold lagr.
    apply (prod_div nat (fun j => fsub x (nth j pts zero))).
    intros j Hj. apply in_others in Hj. destruct Hj as [Hj Hji].
    apply sub_neq_zero. intros E. apply Hji. symmetry. exact (proj1 (NoDup_nth pts zero) ND i j Hi Hj E).
  Qed.

  Lemma sum_delta : forall (f : nat -> F) (d : nat -> F) n j,
    j < n ->
    (forall i, i < n -> d i = if Nat.eqb i j then one else zero) ->
    fsum (map (fun i => mul (f i) (d i)) (seq 0 n)) = f j.
  Proof.
    intros f d n j Hj Hd.
    assert (Hz : forall i, i < n -> i <> j -> mul (f i) (d i) = zero).
    { intros i Hi Hne. rewrite (Hd i Hi). destruct (Nat.eqb_spec i j); [contradiction|ring]. }
    (* the sum is split at j *)
    replace n with (j + S (n - S j)) at 1 by lia.
    rewrite seq_app, map_app, sum_app. cbn [seq map Nat.add]. rewrite sum_cons, !sum_map_zero.
    - rewrite (Hd j Hj), Nat.eqb_refl. ring.
    - intros i Hi. apply in_seq in Hi. apply Hz; lia.
    - intros i Hi. apply in_seq in Hi. apply Hz; lia.
  Qed.

  Theorem rs_systematic : forall pts src j,
    NoDup pts -> length src = length pts -> j < length pts ->
    frs pts src (nth j pts zero) = nth j src zero.
  Proof.
    intros pts src j ND HL Hj. unfold rs_sym.
    apply (sum_delta (fun i => nth i src zero)
                     (fun i => flagr pts i (nth j pts zero)) (length pts) j Hj).
    intros i Hi. rewrite (lagr_delta pts i j ND Hi Hj). reflexivity.
  Qed.

  Lemma lagr_poly_length : forall pts i, i < length pts ->
    length (flagr_poly pts i) = length pts.
  Proof.
    intros pts i Hi. unfold lagr_poly.
    transitivity (S (length (filter (fun j => negb (Nat.eqb j i)) (seq 0 (length pts))))).
    - generalize (filter (fun j => negb (Nat.eqb j i)) (seq 0 (length pts))).
      intros l. induction l as [|j l IH]; [reflexivity|].
      cbn [fold_right length]. rewrite pmul_lin_length, IH. reflexivity.
    - rewrite filter_neqb_length, seq_length; [lia|apply seq_NoDup|apply in_seq; lia].
  Qed.

  Lemma peval_lagr_poly : forall pts i x, pe (flagr_poly pts i) x = flagr pts i x.
  Proof.
    intros pts i x. unfold lagr_poly, lagr.
    generalize (filter (fun j => negb (Nat.eqb j i)) (seq 0 (length pts))).
    intros l. induction l as [|j l IH].
    - cbn. ring.
    - cbn [fold_right map]. rewrite peval_pmul_lin, prod_cons, IH. ring.
  Qed.

  Lemma rs_poly_length : forall pts src, length (frs_poly pts src) = length pts.
  Proof.
    intros pts src. unfold rs_poly. apply psum_length.
    intros q Hq. apply in_map_iff in Hq. destruct Hq as [i [Eq Hi]].
    apply in_seq in Hi. subst q. rewrite pscale_length.
    apply lagr_poly_length. lia.
  Qed.

  Lemma peval_rs_poly : forall pts src x, pe (frs_poly pts src) x = frs pts src x.
  Proof.
    intros pts src x. unfold rs_poly, rs_sym.
    rewrite peval_psum, map_map. f_equal. apply map_ext. intros i.
    rewrite peval_pscale, peval_lagr_poly. reflexivity.
  Qed.

  Theorem rs_sym_is_poly : forall pts src,
    NoDup pts -> length src = length pts ->
    exists p, length p = length pts /\ forall x, frs pts src x = pe p x.
  Proof.
    intros pts src _ _. exists (frs_poly pts src). split.
    - apply rs_poly_length.
    - intros x. symmetry. apply peval_rs_poly.
  Qed.

  Theorem rs_mds : forall pts src src' ys,
    NoDup pts -> length src = length pts -> length src' = length pts ->
    NoDup ys -> length ys = length pts ->
    (forall y, In y ys -> frs pts src y = frs pts src' y) -> src = src'.
  Proof.
    intros pts src src' ys ND HL HL' NDy HLy HE.
    assert (EP : frs_poly pts src = frs_poly pts src').
    { apply (peval_inj _ _ ys).
      - rewrite !rs_poly_length. reflexivity.
      - exact NDy.
      - rewrite rs_poly_length. lia.
      - intros y Hy. rewrite !peval_rs_poly. apply HE. exact Hy. }
    apply (nth_ext src src' zero zero).
    - lia.
    - intros j Hj. rewrite HL in Hj.
      rewrite <- (rs_systematic pts src j ND HL Hj).
      rewrite <- (rs_systematic pts src' j ND HL' Hj).
      rewrite <- !peval_rs_poly, EP. reflexivity.
  Qed.

  Theorem rs_vandermonde : forall pts t x,
    NoDup pts -> t < length pts ->
    fsum (map (fun i => mul (flagr pts i x) (fpow (nth i pts zero) t))
              (seq 0 (length pts))) = fpow x t.
  Proof.
    intros pts t x ND Ht.
    set (src := map (fun a => fpow a t) pts).
    assert (HL : length src = length pts) by (unfold src; apply map_length).
    assert (Hsrc : forall i, i < length pts -> nth i src zero = fpow (nth i pts zero) t).
    { intros i Hi. unfold src.
      rewrite (nth_indep _ zero (fpow zero t)) by (rewrite map_length; exact Hi).
      apply (map_nth (fun a => fpow a t)). }
    transitivity (frs pts src x).
    - unfold rs_sym. apply sum_map_ext_in. intros i Hi. apply in_seq in Hi.
      rewrite Hsrc by lia. ring.
    - rewrite <- peval_rs_poly, <- (peval_mono t (length pts) x).
      f_equal. apply (peval_inj _ _ pts).
      + rewrite rs_poly_length, mono_length by exact Ht. reflexivity.
      + exact ND.
      + rewrite rs_poly_length. lia.
      + intros y Hy. destruct (In_nth pts y zero Hy) as [j [Hj Ey]]. subst y.
        rewrite peval_rs_poly, peval_mono, (rs_systematic pts src j ND HL Hj).
        apply Hsrc. exact Hj.
  Qed.

  Lemma lin_ext : forall pts (g : list F) x,
    (forall t, t < length pts ->
       fsum (map (fun i => mul (nth i g zero) (fpow (nth i pts zero) t))
                 (seq 0 (length pts))) = fpow x t) ->
    forall q s, s + length q <= length pts ->
      fsum (map (fun i => mul (nth i g zero)
                              (mul (fpow (nth i pts zero) s) (pe q (nth i pts zero))))
                (seq 0 (length pts)))
      = mul (fpow x s) (pe q x).
  Proof.
    intros pts g x HV q. induction q as [|c q IH]; intros s Hs.
    - rewrite sum_map_zero.
      + rewrite peval_nil. ring.
      + intros i _. rewrite peval_nil. ring.
    - cbn [length] in Hs.
      rewrite (sum_map_ext_in _ _
        (fun i => add (mul c (mul (nth i g zero) (fpow (nth i pts zero) s)))
                      (mul (nth i g zero)
                           (mul (fpow (nth i pts zero) (S s)) (pe q (nth i pts zero)))))).
      + rewrite sum_map_add, sum_map_scale, (HV s) by lia.
        rewrite (IH (S s)) by lia. rewrite peval_cons. cbn [pow]. ring.
      + intros i _. rewrite peval_cons. cbn [pow]. ring.
  Qed.

  Theorem gen_row_unique : forall pts (g : list F) x,
    NoDup pts -> length g = length pts ->
    (forall t, t < length pts ->
       fsum (map (fun i => mul (nth i g zero) (fpow (nth i pts zero) t))
                 (seq 0 (length pts))) = fpow x t) ->
    forall i, i < length pts -> nth i g zero = flagr pts i x.
  Proof.
    intros pts g x ND HL HV m Hm.
    pose proof (lin_ext pts g x HV (flagr_poly pts m) 0) as H.
    rewrite lagr_poly_length in H by exact Hm. specialize (H (le_n _)).
    rewrite peval_lagr_poly in H. cbn [pow] in H.
    transitivity (mul one (flagr pts m x)); [|ring].
    rewrite <- H. symmetry.
    apply (sum_delta (fun i => nth i g zero)
             (fun i => mul one (pe (flagr_poly pts m) (nth i pts zero)))
             (length pts) m Hm).
    intros i Hi. rewrite peval_lagr_poly, (lagr_delta pts m i ND Hm Hi).
    rewrite (Nat.eqb_sym i m). ring.
  Qed.

  Lemma lagr_as_sum : forall pts i x, i < length pts ->
    flagr pts i x
    = fsum (map (fun m => mul (fpow x m) (nth m (flagr_poly pts i) zero)) (seq 0 (length pts))).
  Proof.
    intros pts i x Hi.
    rewrite <- peval_lagr_poly, peval_as_sum, lagr_poly_length by exact Hi. reflexivity.
  Qed.

  Lemma quot_self_neq_zero : forall pts c r,
    NoDup pts -> length c = length pts ->
    (forall x, In x pts -> pe (c ++ [one]) x = zero) -> r < length pts ->
    pe (fquot (c ++ [one]) (nth r pts zero)) (nth r pts zero) <> zero.
  Proof.
    intros pts c r ND HL Hroots Hr E.
    assert (HLq : length (fquot (c ++ [one]) (nth r pts zero)) = length pts).
    { rewrite quot_length, app_length. cbn [length]. lia. }
    (* otherwise the quotient, of degree k - 1, has k roots *)
    assert (HF : Forall (fun a => a = zero) (fquot (c ++ [one]) (nth r pts zero))).
    { apply (root_bound _ pts ND); [lia|]. intros x Hx.
      destruct (eq_dec x (nth r pts zero)) as [->|Hne]; [exact E|].
      apply quot_root; [exact Hne|apply Hroots, nth_In, Hr|apply Hroots, Hx]. }
    apply one_neq_zero. rewrite <- (quot_monic_top c (nth r pts zero)) by lia.
    rewrite Forall_forall in HF. apply HF, nth_In. lia.
  Qed.

  (* A monic polynomial c ++ [one] of degree k with the k roots pts, divided by X - p_r and
     normalised at p_r, is Lagrange basis polynomial number r: what of_invert_vdm computes. *)
  Theorem quot_lagr_poly : forall pts c r,
    NoDup pts -> length c = length pts ->
    (forall x, In x pts -> pe (c ++ [one]) x = zero) -> r < length pts ->
    fpscale (inv (pe (fquot (c ++ [one]) (nth r pts zero)) (nth r pts zero)))
            (fquot (c ++ [one]) (nth r pts zero))
    = flagr_poly pts r.
  Proof.
    intros pts c r ND HL Hroots Hr.
    assert (HLq : length (fquot (c ++ [one]) (nth r pts zero)) = length pts).
    { rewrite quot_length, app_length. cbn [length]. lia. }
    apply (peval_inj _ _ pts).
    - rewrite pscale_length, lagr_poly_length by exact Hr. exact HLq.
    - exact ND.
    - rewrite pscale_length. lia.
    - intros x Hx. destruct (In_nth pts x zero Hx) as [l [Hl <-]].
      rewrite peval_pscale, peval_lagr_poly, (lagr_delta pts r l ND Hr Hl).
      destruct (Nat.eqb_spec r l) as [<-|Nrl].
      + rewrite mul_comm. apply mul_inv_r, quot_self_neq_zero; assumption.
      + rewrite (quot_root _ _ (nth l pts zero)); [ring| |apply Hroots, nth_In, Hr|apply Hroots, nth_In, Hl].
        intros E. apply Nrl. exact (proj1 (NoDup_nth pts zero) ND r l Hr Hl (eq_sym E)).
  Qed.
End Theory.

Print Assumptions root_bound.
Print Assumptions peval_inj.
Print Assumptions lagr_delta.
Print Assumptions rs_systematic.
Print Assumptions rs_sym_is_poly.
Print Assumptions rs_mds.
Print Assumptions rs_vandermonde.
Print Assumptions gen_row_unique.
