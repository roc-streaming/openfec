(* C15: what OF_CRTL_LDPC_STAIRCASE_IS_LAST_SYMBOL_NULL answers IS the claim the theorems are about.  gen/GenClaim.v is
   regenerated on every run from that case of of_ldpc_staircase_get_control_parameter (tools/gen_params.py).  For every N1 a
   UINT8 can hold and the two values the construction stores in extra_entries_added_in_pchk (0, 1) the C answers
   last_symbol_null_claim N1 extra.  The comparison `== true` is kept as the C has it: a stored value other than 0 or 1
   would read as "no extra entry" (the closed example below; seed C15f stored the count). *)
From Coq Require Import ZArith Arith List Bool Lia.
From OFV Require Import CSem Pchk.
From OFV.gen Require Import GenClaim.
Import ListNotations.
Local Open Scope Z_scope.

(* the C tests the low bit of N1 *)
Lemma low_bit_even (n : nat) : (Z.land (Z.of_nat n) 1 =? 0) = Nat.even n.
Proof.
  change 1 with (Z.ones 1). rewrite Z.land_ones by lia. change (2 ^ 1) with 2.
  destruct (Nat.even n) eqn:E.
  - apply Nat.even_spec in E as (h & ->). rewrite Nat2Z.inj_mul, Z.mul_comm, Z.mod_mul by lia. reflexivity.
  - apply (f_equal negb) in E. rewrite Nat.negb_even in E. apply Nat.odd_spec in E as (h & ->).
    rewrite Nat2Z.inj_add, Nat2Z.inj_mul, Z.add_comm, Z.mul_comm, Z.mod_add by lia. reflexivity.
Qed.

Theorem is_last_symbol_null_answers_the_claim : forall (n1 : nat) (extra : bool), (n1 < 256)%nat ->
  is_last_symbol_null_case (Z.of_nat n1) (if extra then 1 else 0) = Some (if last_symbol_null_claim n1 extra then 1 else 0).
Proof.
  intros n1 extra H. unfold is_last_symbol_null_case, last_symbol_null_claim. destruct extra.
  - rewrite andb_false_r. reflexivity.
  - change (0 =? wrapu32 1) with false. cbv iota zeta.
    assert (W : wraps32 (Z.of_nat n1) = Z.of_nat n1).
    { unfold wraps32, wraps. change (2 ^ (32 - 1)) with 2147483648. change (2 ^ 32) with 4294967296.
      rewrite Z.mod_small; lia. }
    rewrite W, low_bit_even, andb_true_r. destruct (Nat.even n1); reflexivity.
Qed.

(* the flag is compared with `true` (= 1): any other stored value reads as "nothing added" *)
Example a_flag_value_of_two_reads_as_no_extra_entry : is_last_symbol_null_case 4 2 = Some 1.
Proof. reflexivity. Qed.

Print Assumptions is_last_symbol_null_answers_the_claim.
