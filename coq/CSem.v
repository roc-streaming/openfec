(* Target language of the C -> Gallina translator (tools/c2gallina.py): C integer and double
   operations as total/partial functions on Z and Flocq binary64.
   None = undefined behaviour in C (out-of-range float->integer conversion, signed overflow,
   oversized shift, division by zero). *)
From Coq Require Import ZArith Bool.
From Flocq Require Import Core.Core IEEE754.BinarySingleNaN.
Local Open Scope Z_scope.

Definition bind {A B} (o : option A) (f : A -> option B) : option B :=
  match o with Some a => f a | None => None end.

Definition wrapu (n z : Z) : Z := z mod 2 ^ n.
Definition wrapu64 := wrapu 64.
Definition wrapu32 := wrapu 32.
Definition wrapu16 := wrapu 16.
Definition wrapu8 := wrapu 8.
(* conversion to _Bool: any nonzero value becomes 1 (not z mod 2) *)
Definition wrapu1 (z : Z) : Z := if z =? 0 then 0 else 1.
(* conversion to a signed type: implementation-defined in C; gcc/clang wrap (two's complement) *)
Definition wraps (n z : Z) : Z := (z + 2 ^ (n - 1)) mod 2 ^ n - 2 ^ (n - 1).
Definition wraps64 := wraps 64.
Definition wraps32 := wraps 32.
Definition wraps16 := wraps 16.
Definition wraps8 := wraps 8.

(* the guards the translator puts around a result: the signed value z fits n bits (chk_s); the shift amount
   is in 0 .. w-1 (chk_shift w amount v) and the divisor is not 0 (chk_div d v), v being the result guarded *)
Definition chk_s (n z : Z) : option Z :=
  if (- 2 ^ (n - 1) <=? z) && (z <? 2 ^ (n - 1)) then Some z else None.
Definition chk_s32 := chk_s 32.
Definition chk_s64 := chk_s 64.
Definition chk_shift (w amount v : Z) : option Z :=
  if (0 <=? amount) && (amount <? w) then Some v else None.
Definition chk_div (d v : Z) : option Z := if d =? 0 then None else Some v.

Definition b2z (b : bool) : Z := if b then 1 else 0.
Definition z2b (z : Z) : bool := negb (z =? 0).

(* IEEE 754 binary64, round to nearest even (the default C floating-point environment) *)
Definition prec64 : Z := 53.
Definition emax64 : Z := 1024.
Definition binary64 := binary_float prec64 emax64.
Global Instance prec64_gt_0 : Prec_gt_0 prec64.  Proof. reflexivity. Qed.
Global Instance prec64_lt_emax : Prec_lt_emax prec64 emax64.  Proof. reflexivity. Qed.

Definition d_of_Z (z : Z) : binary64 :=
  binary_normalize prec64 emax64 prec64_gt_0 prec64_lt_emax mode_NE z 0 false.
Definition d_mul : binary64 -> binary64 -> binary64 := Bmult mode_NE.
Definition d_div : binary64 -> binary64 -> binary64 := Bdiv mode_NE.
Definition d_add : binary64 -> binary64 -> binary64 := Bplus mode_NE.
Definition d_sub : binary64 -> binary64 -> binary64 := Bminus mode_NE.
Definition d_neg : binary64 -> binary64 := Bopp.
Definition d_fabs : binary64 -> binary64 := Babs.
Definition d_ceil : binary64 -> binary64 := Bnearbyint mode_UP.
Definition d_floor : binary64 -> binary64 := Bnearbyint mode_DN.
Definition d_lt : binary64 -> binary64 -> bool := Bltb.
Definition d_le : binary64 -> binary64 -> bool := Bleb.
Definition d_gt (x y : binary64) : bool := Bltb y x.
Definition d_ge (x y : binary64) : bool := Bleb y x.
Definition d_eq : binary64 -> binary64 -> bool := Beqb.
Definition d_ne (x y : binary64) : bool := negb (Beqb x y).

(* (T) x for a double x: truncation toward zero; undefined unless the truncated value fits T *)
Definition d_to_int (lo hi : Z) (x : binary64) : option Z :=
  if is_finite x then
    let z := Btrunc x in if (lo <=? z) && (z <=? hi) then Some z else None
  else None.
Definition d_to_u64 := d_to_int 0 (2 ^ 64 - 1).
Definition d_to_u32 := d_to_int 0 (2 ^ 32 - 1).
Definition d_to_i32 := d_to_int (- 2 ^ 31) (2 ^ 31 - 1).
Definition d_to_i64 := d_to_int (- 2 ^ 63) (2 ^ 63 - 1).
