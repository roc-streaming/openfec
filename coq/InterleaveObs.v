(* C12, sessions are independent of each other - the observational version.
   Interleave.sessions_independent_proof asks for EQUAL next states, which is not available for of_finish_decoding:
   its internal state is computed along the injection order drawn from the shared rand(), and only its observable part
   (status, source part of the table, completion flag) is independent of that order.  So: the generic theorem for
   machines whose steps preserve a relation R between session states and give equal outputs on R-related states,
   whatever the two global states are (sessions_independent_obs, from Interleave.grun_solo_rel); the permutation loop
   of of_finish_decoding yields a permutation of 0..r-1 for every sequence of rand() values (shuffle_perm); the
   observables after ml_finish do not depend on the permutation nor on the fuel (finish_observables_perm_independent);
   and a complete LDPC-Staircase session machine (Submit, Finish drawing from the shared state, Query) is an instance
   of the generic theorem (lstep, ldpc_sessions_independent_full). *)
From Coq Require Import List Arith Bool Lia Permutation.
From OFV Require Import XorGroup ITModel ITLemmas ITProofs MLModel MLSimplify LdpcEnc MLFinish MLSession Interleave.
From OFV Require MLNoDecode StableTables DenseSolveComplete.
Import ListNotations.

Section ObsI.
Variables G S Op Out : Type.
Variable step : G -> S -> Op -> G * S * Out.
Variable R : S -> S -> Prop.
Hypothesis step_obs : forall s s', R s s' -> forall g g' o,
  R (snd (fst (step g s o))) (snd (fst (step g' s' o))) /\ snd (step g s o) = snd (step g' s' o).

Lemma solo_obs : forall ops g g' s s', R s s' ->
  solo G S Op Out step g s ops = solo G S Op Out step g' s' ops.
Proof. exact (solo_rel G S Op Out step R step_obs). Qed.

Theorem sessions_independent_obs : forall h g st i g' s', R (st i) s' ->
  outs_of Out i (grun G S Op Out step g st h) = solo G S Op Out step g' s' (ops_of Op i h).
Proof. exact (grun_solo_rel G S Op Out step R step_obs). Qed.
End ObsI.

(* the shuffle of of_linear_binary_code_finish_decoding_with_ml
     for (t = 0; t < r; t++) pm[t] = t;
     for (t = 0; t < r; t++) { backup = pm[t]; rv = rand() % r; pm[t] = pm[rv]; pm[rv] = backup; } *)
(* one iteration: pm[t] = pm[rv]; pm[rv] = backup (the old pm[t]) *)
Definition swap_step (pm : list nat) (t rv : nat) : list nat :=
  upd (upd pm t (nth rv pm 0)) rv (nth t pm 0).

(* rvs = the values returned by rand(), in the order of the calls; the model reduces them mod r;
   a missing value is read as 0 *)
Definition shuffle (r : nat) (rvs : list nat) : list nat :=
  fold_left (fun pm t => swap_step pm t (nth t rvs 0 mod r)) (seq 0 r) (seq 0 r).

Lemma swap_step_length pm t rv : length (swap_step pm t rv) = length pm.
Proof. unfold swap_step. now rewrite !upd_length. Qed.

(* the transposition of positions *)
Definition tr (t rv k : nat) : nat := if k =? rv then t else if k =? t then rv else k.

Lemma tr_invol t rv k : tr t rv (tr t rv k) = k.
Proof.
  unfold tr.
  destruct (Nat.eqb_spec k rv) as [->|H1].
  - destruct (Nat.eqb_spec t rv) as [->|H2]; [reflexivity|]. now rewrite Nat.eqb_refl.
  - destruct (Nat.eqb_spec k t) as [->|H2].
    + now rewrite Nat.eqb_refl.
    + destruct (Nat.eqb_spec k rv); [contradiction|]. destruct (Nat.eqb_spec k t); [contradiction|reflexivity].
Qed.

Lemma tr_lt t rv k m : t < m -> rv < m -> k < m -> tr t rv k < m.
Proof. intros A B C. unfold tr. destruct (k =? rv); [exact A|]. destruct (k =? t); [exact B|exact C]. Qed.

Lemma swap_step_tr pm t rv k : t < length pm -> rv < length pm ->
  nth k (swap_step pm t rv) 0 = nth (tr t rv k) pm 0.
Proof.
  intros Ht Hrv. unfold swap_step, tr.
  destruct (Nat.eqb_spec k rv) as [->|Hk].
  - apply nth_upd_eq. now rewrite upd_length.
  - rewrite nth_upd_neq by auto.
    destruct (Nat.eqb_spec k t) as [->|Hk2]; [now apply nth_upd_eq|now apply nth_upd_neq; auto].
Qed.

(* one iteration reads the old list through an involution of the positions *)
Lemma swap_step_perm pm t rv : t < length pm -> rv < length pm -> Permutation pm (swap_step pm t rv).
Proof.
  intros Ht Hrv. apply (Permutation_nth _ _ 0). split; [apply swap_step_length|].
  exists (tr t rv). split; [intros k; now apply tr_lt|]. split.
  - intros a b _ _ E. rewrite <- (tr_invol t rv a), E. apply tr_invol.
  - intros k _. now apply swap_step_tr.
Qed.

Lemma shuffle_loop r rvs : forall ts pm, length pm = r -> (forall t, In t ts -> t < r) ->
  Permutation pm (fold_left (fun pm t => swap_step pm t (nth t rvs 0 mod r)) ts pm).
Proof.
  induction ts as [|t ts IH]; intros pm Hl Hts; cbn [fold_left]; [reflexivity|].
  assert (Ht : t < r) by (apply Hts; now left).
  assert (Hrv : nth t rvs 0 mod r < r) by (apply Nat.mod_upper_bound; lia).
  transitivity (swap_step pm t (nth t rvs 0 mod r)); [apply swap_step_perm; now rewrite Hl|].
  apply IH; [now rewrite swap_step_length|]. intros x Hx. apply Hts. now right.
Qed.

Theorem shuffle_Permutation r rvs : Permutation (seq 0 r) (shuffle r rvs).
Proof. apply shuffle_loop; [apply seq_length|]. intros t Ht. apply in_seq in Ht. lia. Qed.

Theorem shuffle_perm r rvs :
  (forall c, c < r -> In c (shuffle r rvs)) /\ (forall c, In c (shuffle r rvs) -> c < r)
  /\ NoDup (shuffle r rvs) /\ length (shuffle r rvs) = r.
Proof.
  pose proof (shuffle_Permutation r rvs) as P.
  split; [|split; [|split]].
  - intros c Hc. apply (Permutation_in _ P). apply in_seq. lia.
  - intros c Hc. apply (Permutation_in _ (Permutation_sym P)) in Hc. apply in_seq in Hc. lia.
  - exact (Permutation_NoDup P (seq_NoDup r 0)).
  - rewrite <- (Permutation_length P). apply seq_length.
Qed.

Section FinishObs.
Variable Sy : Type. Variable sxor : Sy -> Sy -> Sy. Variable s0 : Sy.
Hypothesis sxor_assoc : forall a b c, sxor a (sxor b c) = sxor (sxor a b) c.
Hypothesis sxor_comm : forall a b, sxor a b = sxor b a.
Hypothesis sxor_0_l : forall a, sxor s0 a = a.
Hypothesis sxor_nilp : forall a, sxor a a = s0.

Variable H0 : list (list nat).
Variable R0 N0 : nat.
Hypothesis H0_len : length H0 = R0.
Hypothesis H0_nodup : forall i, i < R0 -> NoDup (nth i H0 []).
Hypothesis H0_range : forall i c, i < R0 -> In c (nth i H0 []) -> c < N0.
Hypothesis H0_deg : forall i, i < R0 -> 2 <= length (nth i H0 []).
Hypothesis R_le_N : R0 <= N0.
Hypothesis H0_cols : forall c, c < N0 -> exists i, i < R0 /\ In c (nth i H0 []).
Hypothesis H0_stair : stair R0 H0.
Hypothesis Sy_nontrivial : exists a : Sy, a <> s0.
Variable cw : nat -> Sy.
Hypothesis parity : forall i, i < R0 -> xs Sy sxor s0 cw (nth i H0 []) = s0.

Notation st := (st Sy).
Notation WF := (WF Sy R0 N0).
Notation iscomp := (iscomp Sy R0 N0).
Notation run := (run Sy sxor s0 H0 R0 N0).
Notation cwhist hist := (forall ev : nat * Sy, In ev hist -> fst ev < N0 /\ snd ev = cw (fst ev)).
Notation isperm perm := ((forall c, c < R0 -> In c perm) /\ (forall c, In c perm -> c < R0)).


Lemma run_cw_good (hist : list (nat * Sy)) (s : st) : cwhist hist -> run (S N0) hist = Some s -> Good Sy H0 R0 N0 s.
Proof.
  intros Hh. apply (MLNoDecode.run_good Sy sxor s0 H0 R0 N0 H0_len H0_nodup H0_range H0_deg R_le_N).
  intros ev Hev. apply (Hh ev Hev).
Qed.

Lemma flag_iff (s : st) : WF s -> (fst (is_complete s) = true <-> iscomp s).
Proof.
  intros W. pose proof (is_complete_spec Sy H0 R0 N0 H0_len R_le_N s W) as X.
  destruct (is_complete s) as [b sx]. cbn [fst]. apply X.
Qed.

Lemma give_up_wf (s2 : st) o : WF s2 -> give_up Sy s2 = Some o -> WF (o_st o) /\ tab (o_st o) = tab s2.
Proof.
  intros W H. unfold give_up in H.
  pose proof (is_complete_spec Sy H0 R0 N0 H0_len R_le_N s2 W) as X.
  destruct (is_complete s2) as [b sx]. injection H as <-. cbn [o_st].
  destruct X as (A & B & _). split; [exact A|exact B].
Qed.

(* the part of the finish after the injections: the outcome is well formed, and a status other than
   OK comes from a give-up exit, which leaves the table alone *)
Lemma ml_tail_wf k (s1 : st) o : MLInv Sy sxor s0 H0 R0 N0 cw s1 -> ml_tail Sy sxor s0 k s1 = Some o ->
  WF (o_st o) /\ (o_ok o = false -> tab (o_st o) = tab s1).
Proof.
  intros I1 H. pose proof (ml_wf Sy sxor s0 H0 R0 N0 cw s1 I1) as W. unfold ml_tail in H.
  destruct ((length (cols_of Sy s1) =? 0) || (length (rows_of Sy s1) <? length (cols_of Sy s1))).
  - destruct (give_up_wf s1 o W H) as (A & B). split; [exact A|intros _; exact B].
  - assert (W2 : WF (with_ct Sy s1 (snd (take_ct (idx_of Sy s1) (ct s1))))).
    { destruct W as [Wr Wn Wrws Wunk Wenc Wct Wtab Wfnd Wcur].
      constructor; unfold with_ct; cbn [r n rws unk enc ct tab fnd]; try assumption.
      rewrite (proj2 (take_ct_length Sy _ _)). exact Wct. }
    match type of H with match ?sv with Some _ => _ | None => _ end = _ => destruct sv as [x|] end.
    + (* solved: the table is rewritten, keeping its length and what it held *)
      injection H as <-. cbn [o_st o_ok]. split; [|discriminate].
      destruct W2 as [Wr Wn Wrws Wunk Wenc Wct Wtab Wfnd Wcur].
      constructor; cbn [r n rws unk enc ct tab fnd with_ct] in *; try assumption.
      * rewrite write_back_length. exact Wtab.
      * intros j Hj. destruct (known_inv _ _ (Wcur j Hj)) as (v & Ev). cbn [tab with_ct] in Ev.
        apply (known_some _ _ v). exact (StableTables.write_back_tab Sy s0 _ x _ (tab s1) (R0 + j) v Ev).
    + destruct (give_up_wf _ o W2 H) as (A & B). split; [exact A|intros _; exact B].
Qed.

(* What the application can see of one finish is a function of the received history alone: status and
   completion flag say whether the sources are determined; the source part of the table then holds
   the codeword, and otherwise is the table the finish started from. *)
Lemma finish_determined (hist : list (nat * Sy)) (s : st) fuel perm o :
  cwhist hist -> run (S N0) hist = Some s -> N0 < fuel -> isperm perm ->
  ml_finish sxor s0 fuel perm s = Some o ->
  (o_ok o = true <-> DetR Sy H0 R0 N0 hist)
  /\ (fst (is_complete (o_st o)) = true <-> DetR Sy H0 R0 N0 hist)
  /\ forall c, R0 <= c -> nth c (tab (o_st o)) None =
       if o_ok o then (if c <? N0 then Some (cw c) else None) else nth c (tab s) None.
Proof.
  intros Hh Hrun Hf (Hp1 & Hp2) Ho.
  destruct (ldpc_session_finish Sy sxor s0 sxor_assoc sxor_comm sxor_0_l sxor_nilp H0 R0 N0 H0_len H0_nodup H0_range
              H0_deg R_le_N H0_cols H0_stair Sy_nontrivial cw parity hist s fuel perm o Hh Hrun Hf Hp1 Hp2 Ho)
    as (V & Kp & OK & D).
  destruct (run_facts Sy sxor s0 sxor_assoc sxor_comm sxor_0_l sxor_nilp H0 R0 N0 H0_len H0_nodup H0_range
              H0_deg R_le_N cw parity (S N0) hist s Hh Hrun) as (P & _ & _).
  destruct (reduce_main_JF Sy sxor s0 sxor_assoc sxor_comm sxor_0_l sxor_nilp H0 R0 N0 H0_len H0_nodup H0_range
              H0_deg R_le_N Sy_nontrivial cw parity fuel perm s P Hf Hp1 Hp2) as (s1 & Hs1 & I1 & _).
  pose proof Ho as Ho'. rewrite ml_finish_eq, Hs1 in Ho'.
  destruct (ml_tail_wf _ s1 o I1 Ho') as (Wo & Ht).
  split; [now rewrite OK|]. split; [now rewrite (flag_iff _ Wo)|].
  intros c Hc. destruct (o_ok o) eqn:Eok.
  - (* OK: every source is known, with its codeword value; the table has N0 entries *)
    destruct (Nat.ltb_spec c N0) as [Hlt|Hge]; [|apply nth_overflow; now rewrite (wf_tab Sy R0 N0 _ Wo)].
    destruct (known_inv _ _ (proj1 OK eq_refl c (conj Hc Hlt))) as (v & Ev). now rewrite Ev, (V c v Ev).
  - (* not OK: the tail gave up, and s was not complete, so the injections did not touch the table *)
    rewrite (Ht eq_refl). f_equal.
    apply (MLNoDecode.ml_finish_injection_tab Sy sxor H0 R0 N0 H0_len H0_nodup R_le_N fuel perm s s1
             (run_cw_good hist s Hh Hrun)); [|exact Hs1].
    intros C. assert (C' : iscomp (o_st o)); [|apply OK in C'; discriminate C'].
    intros c' Hc'. exact (proj1 (Stab_known Sy s (o_st o) Kp) c' (C c' Hc')).
Qed.

(* the observable part of the outcome of of_finish_decoding does not depend on the order in
   which the repair symbols are injected (nor on the fuel) *)
Theorem finish_observables_perm_independent (hist : list (nat * Sy)) (s : st) fuel1 fuel2 perm1 perm2 o1 o2 :
  cwhist hist -> run (S N0) hist = Some s -> N0 < fuel1 -> N0 < fuel2 -> isperm perm1 -> isperm perm2 ->
  ml_finish sxor s0 fuel1 perm1 s = Some o1 -> ml_finish sxor s0 fuel2 perm2 s = Some o2 ->
  o_ok o1 = o_ok o2
  /\ (forall c, R0 <= c -> nth c (tab (o_st o1)) None = nth c (tab (o_st o2)) None)
  /\ fst (is_complete (o_st o1)) = fst (is_complete (o_st o2)).
Proof.
  intros Hh Hrun F1 F2 P1 P2 O1 O2.
  destruct (finish_determined hist s fuel1 perm1 o1 Hh Hrun F1 P1 O1) as (K1 & C1 & T1).
  destruct (finish_determined hist s fuel2 perm2 o2 Hh Hrun F2 P2 O2) as (K2 & C2 & T2).
  assert (E : o_ok o1 = o_ok o2) by (apply eq_true_iff_eq; now rewrite K1, K2).
  split; [exact E|]. split.
  - intros c Hc. now rewrite (T1 c Hc), (T2 c Hc), E.
  - apply eq_true_iff_eq. now rewrite C1, C2.
Qed.

(* the decoder states a session can be in before of_finish_decoding *)
Definition Reach (it : st) : Prop := exists hist : list (nat * Sy), cwhist hist /\ run (S N0) hist = Some it.

Lemma Reach_init : Reach (init Sy R0 N0 H0).
Proof. exists []. split; [intros ev []|reflexivity]. Qed.

Lemma Reach_submit (it : st) c : Reach it -> c < N0 ->
  exists it', decode sxor s0 (S N0) it c (cw c) = Some it' /\ Reach it'.
Proof.
  intros (hist & Hh & Hrun) Hc.
  destruct (decode_total_good Sy sxor s0 H0 R0 N0 H0_len H0_nodup H0_range H0_deg R_le_N (S N0) it c (cw c)
              (run_cw_good hist it Hh Hrun) Hc (Nat.lt_succ_diag_r N0)) as (it' & Ed).
  exists it'. split; [exact Ed|]. exists (hist ++ [(c, cw c)]). split.
  - intros ev Hev. apply in_app_or in Hev. destruct Hev as [Hev|[<-|[]]]; [exact (Hh ev Hev)|]. split; [exact Hc|reflexivity].
  - unfold ITProofs.run in *. rewrite fold_left_app, Hrun. cbn [fold_left fst snd]. exact Ed.
Qed.

(* of_finish_decoding from a reachable state: it returns, and what it shows is the same for any two
   injection orders *)
Lemma Reach_finish (it : st) fuel1 fuel2 perm1 perm2 : Reach it ->
  N0 < fuel1 -> N0 < fuel2 -> isperm perm1 -> isperm perm2 ->
  exists o1 o2, ml_finish sxor s0 fuel1 perm1 it = Some o1 /\ ml_finish sxor s0 fuel2 perm2 it = Some o2
  /\ o_ok o1 = o_ok o2
  /\ (forall c, R0 <= c -> nth c (tab (o_st o1)) None = nth c (tab (o_st o2)) None)
  /\ fst (is_complete (o_st o1)) = fst (is_complete (o_st o2)).
Proof.
  intros (hist & Hh & Hrun) F1 F2 P1 P2.
  pose proof (ldpc_session_finish_total Sy sxor s0 sxor_assoc sxor_comm sxor_0_l sxor_nilp H0 R0 N0 H0_len H0_nodup
                H0_range H0_deg R_le_N H0_cols H0_stair Sy_nontrivial cw parity hist it) as T.
  destruct (T fuel1 perm1 Hh Hrun F1 (proj1 P1) (proj2 P1)) as (o1 & O1).
  destruct (T fuel2 perm2 Hh Hrun F2 (proj1 P2) (proj2 P2)) as (o2 & O2).
  exists o1, o2. split; [exact O1|]. split; [exact O2|].
  exact (finish_observables_perm_independent hist it fuel1 fuel2 perm1 perm2 o1 o2 Hh Hrun F1 F2 P1 P2 O1 O2).
Qed.
End FinishObs.

Section Machine.
Variable Sy : Type. Variable sxor : Sy -> Sy -> Sy. Variable s0 : Sy.
Hypothesis sxor_assoc : forall a b c, sxor a (sxor b c) = sxor (sxor a b) c.
Hypothesis sxor_comm : forall a b, sxor a b = sxor b a.
Hypothesis sxor_0_l : forall a, sxor s0 a = a.
Hypothesis sxor_nilp : forall a, sxor a a = s0.
Hypothesis Sy_nontrivial : exists a : Sy, a <> s0.

(* the state all sessions share (the state of the C library's rand()); draw g k = the next k values
   of rand() and the state after them.  Nothing is assumed about it. *)
Variable G : Type.
Variable draw : G -> nat -> list nat * G.

(* per-session configuration: parity-check rows (as lists of matrix columns), number of rows = number
   of repair symbols, number of columns, and the codeword the application submits symbols of *)
Record cfg := mkcfg { cH : list (list nat); cR : nat; cN : nat; ccw : nat -> Sy }.

(* the hypotheses of MLSession.Session *)
Record WFcfg (c : cfg) : Prop := {
  wc_len : length (cH c) = cR c;
  wc_nodup : forall i, i < cR c -> NoDup (nth i (cH c) []);
  wc_range : forall i col, i < cR c -> In col (nth i (cH c) []) -> col < cN c;
  wc_deg : forall i, i < cR c -> 2 <= length (nth i (cH c) []);
  wc_le : cR c <= cN c;
  wc_cols : forall col, col < cN c -> exists i, i < cR c /\ In col (nth i (cH c) []);
  wc_stair : stair (cR c) (cH c);
  wc_parity : forall i, i < cR c -> xs Sy sxor s0 (ccw c) (nth i (cH c) []) = s0 }.

Inductive lop := Submit (col : nat) | Finish | Query.

(* session state: the configuration, the decoder state (None = sink, never reached from the initial
   state of a well-formed configuration) and "of_finish_decoding has been called" *)
Record lsess := mks { l_cfg : cfg; l_it : option (st Sy); l_fin : bool }.

Definition init_sess (c : cfg) : lsess := mks c (Some (init Sy (cR c) (cN c) (cH c))) false.

(* observables: completion flag and the source part of the symbol table (columns R .. N-1) *)
Definition obs_it (c : cfg) (it : st Sy) : bool * list (option Sy) :=
  (fst (is_complete it), map (fun col => nth col (tab it) None) (seq (cR c) (cN c - cR c))).
Definition obs (s : lsess) : bool * list (option Sy) :=
  match l_it s with Some it => obs_it (l_cfg s) it | None => (false, []) end.

(* output of every operation: (status, completion flag, source table);
   status 0 = OK, 1 = FAILURE (finish: not all sources recovered), 2 = refused, 3 = sink *)
Definition lout := (nat * bool * list (option Sy))%type.
Definition out (code : nat) (s : lsess) : lout := (code, fst (obs s), snd (obs s)).

(* Submit col : the application submits column col with its codeword value (duplicates allowed, any
                order); an out-of-range column is refused.
   Finish     : R values are drawn from the shared state, perm := shuffle R rvs, ml_finish.
   Query      : no state change.
   The protocol ends with Finish: Submit / Finish on a finished session leave the state unchanged and
   return the current observables with status 2 (this is the documented end of the protocol, not a
   model of what the C does there). *)
Definition lstep (g : G) (s : lsess) (o : lop) : G * lsess * lout :=
  match l_it s with
  | None => (g, s, out 3 s)
  | Some it =>
    let c := l_cfg s in
    match o with
    | Query => (g, s, out 0 s)
    | Submit col =>
        if l_fin s then (g, s, out 2 s) else
        if col <? cN c then
          match decode sxor s0 (S (cN c)) it col (ccw c col) with
          | Some it' => (g, mks c (Some it') false, out 0 (mks c (Some it') false))
          | None => (g, mks c None false, out 3 (mks c None false))
          end
        else (g, s, out 2 s)
    | Finish =>
        if l_fin s then (g, s, out 2 s) else
        match ml_finish sxor s0 (S (cN c)) (shuffle (cR c) (fst (draw g (cR c)))) it with
        | Some oc => (snd (draw g (cR c)), mks c (Some (o_st oc)) true,
                      out (if o_ok oc then 0 else 1) (mks c (Some (o_st oc)) true))
        | None => (snd (draw g (cR c)), mks c None true, out 3 (mks c None true))
        end
    end
  end.

Definition ReachC (c : cfg) (it : st Sy) : Prop := Reach Sy sxor s0 (cH c) (cR c) (cN c) (ccw c) it.


(* the relation R for sessions_independent_obs: both are the same unfinished session of a well-formed configuration in a
   reachable decoder state, or both are finished sessions with the same observables *)
Inductive Rl : lsess -> lsess -> Prop :=
| Rl_open c it : WFcfg c -> ReachC c it -> Rl (mks c (Some it) false) (mks c (Some it) false)
| Rl_done c it it' : obs_it c it = obs_it c it' -> Rl (mks c (Some it) true) (mks c (Some it') true).

Lemma Rl_init c : WFcfg c -> Rl (init_sess c) (init_sess c).
Proof. intros W. apply Rl_open; [exact W|apply Reach_init]. Qed.

Lemma shuffle_isperm r rvs : (forall c, c < r -> In c (shuffle r rvs)) /\ (forall c, In c (shuffle r rvs) -> c < r).
Proof. destruct (shuffle_perm r rvs) as (A & B & _). split; [exact A|exact B]. Qed.

Lemma lstep_obs : forall s s', Rl s s' -> forall g g' o,
  Rl (snd (fst (lstep g s o))) (snd (fst (lstep g' s' o))) /\ snd (lstep g s o) = snd (lstep g' s' o).
Proof.
  intros s s' [c it W Re|c it it' Eo] g g' o.
  - (* an unfinished session, the same on both sides *)
    pose proof (Rl_open c it W Re) as HR0.
    destruct o as [col| |]; unfold lstep; cbn [l_cfg l_it l_fin]; [| |split; [exact HR0|reflexivity]].
    + (* Submit *)
      destruct (Nat.ltb_spec col (cN c)) as [Hc|Hc]; [|split; [exact HR0|reflexivity]].
      destruct (Reach_submit Sy sxor s0 (cH c) (cR c) (cN c) (wc_len c W) (wc_nodup c W) (wc_range c W) (wc_deg c W)
                  (wc_le c W) (ccw c) it col Re Hc) as (it1 & Ed & Re1).
      rewrite Ed. split; [exact (Rl_open c it1 W Re1)|reflexivity].
    + (* Finish: the two sides draw different values *)
      pose proof (Nat.lt_succ_diag_r (cN c)) as Hfu.
      destruct (Reach_finish Sy sxor s0 sxor_assoc sxor_comm sxor_0_l sxor_nilp (cH c) (cR c) (cN c)
                  (wc_len c W) (wc_nodup c W) (wc_range c W) (wc_deg c W) (wc_le c W) (wc_cols c W) (wc_stair c W)
                  Sy_nontrivial (ccw c) (wc_parity c W) it (S (cN c)) (S (cN c))
                  (shuffle (cR c) (fst (draw g (cR c)))) (shuffle (cR c) (fst (draw g' (cR c))))
                  Re Hfu Hfu (shuffle_isperm _ _) (shuffle_isperm _ _))
        as (o1 & o2 & O1 & O2 & Eok & Etab & Efl).
      rewrite O1, O2. cbn [fst snd].
      assert (Eobs : obs_it c (o_st o1) = obs_it c (o_st o2)).
      { unfold obs_it. rewrite Efl. f_equal.
        apply map_ext_in. intros col Hcol. apply in_seq in Hcol. apply Etab. lia. }
      split; [exact (Rl_done c _ _ Eobs)|].
      unfold out, obs. cbn [l_cfg l_it]. now rewrite Eobs, Eok.
  - (* two finished sessions with the same observables: nothing changes any more *)
    pose proof (Rl_done c it it' Eo) as HR0.
    destruct o as [col| |]; unfold lstep, out, obs; cbn [l_cfg l_it l_fin fst snd]; rewrite Eo;
      (split; [exact HR0|reflexivity]).
Qed.


(* C12 for the complete LDPC-Staircase session: whatever the interleaving with other sessions (in any
   states, of any configurations) and whatever the shared rand() state, session i returns what it
   returns when run alone from any other rand() state *)
Theorem ldpc_sessions_independent_full : forall (c : cfg), WFcfg c ->
  forall (h : list (nat * lop)) (g g' : G) (st : nat -> lsess) (i : nat), st i = init_sess c ->
  outs_of lout i (grun G lsess lop lout lstep g st h) = solo G lsess lop lout lstep g' (st i) (ops_of lop i h).
Proof.
  intros c W h g g' st i Hi.
  apply (sessions_independent_obs G lsess lop lout lstep Rl lstep_obs).
  rewrite Hi. exact (Rl_init c W).
Qed.
End Machine.

(* the hypotheses are satisfiable: a small staircase code over bool, and a run *)
Section Example.
Definition ex_cfg : cfg bool :=
  mkcfg bool [[0;3;4];[1;0;4;5];[2;1;3;4;5]] 3 6 (fun c => nth c [true;false;false;true;false;true] false).

Lemma ex_cfg_wf : WFcfg bool xorb false ex_cfg.
Proof.
  constructor; cbn [ex_cfg cH cR cN ccw].
  - reflexivity.
  - intros i Hi. destruct i as [|[|[|i]]]; [| | |lia]; cbn [nth]; repeat constructor; cbn [In]; lia.
  - intros i col Hi Hin. destruct i as [|[|[|i]]]; [| | |lia]; cbn [nth In] in Hin; lia.
  - intros i Hi. destruct i as [|[|[|i]]]; [| | |lia]; cbn [nth length]; lia.
  - lia.
  - intros col Hc. destruct col as [|[|[|[|[|[|col]]]]]]; [exists 0|exists 1|exists 2|exists 0|exists 0|exists 1|lia];
      (split; [lia|cbn [nth In]; lia]).
  - split; [reflexivity|]. intros c Hc. destruct c as [|[|[|c]]]; [| | |lia]; cbn [nth];
      (split; [repeat constructor; cbn [In]; lia|]; split; [cbn [In]; lia|]; intros x Hx Hne; cbn [In] in Hx; lia).
  - intros i Hi. destruct i as [|[|[|i]]]; [reflexivity|reflexivity|reflexivity|lia].
Qed.

(* a shared state that is a counter; rand() returns 7 * counter + 3 *)
Definition ex_draw (g : nat) (k : nat) : list nat * nat := (map (fun j => 7 * (g + j) + 3) (seq 0 k), g + k).

Example ex_run :
  solo nat (lsess bool) lop (lout bool) (lstep bool xorb false nat ex_draw) 0 (init_sess bool ex_cfg)
       [Submit 0; Submit 1; Query; Submit 2; Finish; Submit 4; Query]
  = [(0, false, [None; None; None]); (0, false, [None; None; None]); (0, false, [None; None; None]);
     (0, false, [None; None; None]);
     (0, true, [Some true; Some false; Some true]);      (* the three sources come from the Gaussian elimination *)
     (2, true, [Some true; Some false; Some true]);      (* refused: the protocol has ended *)
     (0, true, [Some true; Some false; Some true])].
Proof. vm_compute. reflexivity. Qed.

Corollary ex_sessions_independent : forall (G : Type) (draw : G -> nat -> list nat * G)
  (h : list (nat * lop)) (g g' : G) (st : nat -> lsess bool) (i : nat), st i = init_sess bool ex_cfg ->
  outs_of (lout bool) i (grun G (lsess bool) lop (lout bool) (lstep bool xorb false G draw) g st h)
  = solo G (lsess bool) lop (lout bool) (lstep bool xorb false G draw) g' (st i) (ops_of lop i h).
Proof.
  intros G draw. apply (ldpc_sessions_independent_full bool xorb false
    DenseSolveComplete.bx_assoc DenseSolveComplete.bx_comm DenseSolveComplete.bx_0_l xorb_nilpotent
    (ex_intro _ true diff_true_false) G draw ex_cfg ex_cfg_wf).
Qed.
End Example.

Print Assumptions sessions_independent_obs.
Print Assumptions shuffle_perm.
Print Assumptions finish_observables_perm_independent.
Print Assumptions ldpc_sessions_independent_full.
Print Assumptions ex_sessions_independent.
