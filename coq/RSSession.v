(* RSSession: the session-level theorem of the two Reed-Solomon codecs.

   The API-layer model of RSApi (of_decode_with_new_symbol / of_set_available_symbols /
   of_finish_decoding / of_is_decoding_complete / of_get_source_symbols_tab) is composed with
   the decoding core of RSCore (selection, decode matrix, Gauss-Jordan inversion, product):
     B    := N                              one field element per symbol
     core := fun k' t => rs_core256 k' n t   (resp. rs_core16)
     mk   := fun _ v => v                    the decoded buffer holds the decoded value
     cb   arbitrary.
   For every code size 1 <= k <= n <= 256 (resp. 16), every source block src and every history
   h of submissions of elements of the codeword of src (any order, duplicates allowed):
     R1  every entry of the table is empty or holds the codeword element of its position
         (for a source position: the source element itself), at any time;
     R2  as soon as k distinct symbols have been submitted the session is complete and the
         source table is exactly src (with or without a final of_finish_decoding);
     R3  with fewer than k distinct symbols of_finish_decoding fails, nothing is returned and
         the session is not complete;
     R2'/R3' the same for the of_set_available_symbols path (whole table given at once).

   Section Gen proves R1, R2, R2' for any buffer type, core and codeword satisfying the record
   Code; R3, R3' hold whatever the submitted values are (Section Few).  RSEndToEnd uses both with
   B := list of bytes.  R2 with of_finish_decoding (q = 256 and q = 16) and R2' at q = 256 are
   stated in Properties_C02.v. *)
From Coq Require Import List Arith NArith Bool Lia.
From OFV Require Import ListAux RSApi RSApiProofs RSCanon RSCore.
Import ListNotations.

(* the decoded buffer holds the decoded value *)
Definition mkid : nat -> N -> N := fun _ v => v.

Lemma all_some : forall (B : Type) (l : list (option B)), count_some l = length l ->
  forall j, j < length l -> nth j l None <> None.
Proof.
  intros B l. induction l as [|a l IH]; intros Hc j Hj.
  - cbn [length] in Hj. lia.
  - pose proof (count_some_le_length B l) as Hle.
    unfold count_some in *. destruct a as [v|]; cbn [filter is_some length] in *; [|lia].
    destruct j as [|j]; cbn [nth]; [discriminate|apply IH; lia].
Qed.

(* a table of n entries, each empty or the codeword element of its position *)
Definition CW {B : Type} (n : nat) (el : nat -> B) (t : list (option B)) : Prop :=
  length t = n /\ forall e, e < n -> nth e t None = None \/ nth e t None = Some (el e).

(* el is a systematic codeword of src, and core decodes it from any k of its n elements *)
Set Implicit Arguments.
Record Code {B : Type} (d : B) (core : nat -> list (option B) -> option (list B)) (k n : nat)
            (src : list B) (el : nat -> B) : Prop := {
  c_k1 : 1 <= k;
  c_kn : k <= n;
  c_len : length src = k;
  c_sys : forall e, e < k -> el e = nth e src d;
  c_ok : forall t : list (option B), length t = n -> k <= count_some t ->
    exists vals, core k t = Some vals /\ length vals = k;
  c_cw : forall t, CW n el t -> k <= count_some t -> core k t = Some src }.
Unset Implicit Arguments.

Section Gen.
  Variable B : Type.
  Variable d : B.
  Variable core : nat -> list (option B) -> option (list B).
  Variable cb : bool.
  Variable mk : nat -> B -> B.
  Variables k n : nat.
  Variable src : list B.
  Variable el : nat -> B.                 (* the codeword of src *)

  Hypothesis mk_id : forall i v, mk i v = v.
  Hypothesis C : Code d core k n src el.

  (* all the k sources present in a table of codeword elements: they are src *)
  Lemma cw_firstn : forall t, CW n el t -> count_some (firstn k t) = k -> firstn k t = map Some src.
  Proof.
    intros t [HL Ht] Hc. pose proof (c_kn C) as Hkn. pose proof (c_len C) as Hls.
    assert (HLf : length (firstn k t) = k) by (apply firstn_length_le; lia).
    apply (nth_ext _ _ None (Some d)); [rewrite map_length; lia|].
    intros j Hj. rewrite HLf in Hj. rewrite map_nth, nth_firstn_lt by exact Hj.
    destruct (Ht j ltac:(lia)) as [E|E]; [|rewrite E, (c_sys C) by exact Hj; reflexivity].
    destruct (all_some B (firstn k t) ltac:(lia) j ltac:(lia)). rewrite nth_firstn_lt by exact Hj. exact E.
  Qed.

  (* the copy-out loop on a table compatible with the decoded values *)
  Lemma fill_tab : forall (vals : list B) (t : list (option B)) i ev,
    length vals <= length t ->
    (forall j, j < length vals -> nth j t None = None \/ nth j t None = Some (nth j vals d)) ->
    fst (fill cb mk vals t i ev) = map Some vals ++ skipn (length vals) t.
  Proof.
    intros vals. induction vals as [|v vals IH]; intros t i ev HL H.
    - destruct t; reflexivity.
    - destruct t as [|e t]; [cbn [length] in HL; lia|].
      cbn [length] in HL, H.
      assert (Ht : forall j, j < length vals ->
                   nth j t None = None \/ nth j t None = Some (nth j vals d)).
      { intros j Hj. apply (H (S j)). lia. }
      pose proof (H 0 ltac:(lia)) as H0. cbn [nth] in H0.
      cbn [fill length skipn map app].
      destruct e as [x|].
      + specialize (IH t (S i) ev ltac:(lia) Ht).
        destruct (fill cb mk vals t (S i) ev) as [t2 ev2]. cbn [fst] in *.
        destruct H0 as [H0|H0]; [discriminate H0|]. rewrite IH, H0. reflexivity.
      + specialize (IH t (S i) (if cb then ev ++ [i] else ev) ltac:(lia) Ht).
        destruct (fill cb mk vals t (S i) (if cb then ev ++ [i] else ev)) as [t2 ev2].
        cbn [fst] in *. rewrite IH, mk_id. reflexivity.
  Qed.

  Lemma cw_filled : forall t, CW n el t -> CW n el (map Some src ++ skipn k t).
  Proof.
    intros t [HL Ht]. destruct C as [_ Hkn Hls el_sys _ _]. split.
    - rewrite app_length, map_length, skipn_length. lia.
    - intros e He. destruct (Nat.lt_ge_cases e k) as [Hek|Hek].
      + right. rewrite app_nth1 by (rewrite map_length; lia).
        rewrite (nth_map_lt Some src e d), el_sys by lia. reflexivity.
      + rewrite app_nth2 by (rewrite map_length; lia). rewrite map_length, Hls.
        rewrite nth_skipn. replace (k + (e - k)) with e by lia. apply Ht. exact He.
  Qed.

  (* the invariant along a history of submissions of codeword elements *)
  Record J (s : rs B) : Prop := {
    j_k : rk s = k;
    j_cw : CW n el (tab s);
    j_open : fin s = false -> counted s;
    j_done : fin s = true -> firstn k (tab s) = map Some src }.

  (* of_finish_decoding on an open session holding at least k codeword elements *)
  Lemma finish_cw : forall s : rs B, fin s = false -> rk s = k -> CW n el (tab s) -> counted s ->
    k <= navail s ->
    let r := rs_finish core cb mk s in snd r = OK /\ fin (fst r) = true /\ J (fst r).
  Proof.
    intros s Hf Hk Hcw [Hna Hns] Hge. cbv zeta. unfold rs_finish. rewrite Hf, Hk.
    pose proof (c_kn C) as Hkn. pose proof (c_len C) as Hls.
    destruct (Nat.ltb_spec (navail s) k) as [Hlt|_]; [lia|].
    destruct (Nat.eqb_spec (navail_src s) k) as [Heq|Hne].
    - cbn [fst snd]. split; [reflexivity|]. split; [reflexivity|].
      constructor; cbn [fin rk tab]; [reflexivity|exact Hcw|discriminate|].
      intros _. apply cw_firstn; [exact Hcw|]. rewrite <- Hk at 1. congruence.
    - rewrite (c_cw C Hcw ltac:(lia)). destruct Hcw as [HL Ht].
      pose proof (fill_tab src (tab s) 0 (evs s)) as HF.
      destruct (fill cb mk src (tab s) 0 (evs s)) as [t2 ev2]. cbn [fst] in HF.
      rewrite HF, Hls.
      + cbn [fst snd]. split; [reflexivity|]. split; [reflexivity|].
        constructor; cbn [fin rk tab]; [reflexivity|apply cw_filled; split; assumption|discriminate|].
        intros _. rewrite <- Hls, <- (map_length Some src), <- (Nat.add_0_r (length _)), firstn_app_2. apply app_nil_r.
      + lia.
      + intros j Hj. destruct (Ht j ltac:(lia)) as [E|E]; [left; exact E|right].
        rewrite E, (c_sys C) by lia. reflexivity.
  Qed.

  Lemma init_J : J (rs_init B k n).
  Proof.
    constructor; cbn [rs_init rk tab fin]; [reflexivity| |intros _; apply init_counted|discriminate].
    split; [apply repeat_length|]. intros e _. left. apply nth_repeat_none.
  Qed.

  Lemma finish_J : forall s, J s -> J (fst (rs_finish core cb mk s)).
  Proof.
    intros s I. destruct (fin s) eqn:Hf; [rewrite finish_done by exact Hf; exact I|].
    destruct (Nat.lt_ge_cases (navail s) k) as [Hlt|Hge].
    - rewrite finish_few by (rewrite ?(j_k s I); assumption). exact I.
    - apply (finish_cw s Hf (j_k s I) (j_cw s I) (j_open s I Hf) Hge).
  Qed.

  Lemma step_J : forall s e, J s -> e < n -> J (step B core cb mk s (e, el e)).
  Proof.
    intros s e I He.
    destruct (fin s) eqn:Hf; [rewrite step_ignored by (left; exact Hf); exact I|].
    destruct (j_cw s I) as [HL Ht].
    destruct (nth e (tab s) None) as [x|] eqn:Hx; [rewrite step_ignored by (right; congruence); exact I|].
    rewrite step_fresh by (rewrite ?HL; auto using j_open). cbv zeta.
    set (t1 := upd (tab s) e (Some (el e))). set (s1 := fst (rs_set_available s t1)).
    assert (I1 : J s1).
    { constructor.
      - exact (j_k s I).
      - change (CW n el t1). unfold t1. split; [rewrite upd_length; exact HL|].
        intros e' He'. destruct (Nat.eq_dec e e') as [<-|Hne].
        + right. apply nth_upd_eq. lia.
        + rewrite nth_upd_neq by exact Hne. apply Ht. exact He'.
      - intros _. split; reflexivity.
      - intros F. change (fin s = true) in F. congruence. }
    rewrite (j_k s I). destruct (k <=? navail s1); [apply finish_J|]; exact I1.
  Qed.

  (* a history of submissions of codeword elements *)
  Definition cw_hist (h : list (nat * B)) : Prop :=
    forall ev, In ev h -> fst ev < n /\ snd ev = el (fst ev).

  Lemma run_J : forall h, cw_hist h -> J (run B core cb mk k n h).
  Proof.
    intros h. unfold run. generalize init_J. generalize (rs_init B k n).
    induction h as [|[e b] h IH]; intros s I Hh; cbn [fold_left]; [exact I|].
    destruct (Hh (e, b) (or_introl eq_refl)) as [H1 H2]. cbn [fst snd] in H1, H2. subst b.
    apply IH; [apply step_J; assumption|]. intros ev' Hin. apply Hh. right. exact Hin.
  Qed.

  Lemma J_source : forall s, J s -> fin s = true -> rs_source_tab s = Some (map Some src).
  Proof. intros s I Hf. unfold rs_source_tab. rewrite Hf, (j_k s I), (j_done s I Hf). reflexivity. Qed.

  Definition cw_table (t : list (option B)) : Prop :=
    length t = n /\
    forall e, e < n ->
      (nth e t None = None \/ nth e t None = Some (el e)) /\
      (e < k -> nth e t None = None \/ nth e t None = Some (nth e src d)).

  Lemma CW_cw_table : forall t, CW n el t -> cw_table t.
  Proof.
    intros t [HL Ht]. split; [exact HL|]. intros e He. split; [apply Ht; exact He|].
    intros Hek. rewrite <- (c_sys C) by exact Hek. apply Ht. exact He.
  Qed.

  Theorem gen_run_table : forall h, cw_hist h -> forall s,
    s = run B core cb mk k n h \/ s = fst (rs_finish core cb mk (run B core cb mk k n h)) ->
    cw_table (tab s).
  Proof.
    intros h Hh s Hs. pose proof (run_J h Hh) as I. apply CW_cw_table, j_cw.
    destruct Hs as [->| ->]; [|apply finish_J]; exact I.
  Qed.

  Theorem gen_run_complete : forall h, cw_hist h -> k <= ndistinct n (map fst h) ->
    rs_is_complete (run B core cb mk k n h) = true /\
    rs_source_tab (run B core cb mk k n h) = Some (map Some src).
  Proof.
    intros h Hh Hd.
    assert (Hf : fin (run B core cb mk k n h) = true).
    { apply (rs_complete_iff_k_distinct_proof B core cb mk k n (c_kn C) (c_ok C) h (c_k1 C)
               (fun ev Hin => proj1 (Hh ev Hin))). exact Hd. }
    split; [exact Hf|]. apply J_source; [apply run_J; exact Hh|exact Hf].
  Qed.

  Theorem gen_session_recovers : forall h, cw_hist h -> k <= ndistinct n (map fst h) ->
    let r := rs_finish core cb mk (run B core cb mk k n h) in
    snd r = OK /\ rs_source_tab (fst r) = Some (map Some src).
  Proof.
    intros h Hh Hd. destruct (gen_run_complete h Hh Hd) as [Hf Hs].
    cbv zeta. rewrite finish_done by exact Hf. split; [reflexivity|exact Hs].
  Qed.

  (* R2': of_set_available_symbols then of_finish_decoding *)
  Theorem gen_avail_recovers : forall t : list (option B), length t = n ->
    (forall e, e < n -> nth e t None = None \/ nth e t None = Some (el e)) ->
    k <= count_some t ->
    let r := rs_finish core cb mk (fst (rs_set_available (rs_init B k n) t)) in
    snd r = OK /\ rs_is_complete (fst r) = true /\
    rs_source_tab (fst r) = Some (map Some src).
  Proof.
    intros t HL Ht Hc.
    destruct (finish_cw (fst (rs_set_available (rs_init B k n) t)) eq_refl eq_refl (conj HL Ht)
                (conj eq_refl eq_refl) Hc) as (Ho & Hf & I).
    split; [exact Ho|]. split; [exact Hf|]. apply J_source; assumption.
  Qed.
End Gen.

(* R3 / R3': fewer than k symbols (whatever the submitted values are) *)
Section Few.
  Variable B : Type.
  Variable core : nat -> list (option B) -> option (list B).
  Variables (cb : bool) (mk : nat -> B -> B).
  Variables k n : nat.
  Hypothesis Hk1 : 1 <= k.
  Hypothesis Hkn : k <= n.
  Hypothesis core_ok : forall t : list (option B), length t = n -> k <= count_some t ->
    exists vals, core k t = Some vals /\ length vals = k.

  Theorem gen_session_too_few : forall h : list (nat * B),
    (forall ev, In ev h -> fst ev < n) -> ndistinct n (map fst h) < k ->
    let r := rs_finish core cb mk (run B core cb mk k n h) in
    snd r = FAILURE /\ rs_source_tab (fst r) = None /\
    rs_is_complete (run B core cb mk k n h) = false.
  Proof.
    intros h Hh Hd. cbv zeta.
    pose proof (run_inv B core cb mk k n Hkn core_ok Hk1 h Hh) as I.
    destruct (fin (run B core cb mk k n h)) eqn:Hf; [pose proof (i_done B k n _ _ I Hf); lia|].
    destruct (inv_open_count B k n _ _ I Hf) as [_ Hlt].
    rewrite finish_few by (rewrite ?(i_k B k n _ _ I); assumption).
    unfold rs_source_tab, rs_is_complete. cbn [fst snd]. rewrite Hf. repeat split.
  Qed.
End Few.

Theorem gen_avail_too_few :
  forall (B : Type) (core : nat -> list (option B) -> option (list B)) (cb : bool) (mk : nat -> B -> B)
         (k n : nat) (t : list (option B)),
  count_some t < k ->
  let r := rs_finish core cb mk (fst (rs_set_available (rs_init B k n) t)) in
  snd r = FAILURE /\ rs_is_complete (fst r) = false /\ rs_source_tab (fst r) = None.
Proof.
  intros B core cb mk k n t Hc. cbv zeta. rewrite finish_few by (try exact Hc; reflexivity).
  repeat split.
Qed.

Lemma code256 : forall k n (src : list N), 1 <= k <= n -> n <= 256 -> length src = k ->
  Forall (fun a => (a < 256)%N) src ->
  Code 0%N (fun k' t => rs_core256 k' n t) k n src (elem256 k src).
Proof.
  intros k n src [Hk1 Hkn] Hn Hls HF. constructor; try assumption.
  - intros e He. apply elem256_systematic; [lia|assumption..].
  - exact (rs_core256_core_ok k n Hn).
  - intros t [HL Ht] Hc. apply rs_core256_correct; auto.
Qed.

Lemma code16 : forall k n (src : list N), 1 <= k <= n -> n <= 16 -> length src = k ->
  Forall (fun a => (a < 16)%N) src ->
  Code 0%N (fun k' t => rs_core16 k' n t) k n src (elem16 k src).
Proof.
  intros k n src [Hk1 Hkn] Hn Hls HF. constructor; try assumption.
  - intros e He. apply elem16_systematic; [lia|assumption..].
  - exact (rs_core16_core_ok k n Hn).
  - intros t [HL Ht] Hc. apply rs_core16_correct; auto.
Qed.

(* q = 256 (the of_rs codec): core := fun k' t => rs_core256 k' n t *)

(* R1: at any time (before or after of_finish_decoding) every entry of the table is empty or
   holds the codeword element of its position; a source entry is empty or holds the source *)
Theorem rs256_run_table :
  forall (cb : bool) (k n : nat) (src : list N) (h : list (nat * N)),
  1 <= k <= n -> n <= 256 -> length src = k -> Forall (fun a => (a < 256)%N) src ->
  (forall ev, In ev h -> fst ev < n /\ snd ev = elem256 k src (fst ev)) ->
  let core := fun k' t => rs_core256 k' n t in
  forall s : rs N,
  s = run N core cb mkid k n h \/ s = fst (rs_finish core cb mkid (run N core cb mkid k n h)) ->
  length (tab s) = n /\
  forall e, e < n ->
    (nth e (tab s) None = None \/ nth e (tab s) None = Some (elem256 k src e)) /\
    (e < k -> nth e (tab s) None = None \/ nth e (tab s) None = Some (nth e src 0%N)).
Proof.
  intros cb k n src h Hk Hn Hls HF Hh core s Hs.
  exact (gen_run_table N 0%N core cb mkid k n src _ (fun _ _ => eq_refl) (code256 k n src Hk Hn Hls HF) h Hh s Hs).
Qed.

(* R2, without of_finish_decoding: the submission of the k-th distinct symbol completes the
   session and the source table is src *)
Theorem rs256_run_recovers_the_sources :
  forall (cb : bool) (k n : nat) (src : list N) (h : list (nat * N)),
  1 <= k <= n -> n <= 256 -> length src = k -> Forall (fun a => (a < 256)%N) src ->
  (forall ev, In ev h -> fst ev < n /\ snd ev = elem256 k src (fst ev)) ->
  k <= ndistinct n (map fst h) ->
  let core := fun k' t => rs_core256 k' n t in
  rs_is_complete (run N core cb mkid k n h) = true /\
  rs_source_tab (run N core cb mkid k n h) = Some (map Some src).
Proof.
  intros cb k n src h Hk Hn Hls HF Hh Hd core.
  exact (gen_run_complete N 0%N core cb mkid k n src _ (fun _ _ => eq_refl) (code256 k n src Hk Hn Hls HF) h Hh Hd).
Qed.

(* R3 (the submitted values are arbitrary, in particular codeword elements) *)
Theorem rs256_session_too_few :
  forall (cb : bool) (mk : nat -> N -> N) (k n : nat) (h : list (nat * N)),
  1 <= k <= n -> n <= 256 ->
  (forall ev, In ev h -> fst ev < n) ->
  ndistinct n (map fst h) < k ->
  let core := fun k' t => rs_core256 k' n t in
  let r := rs_finish core cb mk (run N core cb mk k n h) in
  snd r = FAILURE /\ rs_source_tab (fst r) = None /\
  rs_is_complete (run N core cb mk k n h) = false.
Proof.
  intros cb mk k n h [Hk1 Hkn] Hn Hh Hd core.
  exact (gen_session_too_few N core cb mk k n Hk1 Hkn (rs_core256_core_ok k n Hn) h Hh Hd).
Qed.

(* R3 in the form of the codeword histories of R1/R2 *)
Corollary rs256_session_too_few_cw :
  forall (cb : bool) (k n : nat) (src : list N) (h : list (nat * N)),
  1 <= k <= n -> n <= 256 -> length src = k -> Forall (fun a => (a < 256)%N) src ->
  (forall ev, In ev h -> fst ev < n /\ snd ev = elem256 k src (fst ev)) ->
  ndistinct n (map fst h) < k ->
  let core := fun k' t => rs_core256 k' n t in
  let r := rs_finish core cb mkid (run N core cb mkid k n h) in
  snd r = FAILURE /\ rs_source_tab (fst r) = None /\
  rs_is_complete (run N core cb mkid k n h) = false.
Proof.
  intros cb k n src h Hk Hn _ _ Hh Hd.
  exact (rs256_session_too_few cb mkid k n h Hk Hn (fun ev Hin => proj1 (Hh ev Hin)) Hd).
Qed.

Theorem rs256_avail_too_few :
  forall (cb : bool) (mk : nat -> N -> N) (k n : nat) (t : list (option N)),
  count_some t < k ->
  let core := fun k' t => rs_core256 k' n t in
  let r := rs_finish core cb mk (fst (rs_set_available (rs_init N k n) t)) in
  snd r = FAILURE /\ rs_is_complete (fst r) = false /\ rs_source_tab (fst r) = None.
Proof. intros cb mk k n t Hc core. exact (gen_avail_too_few N core cb mk k n t Hc). Qed.

(* q = 16 (the of_rs_2_m codec with m = 4): core := fun k' t => rs_core16 k' n t *)
Theorem rs16_run_table :
  forall (cb : bool) (k n : nat) (src : list N) (h : list (nat * N)),
  1 <= k <= n -> n <= 16 -> length src = k -> Forall (fun a => (a < 16)%N) src ->
  (forall ev, In ev h -> fst ev < n /\ snd ev = elem16 k src (fst ev)) ->
  let core := fun k' t => rs_core16 k' n t in
  forall s : rs N,
  s = run N core cb mkid k n h \/ s = fst (rs_finish core cb mkid (run N core cb mkid k n h)) ->
  length (tab s) = n /\
  forall e, e < n ->
    (nth e (tab s) None = None \/ nth e (tab s) None = Some (elem16 k src e)) /\
    (e < k -> nth e (tab s) None = None \/ nth e (tab s) None = Some (nth e src 0%N)).
Proof.
  intros cb k n src h Hk Hn Hls HF Hh core s Hs.
  exact (gen_run_table N 0%N core cb mkid k n src _ (fun _ _ => eq_refl) (code16 k n src Hk Hn Hls HF) h Hh s Hs).
Qed.

Theorem rs16_run_recovers_the_sources :
  forall (cb : bool) (k n : nat) (src : list N) (h : list (nat * N)),
  1 <= k <= n -> n <= 16 -> length src = k -> Forall (fun a => (a < 16)%N) src ->
  (forall ev, In ev h -> fst ev < n /\ snd ev = elem16 k src (fst ev)) ->
  k <= ndistinct n (map fst h) ->
  let core := fun k' t => rs_core16 k' n t in
  rs_is_complete (run N core cb mkid k n h) = true /\
  rs_source_tab (run N core cb mkid k n h) = Some (map Some src).
Proof.
  intros cb k n src h Hk Hn Hls HF Hh Hd core.
  exact (gen_run_complete N 0%N core cb mkid k n src _ (fun _ _ => eq_refl) (code16 k n src Hk Hn Hls HF) h Hh Hd).
Qed.

Theorem rs16_session_too_few :
  forall (cb : bool) (mk : nat -> N -> N) (k n : nat) (h : list (nat * N)),
  1 <= k <= n -> n <= 16 ->
  (forall ev, In ev h -> fst ev < n) ->
  ndistinct n (map fst h) < k ->
  let core := fun k' t => rs_core16 k' n t in
  let r := rs_finish core cb mk (run N core cb mk k n h) in
  snd r = FAILURE /\ rs_source_tab (fst r) = None /\
  rs_is_complete (run N core cb mk k n h) = false.
Proof.
  intros cb mk k n h [Hk1 Hkn] Hn Hh Hd core.
  exact (gen_session_too_few N core cb mk k n Hk1 Hkn (rs_core16_core_ok k n Hn) h Hh Hd).
Qed.

Corollary rs16_session_too_few_cw :
  forall (cb : bool) (k n : nat) (src : list N) (h : list (nat * N)),
  1 <= k <= n -> n <= 16 -> length src = k -> Forall (fun a => (a < 16)%N) src ->
  (forall ev, In ev h -> fst ev < n /\ snd ev = elem16 k src (fst ev)) ->
  ndistinct n (map fst h) < k ->
  let core := fun k' t => rs_core16 k' n t in
  let r := rs_finish core cb mkid (run N core cb mkid k n h) in
  snd r = FAILURE /\ rs_source_tab (fst r) = None /\
  rs_is_complete (run N core cb mkid k n h) = false.
Proof.
  intros cb k n src h Hk Hn _ _ Hh Hd.
  exact (rs16_session_too_few cb mkid k n h Hk Hn (fun ev Hin => proj1 (Hh ev Hin)) Hd).
Qed.

Theorem rs16_avail_recovers_the_sources :
  forall (cb : bool) (k n : nat) (src : list N) (t : list (option N)),
  1 <= k <= n -> n <= 16 -> length src = k -> Forall (fun a => (a < 16)%N) src ->
  length t = n ->
  (forall e, e < n -> nth e t None = None \/ nth e t None = Some (elem16 k src e)) ->
  k <= count_some t ->
  let core := fun k' t => rs_core16 k' n t in
  let r := rs_finish core cb mkid (fst (rs_set_available (rs_init N k n) t)) in
  snd r = OK /\ rs_is_complete (fst r) = true /\
  rs_source_tab (fst r) = Some (map Some src).
Proof.
  intros cb k n src t Hk Hn Hls HF HL Ht Hc core.
  exact (gen_avail_recovers N 0%N core cb mkid k n src _ (fun _ _ => eq_refl) (code16 k n src Hk Hn Hls HF) t HL Ht Hc).
Qed.

Theorem rs16_avail_too_few :
  forall (cb : bool) (mk : nat -> N -> N) (k n : nat) (t : list (option N)),
  count_some t < k ->
  let core := fun k' t => rs_core16 k' n t in
  let r := rs_finish core cb mk (fst (rs_set_available (rs_init N k n) t)) in
  snd r = FAILURE /\ rs_is_complete (fst r) = false /\ rs_source_tab (fst r) = None.
Proof. intros cb mk k n t Hc core. exact (gen_avail_too_few N core cb mk k n t Hc). Qed.

(* examples: k = 2, n = 4 over GF(256), the codeword of [5; 7] is [5; 7; 1; 13] *)
(* repair 3, a duplicate, then source 1: complete at the second distinct symbol, source 0
   decoded (one callback, ESI 0) *)
Example session256_2_4 :
  let s := run N (fun k' t => rs_core256 k' 4 t) true mkid 2 4 [(3, 13%N); (3, 13%N); (1, 7%N)] in
  rs_is_complete s = true /\ rs_source_tab s = Some [Some 5; Some 7]%N /\ evs s = [0] /\
  tab s = [Some 5; Some 7; None; Some 13]%N.
Proof. vm_compute. repeat split; reflexivity. Qed.
Example session256_2_4_few :
  let core := fun k' t => rs_core256 k' 4 t in
  let s := run N core true mkid 2 4 [(3, 13%N); (3, 13%N)] in
  rs_is_complete s = false /\ snd (rs_finish core true mkid s) = FAILURE.
Proof. vm_compute. split; reflexivity. Qed.

Print Assumptions rs256_run_table.
Print Assumptions rs256_run_recovers_the_sources.
Print Assumptions rs256_session_too_few.
Print Assumptions rs256_session_too_few_cw.
Print Assumptions rs256_avail_too_few.
Print Assumptions rs16_run_table.
Print Assumptions rs16_run_recovers_the_sources.
Print Assumptions rs16_session_too_few.
Print Assumptions rs16_session_too_few_cw.
Print Assumptions rs16_avail_recovers_the_sources.
Print Assumptions rs16_avail_too_few.
