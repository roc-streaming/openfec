(* Invariants of the "simplification" phase of the maximum-likelihood finish (MLModel.v:
   prepar, simplify, inject) of the LDPC erasure decoder model: MLInv, and the relation between the
   states before and after a simplification (Ext0, Ext, Fin).  Clients use simplify_strong and
   inject_every. *)
From Coq Require Import List Arith Bool Lia.
From OFV Require XorGroup StableTables.
From OFV Require Import ListAux LdpcEnc ITModel ITLemmas ITProofs MLModel.
Import ListNotations.

Lemma rm_In c l x : In x (rm c l) <-> In x l /\ x <> c.
Proof. unfold rm. now rewrite filter_In, negb_true_iff, Nat.eqb_neq. Qed.

Lemma xs_rm T (op : T -> T -> T) e : (forall a b c, op a (op b c) = op (op a b) c) -> (forall a b, op a b = op b a) ->
  forall (f : nat -> T) c l, NoDup l -> In c l -> xs T op e f l = op (f c) (xs T op e f (rm c l)).
Proof. intros A C f c l. exact (rowsum_split T op e A C f l c). Qed.

Section MLS.
Variable Sy : Type. Variable sxor : Sy -> Sy -> Sy. Variable s0 : Sy.
Hypothesis sxor_assoc : forall a b c, sxor a (sxor b c) = sxor (sxor a b) c.
Hypothesis sxor_comm : forall a b, sxor a b = sxor b a.
Hypothesis sxor_0_l : forall a, sxor s0 a = a.
Hypothesis sxor_nilp : forall a, sxor a a = s0.

Variable H0 : list (list nat).
Variable R0 N0 : nat.
Hypothesis H0_len : length H0 = R0.
Hypothesis H0_nodup : forall i, i < R0 -> NoDup (nth i H0 []).
Hypothesis H0_range : forall i c, i < R0 -> In c (nth i H0 []) -> c < N0.
Hypothesis H0_deg : forall i, i < R0 -> 2 <= length (nth i H0 []).
Hypothesis R_le_N : R0 <= N0.

Variable cw : nat -> Sy.
Hypothesis parity : forall i, i < R0 -> xs Sy sxor s0 cw (nth i H0 []) = s0.

Definition val (o : option Sy) : Sy := match o with Some v => v | None => s0 end.
Definition colempty (s : st Sy) (c : nat) : Prop := forall i, i < R0 -> ~ In c (nth i (rws s) []).

Record MLInv (s : st Sy) : Prop := {
  ml_wf : WF Sy R0 N0 s;
  ml_sub : forall i, i < R0 -> NoDup (nth i (rws s) []) /\ incl (nth i (rws s) []) (nth i H0 []);
  ml_unk : forall i, i < R0 -> getn (unk s) i = length (nth i (rws s) []);
  ml_roweq : forall i, i < R0 -> nth i (rws s) [] <> [] -> val (nth i (ct s) None) = xs Sy sxor s0 cw (nth i (rws s) []);
  ml_tab : forall c v, nth c (tab s) None = Some v -> v = cw c;
  ml_keep : forall i c, i < R0 -> In c (nth i H0 []) -> known s c = false -> In c (nth i (rws s) []) }.

(* rows as the streaming decoder leaves them: untouched with no partial sum, or empty *)
Definition MLPre (s : st Sy) : Prop := WF Sy R0 N0 s /\ (forall c v, nth c (tab s) None = Some v -> v = cw c) /\
   forall i, i < R0 -> (nth i (rws s) [] = nth i H0 [] /\ nth i (ct s) None = None) \/ (nth i (rws s) [] = [] /\ forall c, In c (nth i H0 []) -> known s c = true).

Notation st := (st Sy).
Notation WF := (WF Sy R0 N0).
Notation Kmono := (Kmono Sy).
Notation munk := (munk Sy N0).
Notation iscomp := (iscomp Sy R0 N0).
Notation xs := (xs Sy sxor s0 cw).

Lemma sxor_cancel a b X : a = sxor b X -> sxor a b = X.
Proof. intros ->. rewrite (sxor_comm (sxor b X) b), sxor_assoc, sxor_nilp. apply sxor_0_l. Qed.

Lemma iscomp_mono (s s' : st) : Kmono s s' -> iscomp s -> iscomp s'.
Proof. intros M C c Hc. apply M, C, Hc. Qed.

Lemma WF_pres (s s' : st) : WF s -> r s' = r s -> n s' = n s ->
  length (rws s') = length (rws s) -> length (unk s') = length (unk s) -> length (enc s') = length (enc s) ->
  length (ct s') = length (ct s) -> length (tab s') = length (tab s) -> fnd s' = fnd s -> Kmono s s' -> WF s'.
Proof.
  intros [Wr Wn Wrws Wunk Wenc Wct Wtab Wfnd Wcur] E1 E2 E3 E4 E5 E6 E7 E8 M.
  constructor; try congruence.
  intros j Hj. apply M. apply Wcur. congruence.
Qed.

(* what prepar needs of a state; MLPre is the special case "untouched or empty" *)
Lemma prepar_MLInv (s : st) : WF s -> (forall c v, nth c (tab s) None = Some v -> v = cw c) ->
  (forall i, i < R0 -> NoDup (nth i (rws s) []) /\ incl (nth i (rws s) []) (nth i H0 [])) ->
  (forall i, i < R0 -> nth i (rws s) [] <> [] -> val (nth i (ct s) None) = xs (nth i (rws s) [])) ->
  (forall i c, i < R0 -> In c (nth i H0 []) -> known s c = false -> In c (nth i (rws s) [])) ->
  MLInv (prepar s).
Proof.
  intros W T S V K. constructor; [|exact S| |exact V|exact T|exact K].
  - assert (Hl : length (map (@length nat) (rws s)) = R0) by (rewrite map_length; apply W).
    apply (WF_pres s); auto; try reflexivity; try (unfold prepar; simpl; rewrite Hl; symmetry; apply W).
    intros c Hc. exact Hc.
  - intros i Hi. apply nth_map_length.
Qed.

Theorem prepar_inv (s : st) : MLPre s -> MLInv (prepar s) /\ tab (prepar s) = tab s.
Proof.
  intros (W & T & Rows). split; [|reflexivity]. apply prepar_MLInv; [exact W|exact T| | |].
  - intros i Hi. destruct (Rows i Hi) as [(A & _)|(A & _)]; rewrite A.
    + split; [now apply H0_nodup|apply incl_refl].
    + split; [constructor|intros x []].
  - intros i Hi Hne. destruct (Rows i Hi) as [(A & B)|(A & _)]; [|congruence].
    rewrite A, B. symmetry. now apply parity.
  - intros i c Hi Hin Hk. destruct (Rows i Hi) as [(A & _)|(_ & B)]; [now rewrite A|].
    rewrite (B c Hin) in Hk. discriminate.
Qed.

Lemma rws_set_row_eq (s : st) row rw u t : row < length (rws s) -> nth row (rws (set_row s row rw u t)) [] = rw.
Proof. intros H. unfold set_row; simpl. now apply nth_upd_eq. Qed.

Lemma rws_set_row_neq (s : st) row rw u t i : i <> row -> nth i (rws (set_row s row rw u t)) [] = nth i (rws s) [].
Proof. intros H. unfold set_row; simpl. apply nth_upd_neq. auto. Qed.

Lemma MLInv_set_row (s : st) row rw u t : MLInv s -> row < R0 ->
  NoDup rw -> incl rw (nth row (rws s) []) -> u = length rw -> (rw <> [] -> val t = xs rw) ->
  (forall x, In x (nth row (rws s) []) -> known s x = false -> In x rw) ->
  MLInv (set_row s row rw u t).
Proof.
  intros I Hrow ND Hincl Hu Hval Hkeep.
  destruct I as [W Isub Iunk Ieq Itab Ikeep].
  assert (Lr : length (rws s) = R0) by apply W.
  assert (Lu : length (unk s) = R0) by apply W.
  assert (Lc : length (ct s) = R0) by apply W.
  constructor.
  - apply (WF_pres s); auto; unfold set_row; simpl; try reflexivity; try apply upd_length.
    intros c Hc. exact Hc.
  - intros i Hi. destruct (Nat.eq_dec i row) as [->|Hne].
    + rewrite rws_set_row_eq by lia. split; auto.
      intros x Hx. apply (proj2 (Isub row Hrow)). now apply Hincl.
    + rewrite rws_set_row_neq by auto. now apply Isub.
  - intros i Hi. destruct (Nat.eq_dec i row) as [->|Hne].
    + rewrite rws_set_row_eq by lia. unfold set_row, getn; simpl. rewrite nth_upd_eq by lia. exact Hu.
    + rewrite rws_set_row_neq by auto. unfold set_row, getn; simpl. rewrite nth_upd_neq by auto. now apply Iunk.
  - intros i Hi. destruct (Nat.eq_dec i row) as [->|Hne].
    + rewrite rws_set_row_eq by lia. unfold set_row; simpl. rewrite nth_upd_eq by lia. exact Hval.
    + rewrite rws_set_row_neq by auto. unfold set_row; simpl. rewrite nth_upd_neq by auto. now apply Ieq.
  - exact Itab.
  - intros i c Hi Hin Hk. change (known (set_row s row rw u t) c) with (known s c) in Hk.
    destruct (Nat.eq_dec i row) as [->|Hne].
    + rewrite rws_set_row_eq by lia. apply Hkeep; auto.
    + rewrite rws_set_row_neq by auto. now apply Ikeep.
Qed.

(* known columns may stay in the rows, so that storing a correct symbol keeps the invariant *)
Lemma MLInv_set_tab (s : st) e : MLInv s -> e < N0 -> MLInv (set_tab s e (cw e)).
Proof.
  intros [W Isub Iunk Ieq Itab Ikeep] He.
  assert (Lt : length (tab s) = N0) by apply W.
  assert (Kn : forall c, known (set_tab s e (cw e)) c = known s c || (c =? e)) by (intros c; apply (known_set_tab Sy H0 R0 N0 H0_len R_le_N); lia).
  constructor; auto.
  - apply (WF_pres s); auto; try reflexivity; [apply upd_length|]. intros c Hc. now rewrite Kn, Hc.
  - intros c v. unfold set_tab; simpl. destruct (Nat.eq_dec c e) as [->|Hne].
    + rewrite nth_upd_eq by lia. congruence.
    + rewrite nth_upd_neq by auto. apply Itab.
  - intros i c Hi Hin Hkc. rewrite Kn in Hkc. apply orb_false_iff in Hkc. now apply Ikeep.
Qed.

(* the relation between the state before and after a (partial) simplification *)
Definition Ext0 (s s' : st) : Prop :=
  MLInv s' /\ Kmono s s'
  /\ (forall c', known s c' = true -> nth c' (tab s') None = nth c' (tab s) None)
  /\ (forall i x, In x (nth i (rws s') []) -> In x (nth i (rws s) [])).

Definition Ext (c : nat) (s s' : st) : Prop :=
  Ext0 s s' /\ forall i x, In x (nth i (rws s) []) -> known s x = true -> x <> c -> In x (nth i (rws s') []).

(* newly decoded symbols have been injected, unless decoding completed on the way: a recursive call on a
   newly decoded source column returns at once when is_complete finds every source symbol known, and
   leaves that column in the rows (Section Counterexample) *)
Definition Fin (s s' : st) : Prop :=
  iscomp s' \/ (forall c', known s' c' = true -> known s c' = true \/ colempty s' c').

Lemma Ext0_refl (s : st) : MLInv s -> Ext0 s s.
Proof. intros I. split; [exact I|]. split; [intros c H; exact H|]. split; auto. Qed.

Lemma Ext0_trans (s1 s2 s3 : st) : Ext0 s1 s2 -> Ext0 s2 s3 -> Ext0 s1 s3.
Proof.
  intros (I2 & M12 & T12 & D12) (I3 & M23 & T23 & D23).
  split; [exact I3|]. split; [intros c H; apply M23, M12, H|]. split.
  - intros c' Hk. rewrite T23 by (apply M12; auto). now apply T12.
  - intros i x Hx. apply D12; auto.
Qed.

Lemma Ext_trans c1 c2 (s1 s2 s3 : st) : Ext c1 s1 s2 -> Ext c2 s2 s3 -> (c2 = c1 \/ known s1 c2 = false) -> Ext c1 s1 s3.
Proof.
  intros (E12 & S12) (E23 & S23) Hc. split; [now apply (Ext0_trans s1 s2 s3)|].
  intros i x Hx Hk Hne. apply S23; auto; [apply E12, Hk|].
  destruct Hc as [->|Hc]; auto. intros ->. congruence.
Qed.

Lemma Ext0_colempty (s s' : st) c' : Ext0 s s' -> colempty s c' -> colempty s' c'.
Proof. intros (_ & _ & _ & D) H i Hi Hin. apply (H i Hi). now apply D. Qed.

Lemma Fin_same (s s' : st) : (forall c, known s' c = true -> known s c = true) -> Fin s s'.
Proof. intros H. right. intros c' Hk. left. now apply H. Qed.

Lemma Fin_trans (s1 s2 s3 : st) : Fin s1 s2 -> Ext0 s2 s3 -> Fin s2 s3 -> Fin s1 s3.
Proof.
  intros F12 E23 [C|F23]; [now left|].
  destruct F12 as [C|F12].
  - left. apply (iscomp_mono s2); [apply E23|exact C].
  - right. intros c' Hk. destruct (F23 c' Hk) as [Hk2|He]; [|now right].
    destruct (F12 c' Hk2) as [Hk1|He]; [now left|right]. now apply (Ext0_colempty s2).
Qed.

Lemma Ext_set_row c (s : st) row rw u t : MLInv s -> row < R0 -> known s c = true ->
  NoDup rw -> incl rw (nth row (rws s) []) -> u = length rw -> (rw <> [] -> val t = xs rw) ->
  (forall x, In x (nth row (rws s) []) -> x <> c -> In x rw) ->
  Ext c s (set_row s row rw u t).
Proof.
  intros I Hrow Hkc ND Hincl Hu Hval Hkeep.
  assert (Lr : row < length (rws s)) by (rewrite (wf_rws Sy R0 N0 s (ml_wf s I)); exact Hrow).
  split; [split; [|split; [intros x H; exact H|split; [reflexivity|]]]|].
  - apply MLInv_set_row; auto. intros x Hx Hk. apply Hkeep; auto. intros ->. congruence.
  - intros i x Hx. destruct (Nat.eq_dec i row) as [->|Hne].
    + rewrite rws_set_row_eq in Hx by exact Lr. now apply Hincl.
    + now rewrite rws_set_row_neq in Hx.
  - intros i x Hx _ Hne. destruct (Nat.eq_dec i row) as [->|Hne'].
    + rewrite rws_set_row_eq by exact Lr. now apply Hkeep.
    + now rewrite rws_set_row_neq.
Qed.

(* a row reduced to the single entry c', unknown: the symbol is decoded and the row emptied *)
Lemma Ext_dec (s : st) row c' t : MLInv s -> row < R0 ->
  nth row (rws s) [] = [c'] -> nth row (ct s) None = Some t -> known s c' = false ->
  let s' := set_row (set_tab s c' t) row [] 0 None in
  c' < N0 /\ Ext c' s s' /\ nth c' (tab s') None = Some t /\ forall x, known s' x = known s x || (x =? c').
Proof.
  intros I Hrow Hr Hct Hk s'.
  assert (Hc' : c' < N0).
  { apply (H0_range row c' Hrow). apply (proj2 (ml_sub s I row Hrow)). rewrite Hr. now left. }
  assert (Ht : t = cw c').
  { pose proof (ml_roweq s I row Hrow) as E. rewrite Hr, Hct in E. rewrite <- (XorGroup.sxor_0_r Sy sxor s0 sxor_comm sxor_0_l (cw c')). apply E. discriminate. }
  assert (Lt : c' < length (tab s)) by (rewrite (wf_tab Sy R0 N0 s (ml_wf s I)); exact Hc').
  assert (Kn : forall x, known (set_tab s c' t) x = known s x || (x =? c')) by (intros x; now apply (known_set_tab Sy H0 R0 N0 H0_len R_le_N)).
  assert (I1 : MLInv (set_tab s c' t)) by (rewrite Ht; now apply MLInv_set_tab).
  split; [exact Hc'|]. split; [|split; [unfold s', set_tab; simpl; now apply nth_upd_eq|exact Kn]].
  apply (Ext_trans c' c' s (set_tab s c' t)); [| |now left].
  - split; [split; [exact I1|split; [|split; [|auto]]]|auto].
    + intros x Hx. now rewrite Kn, Hx.
    + intros x Hx. unfold set_tab; simpl. apply nth_upd_neq. intros ->. congruence.
  - apply Ext_set_row; [exact I1|exact Hrow| |constructor|intros x []|reflexivity|intros E; now elim E|].
    + now rewrite Kn, Nat.eqb_refl, orb_true_r.
    + intros x Hx Hne. change (rws (set_tab s c' t)) with (rws s) in Hx. rewrite Hr in Hx.
      destruct Hx as [->|[]]. now elim Hne.
Qed.

Section Step.
Variable f : nat.
Hypothesis IH : forall (s : st) c v, MLInv s -> nth c (tab s) None = Some v -> munk s < f ->
  exists s', simplify sxor f s c v = Some s' /\ Ext c s s' /\ Fin s s' /\ (iscomp s' \/ colempty s' c).

Lemma sstep_spec (s : st) c v row : MLInv s -> nth c (tab s) None = Some v -> munk s <= f -> row < R0 ->
  In c (nth row (rws s) []) ->
  exists s', StableTables.srow Sy sxor (simplify sxor f) c v (Some s) row = Some s' /\ Ext c s s' /\ Fin s s'
    /\ ~ In c (nth row (rws s') [])
    /\ (forall i, i <> row -> In c (nth i (rws s) []) -> In c (nth i (rws s') [])).
Proof.
  intros I Hv Hm Hrow Hin. unfold StableTables.srow. cbv zeta.
  set (rowl := nth row (rws s) []) in *.
  set (t := match nth row (ct s) None with None => v | Some t => sxor t v end).
  set (u := getn (unk s) row - 1).
  set (s1 := set_row s row (rm c rowl) u (Some t)).
  pose proof (known_some s c v Hv) as Hkc.
  destruct (ml_sub s I row Hrow) as (NDr & _). fold rowl in NDr.
  (* the constant term that is left is the sum of the entries that are left *)
  assert (Ht : t = xs (rm c rowl)).
  { assert (E : val (nth row (ct s) None) = sxor (cw c) (xs (rm c rowl))).
    { rewrite <- (xs_rm Sy sxor s0 sxor_assoc sxor_comm) by auto. apply (ml_roweq s I row Hrow). fold rowl.
      intros E. rewrite E in Hin. destruct Hin. }
    unfold t. rewrite (ml_tab s I c v Hv). destruct (nth row (ct s) None) as [t0|]; simpl in E.
    - now apply sxor_cancel.
    - rewrite <- (sxor_0_l (cw c)) at 1. now apply sxor_cancel. }
  assert (Hu : u = length (rm c rowl)).
  { unfold u. rewrite (ml_unk s I row Hrow). fold rowl. symmetry. now apply filter_remove_nodup. }
  assert (E1 : Ext c s s1).
  { apply Ext_set_row; auto.
    - now apply NoDup_filter.
    - intros x Hx. now apply rm_In in Hx.
    - intros x Hx Hne. now apply rm_In. }
  assert (Lr : row < length (rws s)) by (rewrite (wf_rws Sy R0 N0 s (ml_wf s I)); exact Hrow).
  assert (R1 : nth row (rws s1) [] = rm c rowl) by now apply rws_set_row_eq.
  assert (R1' : forall i, i <> row -> nth i (rws s1) [] = nth i (rws s) []) by (intros; now apply rws_set_row_neq).
  assert (Done1 : Ext c s s1 /\ Fin s s1 /\ ~ In c (nth row (rws s1) [])
                  /\ (forall i, i <> row -> In c (nth i (rws s) []) -> In c (nth i (rws s1) []))).
  { split; [exact E1|]. split; [apply Fin_same; auto|]. split.
    - rewrite R1, rm_In. tauto.
    - intros i Hne. now rewrite R1'. }
  destruct (u =? 1) eqn:Eu; [|now exists s1].
  apply Nat.eqb_eq in Eu. rewrite Eu in Hu.
  destruct (rm c rowl) as [|c' [|]] eqn:Hc'; try discriminate Hu.
  destruct (nth c' (tab s1) None) as [w|] eqn:Etab; [now exists s1|]. clear Done1.
  (* the row is down to the unknown column c': it is decoded with value t and injected in turn;
     that removes neither c from another row nor a column known before *)
  assert (Hrm : rm c' [c'] = []) by (unfold rm; simpl; now rewrite Nat.eqb_refl).
  rewrite Hrm, Eu.
  change (set_tab (set_row s1 row [] (1 - 1) None) c' t) with (set_row (set_tab s1 c' t) row [] 0 None).
  pose proof (known_none s1 c' Etab : known s c' = false) as K1.
  assert (Ct1 : nth row (ct s1) None = Some t).
  { unfold s1, set_row; simpl. apply nth_upd_eq. rewrite (wf_ct Sy R0 N0 s (ml_wf s I)). exact Hrow. }
  destruct (Ext_dec s1 row c' t (proj1 (proj1 E1)) Hrow R1 Ct1 K1) as (Hc'N & E2 & T2 & Kn2).
  set (s2 := set_row (set_tab s1 c' t) row [] 0 None) in *.
  assert (Hm2 : munk s2 < f).
  { assert (munk s2 < munk s1); [|change (munk s1) with (munk s) in *; lia].
    apply (munk_lt Sy H0 R0 N0 H0_len R_le_N s1 s2 c'); auto; [apply E2|].
    exact (known_some s2 c' _ T2). }
  destruct (IH s2 c' t (proj1 (proj1 E2)) T2 Hm2) as (s3 & Hs3 & E3 & F3 & G3).
  assert (E13 : Ext c' s1 s3) by (apply (Ext_trans c' c' s1 s2 s3); [exact E2|exact E3|now left]).
  exists s3. split; [exact Hs3|].
  split; [apply (Ext_trans c c' s s1 s3); [exact E1|exact E13|now right]|].
  split; [|split].
  - destruct G3 as [C|G3]; [now left|]. destruct F3 as [C|F3]; [now left|]. right.
    intros x Hk. destruct (F3 x Hk) as [Hk2|He]; [|now right].
    rewrite Kn2 in Hk2. apply orb_true_iff in Hk2. destruct Hk2 as [Hk2|Hk2]; [now left|].
    apply Nat.eqb_eq in Hk2. subst x. now right.
  - intros Hx. apply E13 in Hx. rewrite R1 in Hx. destruct Hx as [->|[]]. congruence.
  - intros i Hne Hx. apply E13; [now rewrite R1'|exact Hkc|intros ->; congruence].
Qed.

Lemma loop_spec c v : forall l (s : st), NoDup l -> MLInv s -> nth c (tab s) None = Some v -> munk s <= f ->
  (forall i, In i l -> i < R0 /\ In c (nth i (rws s) [])) ->
  exists s', fold_left (StableTables.srow Sy sxor (simplify sxor f) c v) l (Some s) = Some s' /\ Ext c s s' /\ Fin s s'
    /\ (forall i, In c (nth i (rws s') []) -> ~ In i l).
Proof.
  induction l as [|row l IHl]; intros s ND I Hv Hm Hl.
  - exists s. split; [reflexivity|]. split; [split; [now apply Ext0_refl|auto]|]. split; [apply Fin_same; auto|]. auto.
  - inversion ND as [|? ? Hnot ND']; subst.
    destruct (Hl row (or_introl eq_refl)) as (Hrow & Hin).
    destruct (sstep_spec s c v row I Hv Hm Hrow Hin) as (s1 & Hs1 & E1 & F1 & N1 & P1).
    pose proof (known_some s c v Hv) as Hkc.
    destruct E1 as (E1 & S1). pose proof E1 as (I1 & M1 & T1 & D1).
    assert (Hv1 : nth c (tab s1) None = Some v) by (rewrite T1; auto).
    assert (Hm1 : munk s1 <= f).
    { pose proof (munk_mono Sy H0 R0 N0 H0_len R_le_N s s1 M1). lia. }
    destruct (IHl s1 ND' I1 Hv1 Hm1) as (s' & Hs' & E' & F' & P').
    { intros i Hi. destruct (Hl i (or_intror Hi)) as (HiR & Hx). split; auto.
      apply P1; auto. intros ->. now apply Hnot. }
    exists s'. split; [cbn [fold_left]; rewrite Hs1; exact Hs'|].
    split; [apply (Ext_trans c c s s1 s'); auto; split; auto|].
    split; [apply (Fin_trans s s1 s'); auto; apply E'|].
    intros i Hx [->|Hil]; [apply N1; now apply E'|now apply (P' i)].
Qed.
End Step.

Lemma simplify_strong : forall fuel (s : st) c v, MLInv s -> nth c (tab s) None = Some v -> munk s < fuel ->
  exists s', simplify sxor fuel s c v = Some s' /\ Ext c s s' /\ Fin s s' /\ (iscomp s' \/ colempty s' c).
Proof.
  induction fuel as [|f IHf]; intros s c v I Hv Hm; [lia|].
  rewrite StableTables.simplify_unfold.
  assert (W : WF s) by apply I.
  assert (RS : forall i, In i (rows_with s c) <-> i < R0 /\ In c (nth i (rws s) [])).
  { intros i. apply (rows_with_spec Sy H0 R0 N0 H0_len H0_nodup H0_range H0_deg R_le_N). apply W. }
  destruct (rows_with s c) as [|r0 l] eqn:Erw.
  - exists s. split; [reflexivity|]. split; [split; [now apply Ext0_refl|auto]|]. split; [apply Fin_same; auto|]. right.
    intros i Hi Hx. apply (RS i). split; auto.
  - rewrite <- Erw in *. clear Erw r0 l. cbv zeta.
    (* the early completion test only moves the cursor fnd, of which only WF speaks *)
    destruct (StableTables.early_fnd Sy s c) as (i & Ei).
    set (b := fst (if r s <=? c then is_complete s else (false, s))).
    assert (He : WF (set_fnd s i) /\ (b = true -> iscomp s)).
    { rewrite <- Ei. unfold b. destruct (r s <=? c); [|split; [exact W|discriminate]].
      pose proof (is_complete_spec Sy H0 R0 N0 H0_len R_le_N s W) as X.
      destruct (is_complete s) as [b' sx]. split; apply X. }
    rewrite Ei. destruct He as (W1 & Hcomp).
    assert (I1 : MLInv (set_fnd s i)) by (destruct I as [_ A B C D E]; constructor; assumption).
    assert (E1 : Ext c s (set_fnd s i)).
    { split; [split; [exact I1|split; [intros x Hx; exact Hx|split; [reflexivity|auto]]]|auto]. }
    assert (F1 : Fin s (set_fnd s i)) by (apply Fin_same; auto).
    destruct b.
    + exists (set_fnd s i). split; [reflexivity|]. split; [exact E1|].
      split; left; exact (Hcomp eq_refl).
    + destruct (loop_spec f IHf c v (rows_with s c) (set_fnd s i)) as (s' & Hs' & E' & F' & P').
      * apply rows_with_nodup.
      * exact I1.
      * exact Hv.
      * change (munk s <= f). lia.
      * intros j Hj. now apply RS.
      * exists s'. split; [exact Hs'|]. split; [apply (Ext_trans c c s (set_fnd s i) s'); auto|].
        split; [apply (Fin_trans s (set_fnd s i) s'); auto; apply E'|]. right.
        intros j Hj Hx. apply (P' j Hx). apply RS. split; [exact Hj|]. now apply E'.
Qed.

(* simplify_strong with Ext0 and Fin written out *)
Theorem simplify_spec : forall fuel (s : st) c v, MLInv s -> c < N0 -> nth c (tab s) None = Some v -> munk s < fuel ->
  exists s', simplify sxor fuel s c v = Some s' /\ MLInv s' /\ Kmono s s'
    /\ (forall c', known s c' = true -> nth c' (tab s') None = nth c' (tab s) None)
    /\ (forall c', colempty s c' -> colempty s' c')
    /\ (iscomp s' \/ forall c', known s' c' = true -> known s c' = true \/ colempty s' c')
    /\ (iscomp s' \/ colempty s' c).
Proof using All. (* every hypothesis of the section is a premise of the closed statement, used or not *)
  intros fuel s c v I Hc Hv Hm.
  destruct (simplify_strong fuel s c v I Hv Hm) as (s' & Hs' & (E & _) & F & G).
  exists s'. split; [exact Hs'|].
  pose proof (fun c' => Ext0_colempty s s' c' E) as Hce.
  destruct E as (I' & M & T & _).
  split; [exact I'|]. split; [exact M|]. split; [exact T|]. split; [exact Hce|]. split; [exact F|exact G].
Qed.

Lemma inject_all_strong fuel : forall cs (s : st), MLInv s -> N0 < fuel ->
  exists s', fold_left (inject sxor fuel) cs (Some s) = Some s' /\ Ext0 s s' /\ Fin s s'
    /\ (iscomp s' \/ forall c, In c cs -> known s' c = true -> colempty s' c).
Proof.
  induction cs as [|c cs IHcs]; intros s I Hf.
  - exists s. split; [reflexivity|]. split; [now apply Ext0_refl|]. split; [apply Fin_same; auto|].
    right. intros c [].
  - cbn [fold_left]. unfold inject at 2.
    destruct (nth c (tab s) None) as [v|] eqn:Ev.
    + assert (Hm : munk s < fuel).
      { pose proof (munk_le_N0 Sy H0 R0 N0 H0_len R_le_N s). lia. }
      destruct (simplify_strong fuel s c v I Ev Hm) as (s1 & Hs1 & (E1 & _) & F1 & G1).
      rewrite Hs1.
      destruct (IHcs s1 (proj1 E1) Hf) as (s' & Hs' & E' & F' & G').
      exists s'. split; [exact Hs'|].
      split; [now apply (Ext0_trans s s1 s')|].
      split; [now apply (Fin_trans s s1 s')|].
      destruct G1 as [C1|G1]; [left; apply (iscomp_mono s1); [apply E'|exact C1]|].
      destruct G' as [C'|G']; [now left|]. right.
      intros x [->|Hx] Hk; [|now apply G']. now apply (Ext0_colempty s1).
    + destruct (IHcs s I Hf) as (s' & Hs' & E' & F' & G').
      exists s'. split; [exact Hs'|]. split; auto. split; auto.
      destruct G' as [C'|G']; [now left|]. destruct F' as [C'|F']; [now left|]. right.
      intros x [->|Hx] Hk; [|now apply G'].
      destruct (F' x Hk) as [Hk0|He]; auto. rewrite (known_none s x Ev) in Hk0. discriminate.
Qed.

Theorem inject_all_spec : forall cs fuel (s : st), MLInv s -> (forall c, In c cs -> c < N0) -> N0 < fuel ->
  exists s', fold_left (inject sxor fuel) cs (Some s) = Some s' /\ MLInv s' /\ Kmono s s'
    /\ (forall c', known s c' = true -> nth c' (tab s') None = nth c' (tab s) None)
    /\ (forall c', colempty s c' -> colempty s' c')
    /\ (iscomp s' \/ forall c', known s' c' = true -> known s c' = true \/ colempty s' c')
    /\ (iscomp s' \/ forall c, In c cs -> known s' c = true -> colempty s' c).
Proof using All. (* every hypothesis of the section is a premise of the closed statement, used or not *)
  intros cs fuel s I Hcs Hf.
  destruct (inject_all_strong fuel cs s I Hf) as (s' & Hs' & E & F & G).
  exists s'. split; [exact Hs'|].
  pose proof (fun c' => Ext0_colempty s s' c' E) as Hce.
  destruct E as (I' & M & T & _).
  split; [exact I'|]. split; [exact M|]. split; [exact T|]. split; [exact Hce|]. split; [exact F|exact G].
Qed.

Lemma inject_every cs fuel (s : st) : MLInv s -> (forall c, c < N0 -> In c cs) -> N0 < fuel ->
  exists s', fold_left (inject sxor fuel) cs (Some s) = Some s' /\ MLInv s' /\ Kmono s s'
    /\ (forall c', known s c' = true -> nth c' (tab s') None = nth c' (tab s) None)
    /\ (iscomp s' \/ forall i c, i < R0 -> (In c (nth i (rws s') []) <-> In c (nth i H0 []) /\ known s' c = false)).
Proof.
  intros I Hall Hf.
  destruct (inject_all_strong fuel cs s I Hf) as (s' & Hs' & (I' & M & T & _) & _ & G).
  exists s'. split; [exact Hs'|]. split; [exact I'|]. split; [exact M|]. split; [exact T|].
  destruct G as [C|G]; [now left|]. right.
  intros i c Hi. split.
  - intros Hin. pose proof (proj2 (ml_sub s' I' i Hi) c Hin) as Hc. split; [exact Hc|].
    destruct (known s' c) eqn:Hk; [|reflexivity]. exfalso.
    exact (G c (Hall c (H0_range i c Hi Hc)) Hk i Hi Hin).
  - intros (Hin & Hk). now apply (ml_keep s' I').
Qed.

Theorem reduced cs fuel (s s' : st) : MLInv s -> (forall c, In c cs -> c < N0) -> (forall c, c < N0 -> In c cs) ->
  N0 < fuel -> fold_left (inject sxor fuel) cs (Some s) = Some s' ->
  MLInv s' /\
  (iscomp s' \/
   ((forall i c, i < R0 -> In c (nth i (rws s') []) -> known s' c = false) /\
    (forall i c, i < R0 -> (In c (nth i (rws s') []) <-> In c (nth i H0 []) /\ known s' c = false)))).
Proof using All. (* every hypothesis of the section is a premise of the closed statement, used or not *)
  intros I Hcs Hall Hf Hs'.
  destruct (inject_every cs fuel s I Hall Hf) as (s'' & Hs'' & I' & _ & _ & G).
  rewrite Hs' in Hs''. injection Hs'' as <-.
  split; [exact I'|]. destruct G as [C|G]; [now left|]. right. split; [|exact G].
  intros i c Hi Hin. now apply (G i c Hi).
Qed.

End MLS.

(* Fin without its first alternative fails.
   Two rows {0,2} and {1,2}; columns 0,1 are repair columns, column 2 is the only source column.  Column 0 is
   known.  Injecting it decodes column 2 from row 0; the recursive call on column 2 finds every source symbol
   known and returns at once, leaving column 2 in row 1. *)
Section Counterexample.
Definition cxH : list (list nat) := [[0;2];[1;2]].
Definition cxs : st bool := mk 2 3 cxH [2;2] [2;2] [None;None] [Some false; None; None] 0.
Definition cxcw : nat -> bool := fun _ => false.

Lemma cx_inv : MLInv bool xorb false cxH 2 3 cxcw cxs.
Proof.
  constructor.
  - constructor; simpl; try reflexivity; try lia.
  - intros i Hi. destruct i as [|[|i]]; [| |lia]; simpl; (split; [|apply incl_refl]);
      (constructor; [simpl; intros [H|[]]; discriminate|]); (constructor; [intros []|constructor]).
  - intros i Hi. destruct i as [|[|i]]; [reflexivity|reflexivity|lia].
  - intros i Hi _. destruct i as [|[|i]]; [reflexivity|reflexivity|lia].
  - intros c v. destruct c as [|[|[|c]]]; simpl; try discriminate.
    + intros H; injection H as <-. reflexivity.
    + destruct c; discriminate.
  - intros i c Hi Hin _. destruct i as [|[|i]]; [exact Hin|exact Hin|lia].
Qed.

Theorem simplify_clause3_counterexample :
  MLInv bool xorb false cxH 2 3 cxcw cxs /\ 0 < 3 /\ nth 0 (tab cxs) None = Some false /\ munk bool 3 cxs < 5 /\
  exists s', simplify xorb 5 cxs 0 false = Some s' /\ iscomp bool 2 3 s' /\
    known s' 2 = true /\ known cxs 2 = false /\ ~ colempty bool 2 s' 2.
Proof.
  split; [exact cx_inv|]. split; [lia|]. split; [reflexivity|]. split; [vm_compute; lia|].
  eexists. split; [vm_compute; reflexivity|].
  split; [|split; [reflexivity|split; [reflexivity|]]].
  - intros c Hc. assert (c = 2) as -> by lia. reflexivity.
  - intros H. apply (H 1); [lia|]. simpl. right. now left.
Qed.
End Counterexample.

Print Assumptions prepar_inv.
Print Assumptions simplify_spec.
Print Assumptions inject_all_spec.
Print Assumptions reduced.
Print Assumptions simplify_clause3_counterexample.
