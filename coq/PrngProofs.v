(* The generated of_rfc5170_rand / of_rfc5170_srand (gen/GenPrng.v) against Prng.v: on a state in 1..2^31-2 the
   64-bit integer part is pm_next and the state stays in that range; the binary64 scaling is the exact floor
   while the product is below 2^53, and lands in 0..maxv-1 for every maxv up to 2^24. *)
From Flocq Require Import Core Relative IEEE754.BinarySingleNaN.
From Coq Require Import Reals ZArith Zpow_facts Lia Lra Bool.
From OFV Require Import CSem CSemProofs FloatLemmas Prng.
From OFV.gen Require Import GenPrng.
Local Open Scope Z_scope.

(* Carta's 16-bit split, as in of_rand.c, is multiplication modulo 2^31-1 *)
Definition carta_lo (s : Z) : Z :=
  16807 * (s mod 65536) + ((16807 * (s / 65536)) mod 32768) * 65536 + (16807 * (s / 65536)) / 32768.
Definition carta (s : Z) : Z := let lo := carta_lo s in if lo >? PM_P then lo - PM_P else lo.

Lemma carta_mod : forall s, 1 <= s <= PM_P - 1 ->
  carta s mod PM_P = (16807 * s) mod PM_P /\ 0 <= carta s <= PM_P /\ 0 <= carta_lo s < 2 * PM_P.
Proof.
  (* with s = 65536 b + a and 16807 b = 32768 h2 + h1:  16807 s = carta_lo s + h2 (2^31 - 1);
     all of it is linear arithmetic over the quotients and remainders *)
  intros s Hs. unfold carta, carta_lo, PM_P in *.
  destruct (_ >? _) eqn:E; Z.div_mod_to_equations; lia.
Qed.

Lemma inv16807 : (16807 * 1407677000) mod PM_P = 1.  Proof. reflexivity. Qed.

(* the next state is never 0 (16807 is invertible modulo 2^31-1) and stays in 1..2^31-2 *)
Lemma pm_next_range s : 1 <= s <= PM_P - 1 -> 1 <= pm_next s <= PM_P - 1.
Proof.
  intros Hs. unfold pm_next.
  pose proof (Z.mod_pos_bound (16807 * s) PM_P ltac:(unfold PM_P; lia)) as Hb.
  destruct (Z.eq_dec ((16807 * s) mod PM_P) 0) as [E|NE]; [exfalso|unfold PM_P in *; lia].
  assert (H1 : (1407677000 * (16807 * s)) mod PM_P = 0).
  { rewrite <- Z.mul_mod_idemp_r, E, Z.mul_0_r by (unfold PM_P; lia). reflexivity. }
  replace (1407677000 * (16807 * s)) with ((16807 * 1407677000) * s) in H1 by ring.
  rewrite <- Z.mul_mod_idemp_l, inv16807, Z.mul_1_l in H1 by (unfold PM_P; lia).
  rewrite Z.mod_small in H1 by (unfold PM_P in *; lia). lia.
Qed.

Lemma carta_is_pm s : 1 <= s <= PM_P - 1 -> carta s = pm_next s.
Proof.
  intros Hs. destruct (carta_mod s Hs) as (Hm & Hr & _). pose proof (pm_next_range s Hs) as Hn.
  unfold pm_next, PM_P in *. revert Hm Hr Hn. generalize (carta s) ((16807 * s) mod 2147483647).
  intros c x Hm Hr Hn. Z.div_mod_to_equations. lia.
Qed.

Lemma gen_rand_form s maxv : 1 <= s <= PM_P - 1 ->
  of_rfc5170_rand s maxv = bind (scale_ref (carta s) maxv) (fun o => Some (o, carta s)).
Proof.
  intros Hs. unfold PM_P in *. unfold of_rfc5170_rand.
  change (wrapu64 16807) with 16807. change (wrapu64 65535) with (Z.ones 16).
  change (wrapu64 32767) with (Z.ones 15). change (wrapu64 2147483647) with 2147483647.
  do 3 (rewrite chk_shift_ok by lia; cbn [bind]).
  rewrite !Z.land_ones, !Z.shiftr_div_pow2, Z.shiftl_mul_pow2 by lia.
  change (2 ^ 16) with 65536. change (2 ^ 15) with 32768.
  (* every intermediate value is below 2^47: innermost first, no wrapu64 changes anything *)
  assert (Hd : 0 <= s / 65536 < 32768) by (split; [apply Z.div_pos|apply Z.div_lt_upper_bound]; lia).
  assert (Hm : 0 <= s mod 65536 < 65536) by (apply Z.mod_pos_bound; lia).
  assert (Hh1 : 0 <= (16807 * (s / 65536)) mod 32768 < 32768) by (apply Z.mod_pos_bound; lia).
  assert (Hh2 : 0 <= (16807 * (s / 65536)) / 32768 < 16807)
    by (split; [apply Z.div_pos|apply Z.div_lt_upper_bound]; lia).
  repeat match goal with |- context [wrapu64 ?x] => rewrite (wrapu64_small x) by lia end.
  unfold carta, scale_ref, PM_P. fold (carta_lo s).
  destruct (carta_lo s >? 2147483647) eqn:E; [|reflexivity].
  rewrite wrapu64_small by (unfold carta_lo in *; lia). reflexivity.
Qed.

Lemma rand_is_park_miller_proof s maxv : 1 <= s <= PM_P - 1 ->
  of_rfc5170_rand s maxv = bind (scale_ref (pm_next s) maxv) (fun o => Some (o, pm_next s))
  /\ 1 <= pm_next s <= PM_P - 1.
Proof.
  intros Hs. split; [|apply pm_next_range, Hs].
  rewrite gen_rand_form by exact Hs. rewrite carta_is_pm by exact Hs. reflexivity.
Qed.

Lemma srand_range_proof g s : 0 <= s < 2 ^ 64 ->
  of_rfc5170_srand g s = Some (if (1 <=? s) && (s <=? PM_P - 1) then s else g).
Proof.
  intros Hs. unfold of_rfc5170_srand.
  change (wrapu64 1) with 1. change (wrapu64 2147483646) with 2147483646. change (PM_P - 1) with 2147483646.
  rewrite Z.geb_leb. destruct ((1 <=? s) && (s <=? 2147483646)); reflexivity.
Qed.

(* RFC 5170's test vector.  The sequence is geometric, and the standard library computes a
   modular power by repeated squaring; ten thousand modular steps evaluated one after the other
   are slow under coqchk, which has no virtual machine. *)
Lemma pm_iter_pow n : forall s, 0 <= s < PM_P -> pm_iter n s = (16807 ^ Z.of_nat n * s) mod PM_P.
Proof.
  induction n as [|n IH]; intros s Hs.
  - rewrite Z.mul_1_l, Z.mod_small by exact Hs. reflexivity.
  - cbn [pm_iter]. rewrite IH by (apply Z.mod_pos_bound; reflexivity). unfold pm_next.
    rewrite Z.mul_mod_idemp_r, Nat2Z.inj_succ, Z.pow_succ_r by (try discriminate; lia). f_equal. ring.
Qed.

Lemma ten_thousandth_pm : pm_iter (Z.to_nat 10000) 1 = 1043618065.
Proof.
  rewrite pm_iter_pow, Z2Nat.id, Z.mul_1_r by (unfold PM_P; lia).
  rewrite <- Zpow_mod_correct by discriminate. vm_compute. reflexivity.
Qed.

(* the scaling expression: two roundings, then truncation.  2^55 = 2^31 * 2^24 covers every state with
   every maxv of scale_range_proof, and is far from overflow. *)
Local Open Scope R_scope.
Lemma scale_ref_R s' maxv : (0 <= s' <= 2^53)%Z -> (0 <= maxv <= 2^53)%Z -> (s' * maxv <= 2^55)%Z ->
  let q := d_div (d_mul (d_of_Z s') (d_of_Z maxv)) (d_of_Z 2147483647) in
  R64 q = rnd64 (rnd64 (IZR (s' * maxv)) / 2147483647) /\ fin q /\ scale_ref s' maxv = d_to_u64 q.
Proof.
  intros Hs Hm HX. cbv zeta.
  destruct (d_of_Z_exact s' ltac:(lia)) as [Rs Fs]. destruct (d_of_Z_exact maxv ltac:(lia)) as [Rm Fm].
  destruct (d_of_Z_exact 2147483647 ltac:(lia)) as [RP FP].
  assert (BX : 0 <= IZR (s' * maxv) <= bpow radix2 55).
  { rewrite <- IZR_Zpower by lia. split; apply IZR_le; [nia|exact HX]. }
  assert (B55 : bpow radix2 55 <= bpow radix2 1000) by (apply bpow_le; lia).
  destruct (d_mul_rounded _ _ Fs Fm) as [Rx Fx]; rewrite Rs, Rm, <- mult_IZR in *.
  { rewrite Rabs_pos_eq; lra. }
  pose proof (rnd64_ge_0 _ (proj1 BX)) as Hp0.
  assert (Hp1 : rnd64 (IZR (s' * maxv)) <= bpow radix2 55).
  { apply rnd64_le_format; [apply generic_format_bpow; unfold FLT_exp; lia|lra]. }
  destruct (d_div_rounded _ _ Fx FP) as [Rq Fq]; rewrite ?Rx, RP in *; [lra| |auto].
  apply Rabs_div_le; lra.
Qed.

Lemma scale_exact_proof s' maxv : (1 <= s' <= PM_P - 1)%Z -> (0 <= maxv)%Z -> (s' * maxv < 2^53)%Z ->
  scale_ref s' maxv = Some ((s' * maxv) / PM_P)%Z.
Proof.
  intros Hs Hm Hp. unfold PM_P in *.
  destruct (scale_ref_R s' maxv) as (Rq & Fq & ->); [lia|nia|lia|].
  rewrite rnd64_int in Rq by (rewrite Z.abs_eq; nia).
  assert (Hq : (0 <= s' * maxv / 2147483647 <= s' * maxv)%Z).
  { split; [apply Z.div_pos; nia|apply Z.div_le_upper_bound; nia]. }
  assert (Htr : Ztrunc (R64 (d_div (d_mul (d_of_Z s') (d_of_Z maxv)) (d_of_Z 2147483647))) = (s' * maxv / 2147483647)%Z).
  { rewrite Rq, Ztrunc_floor; [apply rnd64_quotient_floor; nia|].
    apply rnd64_ge_0, Rle_mult_inv_pos; [apply IZR_le; nia|lra]. }
  unfold d_to_u64. rewrite (d_to_int_ok _ _ _ Fq); rewrite Htr; [reflexivity|].
  change (2^64 - 1)%Z with 18446744073709551615%Z. lia.
Qed.

(* the result is always in 0..maxv-1, for every maxv the matrix construction can request
   (1 .. 255*50000 = 12,750,000 < 2^24), including products above 2^53 *)
Lemma scale_range_proof s' maxv : (1 <= s' <= PM_P - 1)%Z -> (1 <= maxv <= 2^24)%Z ->
  exists o, scale_ref s' maxv = Some o /\ (0 <= o < maxv)%Z.
Proof.
  intros Hs Hm.
  (* The large case bounds the first rounding by X (1 + 2^-53) with X <= (2^31 - 2) maxv and needs the quotient
     by 2^31 - 1 to stay at or below the double maxv - 2^-29: about maxv (2^-31 - 2^-53) >= 2^-29, so maxv >= 5.
     The small case needs s' maxv < 2^53, so maxv <= 2^22.  8 is a threshold between the two. *)
  destruct (Z_lt_le_dec maxv 8) as [Hsmall|Hbig].
  { (* small maxv: the product is below 2^53, the result is the exact floor *)
    exists ((s' * maxv) / PM_P)%Z. split.
    - apply scale_exact_proof; [exact Hs|lia|unfold PM_P in *; nia].
    - unfold PM_P in *. split; [apply Z.div_pos; nia|apply Z.div_lt_upper_bound; nia]. }
  unfold PM_P in *.
  destruct (scale_ref_R s' maxv) as (Rq & Fq & ->); [lia|lia|nia|]. rewrite mult_IZR in Rq.
  set (q := d_div (d_mul (d_of_Z s') (d_of_Z maxv)) (d_of_Z 2147483647)) in *. clearbody q.
  assert (Hs1 : 1 <= IZR s' <= 2147483646) by (split; apply IZR_le; lia).
  assert (Hm1 : 8 <= IZR maxv <= 16777216) by (split; apply IZR_le; lia).
  set (X := IZR s' * IZR maxv) in *.
  assert (HX1 : 1 <= X) by (unfold X; nra).
  assert (HXm : X <= 2147483646 * IZR maxv) by (unfold X; nra).
  pose proof (rnd64_rel_err X ltac:(lra)) as Herr. apply Rabs_le_inv in Herr.
  pose proof (rnd64_ge_0 X ltac:(lra)) as Hp0.
  set (p := rnd64 X) in *. clearbody p. clearbody X.
  (* z = maxv - 2^-29 is a double strictly below maxv and above every possible quotient *)
  set (z := IZR (maxv * 536870912 - 1) * / 536870912).
  assert (Hzf : generic_format radix2 (FLT_exp (-1074) 53) z).
  { apply generic_format_FLT. exists (Float radix2 (maxv * 536870912 - 1) (-29)).
    - unfold F2R, z. simpl Fnum. simpl Fexp. f_equal.
    - simpl. lia.
    - simpl. lia. }
  assert (Hz : z = IZR maxv - / 536870912) by (unfold z; rewrite minus_IZR, mult_IZR; field).
  clearbody z.
  assert (Hquot : p / 2147483647 <= z).
  { apply Rmult_le_reg_r with 2147483647; [lra|].
    unfold Rdiv. rewrite Rmult_assoc, Rinv_l, Rmult_1_r by lra. rewrite Hz. lra. }
  assert (Hq1 : 0 <= R64 q) by (rewrite Rq; apply rnd64_ge_0, Rle_mult_inv_pos; lra).
  assert (Hq2 : R64 q <= z) by (rewrite Rq; apply rnd64_le_format; assumption).
  assert (Hf0 : (0 <= Zfloor (R64 q))%Z) by (apply Zfloor_lub; exact Hq1).
  assert (Hf1 : (Zfloor (R64 q) < maxv)%Z).
  { apply lt_IZR. apply Rle_lt_trans with (R64 q); [apply Zfloor_lb|lra]. }
  exists (Zfloor (R64 q)). split; [|lia].
  unfold d_to_u64. rewrite (d_to_int_ok _ _ _ Fq); rewrite Ztrunc_floor by exact Hq1; [reflexivity|].
  change (2^64 - 1)%Z with 18446744073709551615%Z. lia.
Qed.

(* iterating the generated function itself (maxv = 1) walks the Park-Miller sequence *)
Local Open Scope Z_scope.
Fixpoint gen_iter (n : nat) (s : Z) : option Z :=
  match n with O => Some s | S k => bind (of_rfc5170_rand s 1) (fun r => gen_iter k (snd r)) end.
Lemma gen_iter_pm n : forall s, 1 <= s <= PM_P - 1 -> gen_iter n s = Some (pm_iter n s).
Proof.
  induction n as [|n IH]; intros s Hs; [reflexivity|]. cbn [gen_iter pm_iter].
  destruct (rand_is_park_miller_proof s 1 Hs) as [E R]. rewrite E.
  rewrite scale_exact_proof by (unfold PM_P in *; lia). cbn [bind snd]. apply IH, R.
Qed.
