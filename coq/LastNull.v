(* C15: in any codeword of a parity-check matrix whose source columns all have even weight and whose
   repair part is the staircase (column j < r-1 in rows j and j+1, column r-1 in row r-1 only), the
   last repair symbol is the null symbol.  Universal in the matrix, its size and the symbol group. *)
From Coq Require Import Arith List Bool Lia.
From OFV Require XorGroup ListAux.
Import ListNotations.

Section LN.
Variable Sy : Type. Variable sxor : Sy -> Sy -> Sy. Variable s0 : Sy.
Hypothesis sxor_assoc : forall a b c, sxor a (sxor b c) = sxor (sxor a b) c.
Hypothesis sxor_comm : forall a b, sxor a b = sxor b a.
Hypothesis sxor_0_l : forall a, sxor s0 a = a.
Hypothesis sxor_nilp : forall a, sxor a a = s0.

Definition xsum (l : list Sy) : Sy := fold_right sxor s0 l.
Lemma xsum_app a b : xsum (a ++ b) = sxor (xsum a) (xsum b).
Proof. exact (XorGroup.xsum_app Sy sxor s0 sxor_assoc sxor_0_l a b). Qed.

(* a sum whose only term that can be non-null is the one at x *)
Lemma xsum_delta (g : nat -> Sy) x n : x < n -> xsum (map (fun c => if c =? x then g c else s0) (seq 0 n)) = g x.
Proof.
  intros Hx. set (f := fun c => if c =? x then g c else s0).
  (* the positions before x, x itself, the positions after x *)
  replace n with (x + S (n - S x)) by lia. rewrite seq_app, map_app, xsum_app. cbn [seq map xsum fold_right Nat.add].
  fold (xsum (map f (seq (S x) (n - S x)))). unfold f at 2. rewrite Nat.eqb_refl.
  rewrite 2 (map_ext_in f (fun _ => s0))
    by (intros c Hc; apply in_seq in Hc; unfold f; destruct (Nat.eqb_spec c x); [lia|reflexivity]).
  rewrite !(XorGroup.xsum_zero Sy sxor s0 sxor_0_l), sxor_0_l. apply (XorGroup.sxor_0_r Sy sxor s0 sxor_comm sxor_0_l).
Qed.

Variable cw : nat -> Sy.                       (* a codeword: value of every matrix column *)
Definition rowsum (row : list nat) : Sy := xsum (map cw row).
Definition colcount (H : list (list nat)) (c : nat) : nat := length (filter (fun row => existsb (Nat.eqb c) row) H).

Lemma xsum_pointwise (f g : nat -> Sy) l : xsum (map (fun c => sxor (f c) (g c)) l) = sxor (xsum (map f l)) (xsum (map g l)).
Proof. exact (XorGroup.xsum_pointwise Sy sxor s0 sxor_assoc sxor_comm sxor_0_l f g l). Qed.

(* indicator sum of a duplicate-free row *)
Lemma rowsum_indicator n : forall row, NoDup row -> (forall c, In c row -> c < n) ->
  rowsum row = xsum (map (fun c => if existsb (Nat.eqb c) row then cw c else s0) (seq 0 n)).
Proof.
  induction row as [|x row IH]; intros Hnd Hr.
  - symmetry. apply (XorGroup.xsum_zero Sy sxor s0 sxor_0_l).
  - inversion Hnd as [|? ? Hx Hnd']; subst. unfold rowsum in *. cbn [map xsum fold_right].
    fold (xsum (map cw row)). rewrite IH by (auto; intros; apply Hr; now right).
    rewrite <- (xsum_delta cw x n) at 1 by (apply Hr; now left).
    rewrite <- xsum_pointwise. f_equal. apply map_ext. intros c. cbn [existsb].
    destruct (Nat.eqb_spec c x) as [->|Hne]; [|apply sxor_0_l].
    (* x does not occur again in the row *)
    destruct (existsb (Nat.eqb x) row) eqn:E; [|apply (XorGroup.sxor_0_r Sy sxor s0 sxor_comm sxor_0_l)].
    apply ListAux.existsb_eqb_In in E. tauto.
Qed.

(* summing all parity equations = summing every column as many times as it occurs, i.e. when its count is odd *)
Lemma total_rowsum n : forall H, (forall row, In row H -> NoDup row /\ forall c, In c row -> c < n) ->
  xsum (map rowsum H) = xsum (map (fun c => if Nat.odd (colcount H c) then cw c else s0) (seq 0 n)).
Proof.
  induction H as [|row H IH]; intros Hwf.
  - symmetry. apply (XorGroup.xsum_zero Sy sxor s0 sxor_0_l).
  - cbn [map xsum fold_right]. fold (xsum (map rowsum H)). rewrite IH by (intros; apply Hwf; now right).
    destruct (Hwf row (or_introl eq_refl)) as (Hnd & Hr).
    rewrite (rowsum_indicator n row Hnd Hr), <- xsum_pointwise. f_equal. apply map_ext. intros c.
    unfold colcount. cbn [filter]. destruct (existsb (Nat.eqb c) row); [|apply sxor_0_l].
    (* one more row through c flips the parity of its count *)
    cbn [length]. rewrite Nat.odd_succ, <- Nat.negb_odd.
    destruct (Nat.odd (length (filter (fun row0 => existsb (Nat.eqb c) row0) H)));
      [apply sxor_nilp|apply (XorGroup.sxor_0_r Sy sxor s0 sxor_comm sxor_0_l)].
Qed.

Theorem last_repair_is_null_proof (H : list (list nat)) (r n : nat) :
  1 <= r -> r <= n ->
  (forall row, In row H -> NoDup row /\ forall c, In c row -> c < n) ->
  (forall row, In row H -> rowsum row = s0) ->                       (* cw is a codeword *)
  (forall c, r <= c < n -> Nat.even (colcount H c) = true) ->         (* source columns: even weight *)
  (forall c, c < r - 1 -> colcount H c = 2) -> colcount H (r - 1) = 1 -> (* staircase *)
  cw (r - 1) = s0.
Proof.
  intros Hr Hrn Hwf Hcw Hsrc Hst Hlast.
  assert (Hz : xsum (map rowsum H) = s0).
  { rewrite (map_ext_in _ (fun _ => s0) H Hcw). apply (XorGroup.xsum_zero Sy sxor s0 sxor_0_l). }
  rewrite (total_rowsum n H Hwf) in Hz.
  assert (Hodd : forall a, a < n -> Nat.odd (colcount H a) = (a =? r - 1)).
  { intros a Ha. destruct (Nat.eqb_spec a (r - 1)) as [->|Hne]; [now rewrite Hlast|].
    destruct (Nat.lt_ge_cases a (r - 1)) as [Hlt|Hge]; [now rewrite (Hst a Hlt)|].
    rewrite <- Nat.negb_even, (Hsrc a ltac:(lia)). reflexivity. }
  rewrite (map_ext_in _ (fun c => if c =? r - 1 then cw c else s0)) in Hz
    by (intros c Hc; apply in_seq in Hc; rewrite Hodd by lia; reflexivity).
  rewrite xsum_delta in Hz by lia. exact Hz.
Qed.
End LN.
