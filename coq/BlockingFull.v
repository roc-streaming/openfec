(* C20, float layer: the generated of_compute_blocking_struct, evaluated in binary64,
   always returns, and returns exactly the RFC 5052 values (N, A_large, A_small, I = T mod N). *)
From Flocq Require Import Core Relative Sterbenz IEEE754.BinarySingleNaN.
From Coq Require Import Reals ZArith Lia Lra Bool.
From OFV Require Import CSem CSemProofs FloatLemmas Blocking BlockingProofs.
From OFV.gen Require Import GenBlocking.
Local Open Scope R_scope.

Notation fmt64 := (generic_format radix2 (FLT_exp (-1074) 53)).

Lemma rnd64_0 : rnd64 0 = 0.
Proof. unfold rnd64. apply round_0. apply valid_rnd_N. Qed.

Lemma fmt64_R64 (x : binary64) : fmt64 (R64 x).
Proof. unfold R64. rewrite <- fexp64. apply generic_format_B2R. Qed.

Lemma bpow_m2 : bpow radix2 (-2) = / 4.
Proof. simpl. unfold Z.pow_pos. simpl. reflexivity. Qed.

Lemma fmt64_half : fmt64 (/ 2).
Proof. change (/ 2) with (bpow radix2 (-1)). apply generic_format_bpow. unfold FLT_exp. lia. Qed.

Lemma fmt64_quarter (z k : Z) : (0 <= z < 2^32)%Z -> (Z.abs k <= 1)%Z -> fmt64 (IZR z + IZR k / 4).
Proof.
  intros Hz Hk. apply generic_format_FLT.
  exists (Float radix2 (4 * z + k) (-2)).
  - unfold F2R. cbn [Fnum Fexp]. rewrite bpow_m2, plus_IZR, mult_IZR. field.
  - cbn [Fnum]. change (radix2 ^ 53)%Z with (2^53)%Z. lia.
  - cbn [Fexp]. lia.
Qed.

Lemma small_diff (x : R) : Rabs x <= / 4 -> Rabs (rnd64 x) <= / 4.
Proof. rewrite <- bpow_m2. apply rnd64_abs_le_bpow. lia. Qed.

Lemma large_diff (x : R) : / 2 <= Rabs x -> / 2 <= Rabs (rnd64 x).
Proof.
  intros H. apply abs_round_ge_generic; [apply FLT_exp_valid; reflexivity|apply valid_rnd_N|apply fmt64_half|exact H].
Qed.

Lemma abs_diff_R (v w : binary64) : fin v -> fin w -> Rabs (R64 v - R64 w) <= bpow radix2 1000 ->
  R64 (d_fabs (d_sub v w)) = Rabs (rnd64 (R64 v - R64 w)) /\ fin (d_fabs (d_sub v w)).
Proof.
  intros Fv Fw Hb. destruct (d_sub_rounded v w Fv Fw Hb) as [Rs Fs].
  destruct (d_fabs_R (d_sub v w)) as [Ra Fa]. rewrite Ra, Rs. split; [reflexivity|exact (Fa Fs)].
Qed.

Lemma IZR_succ_le a b : IZR a < IZR b -> IZR a + 1 <= IZR b.
Proof. intros H. apply lt_IZR in H. rewrite <- plus_IZR. apply IZR_le. lia. Qed.

Lemma closest_int_near (v : binary64) (r : Z) : fin v -> (0 <= r < 2^32)%Z ->
  Rabs (R64 v - IZR r) <= / 4 -> double_to_closest_int v = Some r.
Proof.
  intros Fv Hr Hv. unfold double_to_closest_int. cbv zeta.
  destruct (d_ceil_R v Fv) as [Rc Fc]. destruct (d_floor_R v Fv) as [Rf Ff].
  assert (U : forall w, fin w -> R64 w = IZR r -> bind (d_to_u32 w) (fun t => Some t) = Some r)
    by (intros w Fw Rw; rewrite (d_to_u32_of_int w r Fw Rw Hr); reflexivity).
  apply Rabs_le_inv in Hv.
  pose proof (Zceil_ub (R64 v)) as C1. pose proof (Zceil_lb (R64 v)) as C2.
  pose proof (Zfloor_lb (R64 v)) as F1. pose proof (Zfloor_ub (R64 v)) as F2.
  destruct (abs_diff_R v (d_ceil v) Fv Fc) as [R1 D1]. { rewrite Rc. apply below_2p1000, Rabs_le. lra. }
  destruct (abs_diff_R v (d_floor v) Fv Ff) as [R2 D2]. { rewrite Rf. apply below_2p1000, Rabs_le. lra. }
  rewrite (d_lt_R _ _ D1 D2), R1, R2, Rc, Rf.
  (* whichever of ceiling and floor is not r is at least 3/4 away from v, the other at most 1/4 *)
  destruct (Rtotal_order (R64 v) (IZR r)) as [Hlt|[Heq|Hgt]].
  - assert (Hc : Zceil (R64 v) = r) by (apply Zceil_imp; rewrite minus_IZR; lra).
    pose proof (IZR_succ_le (Zfloor (R64 v)) r ltac:(lra)) as Hf. rewrite Hc in *.
    rewrite Rlt_bool_true; [exact (U _ Fc Rc)|].
    apply Rle_lt_trans with (/ 4); [apply small_diff, Rabs_le; lra|].
    apply Rlt_le_trans with (/ 2); [lra|apply large_diff; rewrite Rabs_pos_eq; lra].
  - rewrite Heq, Zceil_IZR, Zfloor_IZR in *. rewrite Rlt_bool_false by apply Rle_refl. exact (U _ Ff Rf).
  - assert (Hf : Zfloor (R64 v) = r) by (apply Zfloor_imp; rewrite plus_IZR; lra).
    pose proof (IZR_succ_le r (Zceil (R64 v)) ltac:(lra)) as Hc. rewrite Hf in *.
    rewrite Rlt_bool_false; [exact (U _ Ff Rf)|].
    apply Rle_trans with (/ 4); [apply small_diff, Rabs_le; lra|].
    apply Rle_trans with (/ 2); [lra|apply large_diff; rewrite Rabs_left1; lra].
Qed.

(* the value handed to double_to_closest_int: RN(RN(RN(T/N) - floor(T/N)) * N) *)
Lemma frac_times_N (T N : Z) : (1 <= N <= T)%Z -> (T < 2^32)%Z ->
  let A := d_div (d_of_Z T) (d_of_Z N) in
  let v := d_mul (d_sub A (d_of_Z (T / N))) (d_of_Z N) in
  fin v /\ Rabs (R64 v - IZR (T mod N)) <= / 4.
Proof.
  intros HN HT. cbv zeta.
  pose proof (Z.div_mod T N ltac:(lia)) as Hdm. pose proof (Z.mod_pos_bound T N ltac:(lia)) as Hr.
  assert (Hq : (1 <= T / N <= T)%Z).
  { split; [apply Z.div_le_lower_bound; lia|apply Z.div_le_upper_bound; nia]. }
  destruct (quot_R T N ltac:(lia) ltac:(lia)) as [RA FA].
  set (A := d_div (d_of_Z T) (d_of_Z N)) in *. set (q := (T / N)%Z) in *. set (r := (T mod N)%Z) in *.
  clearbody A q r.
  destruct (d_of_Z_exact N ltac:(lia)) as [RN FN]. destruct (d_of_Z_exact q ltac:(lia)) as [Rq Fq].
  assert (BN : 1 <= IZR N <= 4294967295) by (split; [apply (IZR_le 1)|apply (IZR_le N 4294967295)]; lia).
  assert (Bq : 1 <= IZR q) by (apply (IZR_le 1); lia).
  assert (Br : 0 <= IZR r <= IZR N - 1) by (rewrite <- minus_IZR; split; apply IZR_le; lia).
  assert (BT : IZR T <= 4294967295) by (apply (IZR_le T 4294967295); lia).
  assert (HTR : IZR T = IZR N * IZR q + IZR r) by (rewrite Hdm at 1; rewrite plus_IZR, mult_IZR; reflexivity).
  set (x := IZR T / IZR N) in *.
  assert (HxN : x * IZR N = IZR T) by (unfold x; field; lra).
  assert (Hxq : IZR q <= x <= IZR q + 1) by (split; apply Rmult_le_reg_r with (IZR N); lra).
  (* q <= A <= q + 1, so the subtraction is exact (Sterbenz) *)
  assert (HAlo : IZR q <= R64 A) by (rewrite RA; apply rnd64_ge_format; [apply int_is_double; lia|lra]).
  assert (HAhi : R64 A <= IZR q + 1).
  { rewrite RA. apply rnd64_le_format; [|lra]. rewrite <- (plus_IZR q 1). apply int_is_double. lia. }
  assert (Hfmt : fmt64 (R64 A - IZR q)).
  { apply sterbenz; [apply FLT_exp_valid; reflexivity|apply FLT_exp_monotone|apply fmt64_R64|apply int_is_double; lia|lra]. }
  destruct (d_sub_rounded A (d_of_Z q) FA Fq) as [Rf Ff]. { rewrite Rq. apply below_2p1000, Rabs_le. lra. }
  rewrite Rq in Rf. unfold rnd64 in Rf. rewrite round_generic in Rf by (try apply valid_rnd_N; exact Hfmt).
  set (f := d_sub A (d_of_Z q)) in *. clearbody f.
  (* f * N - r = (A - T/N) * N, at most 2^-53 * T in magnitude *)
  pose proof (rnd64_rel_err x ltac:(lra)) as Herr. rewrite <- RA in Herr. apply Rabs_le_inv in Herr.
  assert (Hprod : IZR r - / 4 <= R64 f * IZR N <= IZR r + / 4) by (rewrite Rf; nra).
  destruct (d_mul_rounded f (d_of_Z N) Ff FN) as [Rv Fv]. { rewrite RN. apply below_2p1000, Rabs_le. lra. }
  rewrite RN in Rv. split; [exact Fv|]. rewrite Rv. apply Rabs_le. split.
  - assert (IZR r + IZR (-1) / 4 <= rnd64 (R64 f * IZR N)); [|lra].
    apply rnd64_ge_format; [apply fmt64_quarter; lia|lra].
  - assert (rnd64 (R64 f * IZR N) <= IZR r + IZR 1 / 4); [|lra].
    apply rnd64_le_format; [apply fmt64_quarter; lia|lra].
Qed.

Local Open Scope Z_scope.

Theorem blocking_full : forall B L E, 1 <= B < 2^32 -> 1 <= L < 2^32 -> 1 <= E < 2^32 ->
  let p := rfc5052 B L E in
  of_compute_blocking_struct B L E = Some (p_N p, p_A_large p, p_A_small p, p_I p).
Proof.
  intros B L E HB HL HE. destruct (blocking_prefix B L E HB HL HE) as [[HN HT] ->].
  set (T := ceil_div L E) in *. set (N := ceil_div T B) in *.
  destruct (frac_times_N T N HN HT) as [Fv Hv]. pose proof (Z.mod_pos_bound T N ltac:(lia)) as Hr.
  rewrite (closest_int_near _ (T mod N) Fv ltac:(lia) Hv). reflexivity.
Qed.

(* the same with the four values spelt out: the call always returns *)
Corollary blocking_full_total : forall B L E, 1 <= B < 2^32 -> 1 <= L < 2^32 -> 1 <= E < 2^32 ->
  exists n al asm i, of_compute_blocking_struct B L E = Some (n, al, asm, i) /\
    n = ceil_div (ceil_div L E) B /\ al = ceil_div (ceil_div L E) n /\
    asm = ceil_div L E / n /\ i = ceil_div L E mod n.
Proof.
  intros B L E HB HL HE. pose proof (blocking_full B L E HB HL HE) as H. cbv zeta in H.
  unfold rfc5052 in H. cbn [p_N p_A_large p_A_small p_I] in H.
  eexists _, _, _, _. split; [exact H|]. repeat split; reflexivity.
Qed.

Print Assumptions blocking_full.
Print Assumptions blocking_full_total.
