(* GF(16) and GF(256) as fields: the shift-and-add arithmetic of GF2Poly.v
   (mul16 = gfmul 4 P16, mul256 = gfmul 8 P256) with N.lxor as addition.
   First the laws on elements of N below q, then the type GF q with the field axioms, then the
   Reed-Solomon evaluation points, which are pairwise distinct. *)
From Coq Require Import NArith Arith List Bool Lia Eqdep_dec.
From OFV Require Import ListAux GF2Poly.
Import ListNotations.
Local Open Scope N_scope.

(* The product is additive (over lxor) in each operand, for every m and p: that is structural, by
   induction on the shift-and-add loop.  An identity between additive maps holds below 2^m as soon as
   it holds on the basis 1, x, ..., x^(m-1); so commutativity, associativity, closure and the unit law
   need the products of basis elements only, which `basis_ok` evaluates (m^3 products, not q^3). *)
Definition additive (f : N -> N) : Prop := forall a b, f (N.lxor a b) = N.lxor (f a) (f b).

Lemma additive_0 f : additive f -> f 0 = 0.
Proof. intro H. pose proof (H 0 0) as E. rewrite !N.lxor_nilpotent in E. exact E. Qed.

Lemma lxor_swap_inner x y z w : N.lxor (N.lxor x y) (N.lxor z w) = N.lxor (N.lxor x z) (N.lxor y w).
Proof.
  apply N.bits_inj. intro k. rewrite !N.lxor_spec.
  destruct (N.testbit x k), (N.testbit y k), (N.testbit z k), (N.testbit w k); reflexivity.
Qed.

(* p added to x, to y or to both, as two bits say *)
Lemma lxor_if_xorb (s t : bool) x y p :
  (if xorb s t then N.lxor (N.lxor x y) p else N.lxor x y) =
  N.lxor (if s then N.lxor x p else x) (if t then N.lxor y p else y).
Proof.
  destruct s, t; cbn [xorb].
  - rewrite lxor_swap_inner, N.lxor_nilpotent, N.lxor_0_r. reflexivity.
  - rewrite !N.lxor_assoc. f_equal. apply N.lxor_comm.
  - apply N.lxor_assoc.
  - reflexivity.
Qed.

Lemma xtime_xor m p : additive (xtime m p).
Proof. intros a b. unfold xtime. cbv zeta. rewrite N.shiftl_lxor, N.lxor_spec. apply lxor_if_xorb. Qed.

Lemma gfmul_aux_xor_r n m p : forall a b c acc1 acc2,
  gfmul_aux n m p a (N.lxor b c) (N.lxor acc1 acc2) =
  N.lxor (gfmul_aux n m p a b acc1) (gfmul_aux n m p a c acc2).
Proof.
  induction n as [|k IH]; intros a b c acc1 acc2; [reflexivity|].
  cbn [gfmul_aux]. rewrite N.shiftr_lxor, <- !N.bit0_odd, N.lxor_spec, <- IH. f_equal. apply lxor_if_xorb.
Qed.

Lemma gfmul_aux_xor_l n m p : forall a a' b acc1 acc2,
  gfmul_aux n m p (N.lxor a a') b (N.lxor acc1 acc2) =
  N.lxor (gfmul_aux n m p a b acc1) (gfmul_aux n m p a' b acc2).
Proof.
  induction n as [|k IH]; intros a a' b acc1 acc2; [reflexivity|].
  cbn [gfmul_aux]. rewrite xtime_xor, <- IH. f_equal.
  destruct (N.odd b); [apply lxor_swap_inner|reflexivity].
Qed.

Lemma gfmul_xor_r m p a : additive (gfmul m p a).
Proof. intros b c. unfold gfmul. rewrite <- gfmul_aux_xor_r. reflexivity. Qed.

Lemma gfmul_xor_l m p b : additive (fun a => gfmul m p a b).
Proof. intros a a'. unfold gfmul. rewrite <- gfmul_aux_xor_l. reflexivity. Qed.

Lemma lt_pow2_shiftr a n : a < 2 ^ n <-> N.shiftr a n = 0.
Proof.
  rewrite N.shiftr_div_pow2. symmetry. apply N.div_small_iff. apply N.pow_nonzero. discriminate.
Qed.

Lemma lxor_lt_pow2 n a b : a < 2 ^ n -> b < 2 ^ n -> N.lxor a b < 2 ^ n.
Proof. rewrite !lt_pow2_shiftr, N.shiftr_lxor. intros -> ->. reflexivity. Qed.

(* c below 2^m is the sum of the basis elements at its set bits *)
Fixpoint bitsum (m : nat) (c : N) : N :=
  match m with
  | O => 0
  | S k => N.lxor (if N.testbit c (N.of_nat k) then 2 ^ N.of_nat k else 0) (bitsum k c)
  end.

Lemma bitsum_bits m c j : N.testbit (bitsum m c) j = N.testbit c j && (j <? N.of_nat m).
Proof.
  induction m as [|k IH].
  - replace (j <? N.of_nat 0) with false by (symmetry; apply N.ltb_ge; lia).
    rewrite andb_false_r. apply N.bits_0.
  - cbn [bitsum]. rewrite N.lxor_spec, IH, Nat2N.inj_succ.
    replace (N.testbit (if N.testbit c (N.of_nat k) then 2 ^ N.of_nat k else 0) j)
      with (N.testbit c (N.of_nat k) && (N.of_nat k =? j))
      by (rewrite <- N.pow2_bits_eqb; destruct (N.testbit c (N.of_nat k)); [reflexivity|symmetry; apply N.bits_0]).
    destruct (N.eqb_spec (N.of_nat k) j) as [<-|Hn].
    + rewrite N.ltb_irrefl, (proj2 (N.ltb_lt _ _)) by lia. rewrite !andb_true_r, andb_false_r. apply xorb_false_r.
    + rewrite andb_false_r, xorb_false_l. f_equal.
      destruct (N.ltb_spec j (N.of_nat k)), (N.ltb_spec j (N.succ (N.of_nat k))); reflexivity || lia.
Qed.

Lemma bitsum_id m c : c < 2 ^ N.of_nat m -> bitsum m c = c.
Proof.
  intro Hc. apply N.bits_inj. intro j. rewrite bitsum_bits.
  destruct (N.ltb_spec j (N.of_nat m)) as [L|L]; [apply andb_true_r|].
  rewrite andb_false_r, <- (N.mod_small c (2 ^ N.of_nat m)) by exact Hc.
  symmetry. apply N.mod_pow2_bits_high. exact L.
Qed.

Lemma additive_ext m f g : additive f -> additive g ->
  (forall i, (i < m)%nat -> f (2 ^ N.of_nat i) = g (2 ^ N.of_nat i)) ->
  forall c, c < 2 ^ N.of_nat m -> f c = g c.
Proof.
  intros Hf Hg Hb c Hc. rewrite <- (bitsum_id m c Hc). clear Hc.
  induction m as [|k IH]; cbn [bitsum].
  - rewrite (additive_0 f Hf), (additive_0 g Hg). reflexivity.
  - rewrite Hf, Hg, IH by (intros i Hi; apply Hb; lia). f_equal.
    destruct (N.testbit c (N.of_nat k)); [apply Hb; lia|].
    rewrite (additive_0 f Hf), (additive_0 g Hg). reflexivity.
Qed.

(* The values of an additive map on 0 .. 2^m - 1, in order, from its values on the basis: each further
   basis element e doubles the list, the second half being the first one shifted by e. *)
Fixpoint span (es : list N) : list N :=
  match es with [] => [0] | e :: t => let r := span t in r ++ map (N.lxor e) r end.

Lemma add_pow2_lxor k j : j < 2 ^ k -> 2 ^ k + j = N.lxor (2 ^ k) j.
Proof.
  intro H. apply N.add_nocarry_lxor, N.bits_inj. intro i. rewrite N.land_spec, N.bits_0.
  destruct (N.eq_dec k i) as [<-|Hi]; [|rewrite N.pow2_bits_false by exact Hi; reflexivity].
  rewrite <- (N.mod_small j (2 ^ k) H), N.mod_pow2_bits_high by apply N.le_refl. apply andb_false_r.
Qed.

Lemma span_additive f mn : additive f ->
  span (map (fun i => f (2 ^ N.of_nat i)) (rev (seq 0 mn))) = map (fun b => f (N.of_nat b)) (seq 0 (2 ^ mn)).
Proof.
  intro Hf. induction mn as [|k IH].
  - cbn. rewrite (additive_0 f Hf). reflexivity.
  - rewrite seq_S, rev_app_distr. cbn [rev app map span Nat.add]. rewrite IH, map_map.
    rewrite Nat.pow_succ_r', Nat.mul_succ_l, Nat.mul_1_l, seq_app, map_app. f_equal.
    rewrite (Nat.add_comm 0), <- map_add_seq, map_map. apply map_ext_in. intros j Hj.
    apply in_seq in Hj. rewrite <- Hf, Nat2N.inj_add, Nat2N.inj_pow. f_equal. symmetry.
    apply add_pow2_lxor. change 2 with (N.of_nat 2). rewrite <- Nat2N.inj_pow. lia.
Qed.

Lemma gfmul_aux_0 n m p : forall a acc, gfmul_aux n m p a 0 acc = acc.
Proof. induction n as [|n IH]; intros a acc; [reflexivity|apply IH]. Qed.

(* multiplication by x is xtime *)
Lemma gfmul_2_r mn p a : (2 <= mn)%nat -> gfmul (N.of_nat mn) p a 2 = xtime (N.of_nat mn) p a.
Proof.
  intro H. unfold gfmul. rewrite Nat2N.id. destruct mn as [|[|n]]; [lia ..|].
  cbn [gfmul_aux]. change (N.shiftr (N.shiftr 2 1) 1) with 0. change (N.odd (N.shiftr 2 1)) with true.
  change (N.odd 2) with false. cbv iota. rewrite gfmul_aux_0. apply N.lxor_0_l.
Qed.

(* a^e by repeated multiplication; the inverse is a^(q-2) *)
Fixpoint gfinv (mul : N -> N -> N) (e : nat) (a : N) : N :=
  match e with O => 1 | S k => mul a (gfinv mul k a) end.

Lemma gfinv_S mul e a : mul a (gfinv mul e a) = gfinv mul (S e) a.
Proof. reflexivity. Qed.

Definition inv16 (a : N) : N := gfinv mul16 14 a.
Definition inv256 (a : N) : N := gfinv mul256 254 a.

Section Field.
  Variable mn : nat.
  Variable p : N.
  Notation q := (2 ^ N.of_nat mn).
  Notation mul := (gfmul (N.of_nat mn) p).
  Notation e i := (2 ^ N.of_nat i).

  Definition basis_ok : bool :=
    N.ltb 1 q &&
    forallb (fun i =>
      N.eqb (mul 1 (e i)) (e i) &&
      forallb (fun j =>
        N.ltb (mul (e i) (e j)) q && N.eqb (mul (e i) (e j)) (mul (e j) (e i)) &&
        forallb (fun k => N.eqb (mul (e i) (mul (e j) (e k))) (mul (mul (e i) (e j)) (e k)))
                (seq 0 mn))
      (seq 0 mn)) (seq 0 mn).

  Hypothesis Hbasis : basis_ok = true.

  Lemma basis_facts i j k : (i < mn)%nat -> (j < mn)%nat -> (k < mn)%nat ->
    mul 1 (e i) = e i /\ mul (e i) (e j) < q /\ mul (e i) (e j) = mul (e j) (e i) /\
    mul (e i) (mul (e j) (e k)) = mul (mul (e i) (e j)) (e k).
  Proof.
    intros Hi Hj Hk. pose proof Hbasis as H. unfold basis_ok in H.
    apply andb_true_iff in H as [_ H]. rewrite forallb_forall in H.
    specialize (H i ltac:(apply in_seq; lia)). apply andb_true_iff in H as [H1 H].
    rewrite forallb_forall in H. specialize (H j ltac:(apply in_seq; lia)).
    apply andb_true_iff in H as [H2 H]. apply andb_true_iff in H2 as [H2 H3].
    rewrite forallb_forall in H. specialize (H k ltac:(apply in_seq; lia)).
    rewrite N.eqb_eq in H1, H3, H. rewrite N.ltb_lt in H2. auto.
  Qed.

  Lemma gf_one_lt : 1 < q.
  Proof. pose proof Hbasis as H. apply andb_true_iff in H as [H _]. apply N.ltb_lt. exact H. Qed.

  Lemma gf_mul_closed a b : a < q -> b < q -> mul a b < q.
  Proof.
    intros Ha Hb. apply lt_pow2_shiftr. revert a Ha.
    apply (additive_ext mn (fun a => N.shiftr (mul a b) (N.of_nat mn)) (fun _ => 0)).
    - intros x y. rewrite gfmul_xor_l. apply N.shiftr_lxor.
    - intros x y. reflexivity.
    - intros i Hi. revert b Hb.
      apply (additive_ext mn (fun b => N.shiftr (mul (e i) b) (N.of_nat mn)) (fun _ => 0)).
      + intros x y. rewrite gfmul_xor_r. apply N.shiftr_lxor.
      + intros x y. reflexivity.
      + intros j Hj. apply lt_pow2_shiftr. apply (basis_facts i j j Hi Hj Hj).
  Qed.

  Lemma gf_mul_comm a b : a < q -> b < q -> mul a b = mul b a.
  Proof.
    intros Ha Hb. revert a Ha.
    apply (additive_ext mn (fun a => mul a b) (mul b) (gfmul_xor_l _ _ _) (gfmul_xor_r _ _ _)).
    intros i Hi. revert b Hb.
    apply (additive_ext mn (mul (e i)) (fun b => mul b (e i)) (gfmul_xor_r _ _ _) (gfmul_xor_l _ _ _)).
    intros j Hj. apply (basis_facts i j j Hi Hj Hj).
  Qed.

  Lemma gf_mul_assoc a b c : a < q -> b < q -> c < q -> mul a (mul b c) = mul (mul a b) c.
  Proof.
    intros Ha Hb Hc. revert a Ha.
    apply (additive_ext mn (fun a => mul a (mul b c)) (fun a => mul (mul a b) c));
      [intros x y; rewrite ?gfmul_xor_l; reflexivity ..|].
    intros i Hi. revert b Hb.
    apply (additive_ext mn (fun b => mul (e i) (mul b c)) (fun b => mul (mul (e i) b) c));
      [intros x y; rewrite ?gfmul_xor_l, ?gfmul_xor_r, ?gfmul_xor_l; reflexivity ..|].
    intros j Hj. revert c Hc.
    apply (additive_ext mn (fun c => mul (e i) (mul (e j) c)) (mul (mul (e i) (e j))));
      [intros x y; rewrite ?gfmul_xor_r; reflexivity ..|].
    intros k Hk. apply (basis_facts i j k Hi Hj Hk).
  Qed.

  Lemma gf_mul_1_l a : a < q -> mul 1 a = a.
  Proof.
    revert a. apply (additive_ext mn (mul 1) (fun a => a) (gfmul_xor_r _ _ _)); [intros x y; reflexivity|].
    intros i Hi. apply (basis_facts i i i Hi Hi Hi).
  Qed.

  Lemma gf_mul_0_l a : mul 0 a = 0.
  Proof. exact (additive_0 _ (gfmul_xor_l _ _ a)). Qed.

  Lemma gf_pow_closed n a : a < q -> gfinv mul n a < q.
  Proof.
    intro Ha. induction n as [|n IH]; cbn [gfinv]; [exact gf_one_lt|apply gf_mul_closed; assumption].
  Qed.

  Lemma gf_pow_add n k a : a < q -> gfinv mul (n + k) a = mul (gfinv mul n a) (gfinv mul k a).
  Proof.
    intro Ha. induction n as [|n IH]; cbn [gfinv Nat.add].
    - symmetry. apply gf_mul_1_l, gf_pow_closed, Ha.
    - rewrite IH. apply gf_mul_assoc; [exact Ha|apply gf_pow_closed, Ha ..].
  Qed.

  Lemma gf_pow_mul n k a : a < q -> gfinv mul (n * k) a = gfinv mul k (gfinv mul n a).
  Proof.
    intro Ha. induction k as [|k IH].
    - rewrite Nat.mul_0_r. reflexivity.
    - rewrite Nat.mul_succ_r, Nat.add_comm, gf_pow_add, IH by exact Ha. reflexivity.
  Qed.

  (* the powers of x, as the exp tables have them *)
  Hypothesis Hmn : (2 <= mn)%nat.

  Lemma gf_two_lt : 2 < q.
  Proof. change 2 with (2 ^ 1) at 1. apply N.pow_lt_mono_r; lia. Qed.

  Lemma xpow_pow i : xpow (N.of_nat mn) p i = gfinv mul i 2.
  Proof.
    induction i as [|i IH]; [reflexivity|].
    cbn [xpow gfinv]. rewrite <- gfmul_2_r, IH by exact Hmn.
    apply gf_mul_comm; [apply gf_pow_closed|]; exact gf_two_lt.
  Qed.

  Lemma xpow_lt i : xpow (N.of_nat mn) p i < q.
  Proof. rewrite xpow_pow. apply gf_pow_closed, gf_two_lt. Qed.

  Lemma xpow_add i j :
    xpow (N.of_nat mn) p (i + j) = mul (xpow (N.of_nat mn) p i) (xpow (N.of_nat mn) p j).
  Proof. rewrite !xpow_pow. apply gf_pow_add, gf_two_lt. Qed.
End Field.

Fixpoint forallN (n : nat) (f : N -> bool) : bool :=
  match n with O => true | S k => f (N.of_nat k) && forallN k f end.

Lemma forallN_spec n f : forallN n f = true -> forall a, a < N.of_nat n -> f a = true.
Proof.
  induction n as [|k IH]; intros H a Ha.
  - lia.
  - cbn [forallN] in H. apply andb_true_iff in H as [H1 H2].
    destruct (N.eq_dec a (N.of_nat k)) as [E|E].
    + subst a. exact H1.
    + apply IH; [exact H2|lia].
Qed.

Lemma gf16_basis_ok : basis_ok 4 P16 = true.
Proof. vm_compute. reflexivity. Qed.

Lemma gf16_closed a b : a < 16 -> b < 16 -> mul16 a b < 16.
Proof. exact (gf_mul_closed 4 P16 gf16_basis_ok a b). Qed.

Lemma gf16_xor_closed a b : a < 16 -> b < 16 -> N.lxor a b < 16.
Proof. exact (lxor_lt_pow2 4 a b). Qed.

Lemma gf16_mul_comm a b : a < 16 -> b < 16 -> mul16 a b = mul16 b a.
Proof. exact (gf_mul_comm 4 P16 gf16_basis_ok a b). Qed.

Lemma gf16_mul_1_l a : a < 16 -> mul16 1 a = a.
Proof. exact (gf_mul_1_l 4 P16 gf16_basis_ok a). Qed.

Lemma gf16_mul_0_l a : a < 16 -> mul16 0 a = 0.
Proof. intros _. exact (gf_mul_0_l 4 P16 a). Qed.

Lemma gf16_distr a b c : a < 16 -> b < 16 -> c < 16 ->
  mul16 a (N.lxor b c) = N.lxor (mul16 a b) (mul16 a c).
Proof. intros _ _ _. apply gfmul_xor_r. Qed.

Lemma gf16_mul_assoc a b c : a < 16 -> b < 16 -> c < 16 ->
  mul16 a (mul16 b c) = mul16 (mul16 a b) c.
Proof. exact (gf_mul_assoc 4 P16 gf16_basis_ok a b c). Qed.

Lemma gf16_inv_closed a : a < 16 -> inv16 a < 16.
Proof. exact (gf_pow_closed 4 P16 gf16_basis_ok 14 a). Qed.

(* a^15 = 1 for the 15 units *)
Lemma gf16_order_chk : forallN 16 (fun a => N.eqb a 0 || N.eqb (gfinv mul16 15 a) 1) = true.
Proof. vm_compute. reflexivity. Qed.

Lemma gf16_mul_inv a : a < 16 -> a <> 0 -> mul16 a (inv16 a) = 1.
Proof.
  intros Ha Hn. unfold inv16. rewrite gfinv_S.
  pose proof (forallN_spec 16 _ gf16_order_chk a Ha) as H. cbv beta in H.
  apply orb_true_iff in H as [H|H]; apply N.eqb_eq in H; [contradiction|exact H].
Qed.

Lemma gf256_basis_ok : basis_ok 8 P256 = true.
Proof. vm_compute. reflexivity. Qed.

Lemma gf256_closed a b : a < 256 -> b < 256 -> mul256 a b < 256.
Proof. exact (gf_mul_closed 8 P256 gf256_basis_ok a b). Qed.

Lemma gf256_xor_closed a b : a < 256 -> b < 256 -> N.lxor a b < 256.
Proof. exact (lxor_lt_pow2 8 a b). Qed.

Lemma gf256_mul_comm a b : a < 256 -> b < 256 -> mul256 a b = mul256 b a.
Proof. exact (gf_mul_comm 8 P256 gf256_basis_ok a b). Qed.

Lemma gf256_mul_1_l a : a < 256 -> mul256 1 a = a.
Proof. exact (gf_mul_1_l 8 P256 gf256_basis_ok a). Qed.

Lemma gf256_mul_0_l a : a < 256 -> mul256 0 a = 0.
Proof. intros _. exact (gf_mul_0_l 8 P256 a). Qed.

Lemma gf256_distr a b c : a < 256 -> b < 256 -> c < 256 ->
  mul256 a (N.lxor b c) = N.lxor (mul256 a b) (mul256 a c).
Proof. intros _ _ _. apply gfmul_xor_r. Qed.

Lemma gf256_mul_assoc a b c : a < 256 -> b < 256 -> c < 256 ->
  mul256 a (mul256 b c) = mul256 (mul256 a b) c.
Proof. exact (gf_mul_assoc 8 P256 gf256_basis_ok a b c). Qed.

Lemma gf256_inv_closed a : a < 256 -> inv256 a < 256.
Proof. exact (gf_pow_closed 8 P256 gf256_basis_ok 254 a). Qed.

(* a^255 = 1 for the 255 units, evaluated as ((a^3)^5)^17: 25 products per element instead of 255 *)
Lemma gf256_order_chk :
  forallN 256 (fun a => N.eqb a 0 || N.eqb (gfinv mul256 17 (gfinv mul256 5 (gfinv mul256 3 a))) 1) = true.
Proof. vm_compute. reflexivity. Qed.

Lemma gf256_pow_mul n k a : a < 256 -> gfinv mul256 (n * k) a = gfinv mul256 k (gfinv mul256 n a).
Proof. exact (gf_pow_mul 8 P256 gf256_basis_ok n k a). Qed.

Lemma gf256_mul_inv a : a < 256 -> a <> 0 -> mul256 a (inv256 a) = 1.
Proof.
  intros Ha Hn. unfold inv256. rewrite gfinv_S. change 255%nat with (3 * 5 * 17)%nat.
  rewrite gf256_pow_mul, gf256_pow_mul by exact Ha.
  pose proof (forallN_spec 256 _ gf256_order_chk a Ha) as H. cbv beta in H.
  apply orb_true_iff in H as [H|H]; apply N.eqb_eq in H; [contradiction|exact H].
Qed.

Definition GF (q : N) : Type := { a : N | N.ltb a q = true }.
Definition val {q} (x : GF q) : N := proj1_sig x.

Lemma val_inj q (x y : GF q) : val x = val y -> x = y.
Proof.
  destruct x as [a Ha], y as [b Hb]. cbn [val proj1_sig]. intro E. subst b.
  f_equal. apply UIP_dec. exact bool_dec.
Qed.

Lemma val_lt q (x : GF q) : val x < q.
Proof. destruct x as [a Ha]. cbn [val proj1_sig]. apply N.ltb_lt. exact Ha. Qed.

Definition GF_eq_dec q (a b : GF q) : {a = b} + {a <> b}.
Proof.
  destruct (N.eq_dec (val a) (val b)) as [E|E].
  - left. apply val_inj. exact E.
  - right. intro H. apply E. rewrite H. reflexivity.
Defined.

Section Pack.
  Variable q : N.
  Variable mul : N -> N -> N.
  Variable inv : N -> N.
  Hypothesis Hq1 : 1 < q.
  Hypothesis Hcl : forall a b, a < q -> b < q -> mul a b < q.
  Hypothesis Hxcl : forall a b, a < q -> b < q -> N.lxor a b < q.
  Hypothesis Hcomm : forall a b, a < q -> b < q -> mul a b = mul b a.
  Hypothesis Hassoc : forall a b c, a < q -> b < q -> c < q -> mul a (mul b c) = mul (mul a b) c.
  Hypothesis H1l : forall a, a < q -> mul 1 a = a.
  Hypothesis Hdistr : forall a b c, a < q -> b < q -> c < q ->
    mul a (N.lxor b c) = N.lxor (mul a b) (mul a c).
  Hypothesis Hicl : forall a, a < q -> inv a < q.
  Hypothesis Hinv : forall a, a < q -> a <> 0 -> mul a (inv a) = 1.

  (* `Proof using` throughout: pk_zero, pk_add, ... and the laws below close over the hypotheses they name and
     no others, which is the argument list of F16_zero := pk_zero 16 lt_1_16 and the rest. *)
  Lemma pk_zero_ok : N.ltb 0 q = true.
  Proof using Hq1. apply N.ltb_lt. lia. Qed.
  Lemma pk_one_ok : N.ltb 1 q = true.
  Proof using Hq1. apply N.ltb_lt. exact Hq1. Qed.
  Lemma pk_add_ok (x y : GF q) : N.ltb (N.lxor (val x) (val y)) q = true.
  Proof using Hxcl. apply N.ltb_lt. apply Hxcl; apply val_lt. Qed.
  Lemma pk_mul_ok (x y : GF q) : N.ltb (mul (val x) (val y)) q = true.
  Proof using Hcl. apply N.ltb_lt. apply Hcl; apply val_lt. Qed.
  Lemma pk_inv_ok (x : GF q) : N.ltb (inv (val x)) q = true.
  Proof using Hicl. apply N.ltb_lt. apply Hicl. apply val_lt. Qed.
  Lemma pk_of_N_ok (a : N) : N.ltb (if N.ltb a q then a else 0) q = true.
  Proof using Hq1. destruct (N.ltb a q) eqn:E; [exact E|exact pk_zero_ok]. Qed.

  Definition pk_zero : GF q := exist _ 0 pk_zero_ok.
  Definition pk_one : GF q := exist _ 1 pk_one_ok.
  Definition pk_add (x y : GF q) : GF q := exist _ (N.lxor (val x) (val y)) (pk_add_ok x y).
  Definition pk_mul (x y : GF q) : GF q := exist _ (mul (val x) (val y)) (pk_mul_ok x y).
  Definition pk_opp (x : GF q) : GF q := x.
  Definition pk_inv (x : GF q) : GF q := exist _ (inv (val x)) (pk_inv_ok x).
  Definition pk_of_N (a : N) : GF q := exist _ (if N.ltb a q then a else 0) (pk_of_N_ok a).

  Lemma pk_val_of_N a : val (pk_of_N a) = if N.ltb a q then a else 0.
  Proof using Hq1. reflexivity. Qed.
  Lemma pk_val_of_N_lt a : a < q -> val (pk_of_N a) = a.
  Proof using Hq1. intro H. rewrite pk_val_of_N. apply N.ltb_lt in H. rewrite H. reflexivity. Qed.
  Lemma pk_val_of_N_ge a : q <= a -> val (pk_of_N a) = 0.
  Proof using Hq1. intro H. rewrite pk_val_of_N. apply N.ltb_ge in H. rewrite H. reflexivity. Qed.
  Lemma pk_of_N_val (x : GF q) : pk_of_N (val x) = x.
  Proof using Hq1. apply val_inj. apply pk_val_of_N_lt. apply val_lt. Qed.

  Lemma pk_add_comm a b : pk_add a b = pk_add b a.
  Proof using Hxcl. apply val_inj. cbn [val pk_add proj1_sig]. apply N.lxor_comm. Qed.
  Lemma pk_add_assoc a b c : pk_add a (pk_add b c) = pk_add (pk_add a b) c.
  Proof using Hxcl. apply val_inj. cbn [val pk_add proj1_sig]. symmetry. apply N.lxor_assoc. Qed.
  Lemma pk_add_0_l a : pk_add pk_zero a = a.
  Proof using Hq1 Hxcl. apply val_inj. cbn [val pk_add pk_zero proj1_sig]. apply N.lxor_0_l. Qed.
  Lemma pk_add_opp_r a : pk_add a (pk_opp a) = pk_zero.
  Proof using Hq1 Hxcl. apply val_inj. cbn [val pk_add pk_opp pk_zero proj1_sig]. apply N.lxor_nilpotent. Qed.
  Lemma pk_mul_comm a b : pk_mul a b = pk_mul b a.
  Proof using Hcl Hcomm. apply val_inj. cbn [val pk_mul proj1_sig]. apply Hcomm; apply val_lt. Qed.
  Lemma pk_mul_assoc a b c : pk_mul a (pk_mul b c) = pk_mul (pk_mul a b) c.
  Proof using Hcl Hassoc. apply val_inj. cbn [val pk_mul proj1_sig]. apply Hassoc; apply val_lt. Qed.
  Lemma pk_mul_1_l a : pk_mul pk_one a = a.
  Proof using Hq1 Hcl H1l. apply val_inj. cbn [val pk_mul pk_one proj1_sig]. apply H1l. apply val_lt. Qed.
  Lemma pk_mul_add_distr_l a b c : pk_mul a (pk_add b c) = pk_add (pk_mul a b) (pk_mul a c).
  Proof using Hcl Hxcl Hdistr. apply val_inj. cbn [val pk_mul pk_add proj1_sig]. apply Hdistr; apply val_lt. Qed.
  Lemma pk_mul_inv_r a : a <> pk_zero -> pk_mul a (pk_inv a) = pk_one.
  Proof using Hq1 Hcl Hicl Hinv.
    intro Hn. apply val_inj. cbn [val pk_mul pk_inv pk_one proj1_sig].
    apply Hinv; [apply val_lt|]. intro E. apply Hn. apply val_inj. exact E.
  Qed.
  Lemma pk_one_neq_zero : pk_one <> pk_zero.
  Proof using Hq1. intro E. apply (f_equal val) in E. cbn [val pk_one pk_zero proj1_sig] in E. discriminate E. Qed.
End Pack.

Lemma lt_1_16 : 1 < 16.   Proof. reflexivity. Qed.
Lemma lt_1_256 : 1 < 256. Proof. reflexivity. Qed.

Definition F16_zero : GF 16 := pk_zero 16 lt_1_16.
Definition F16_one : GF 16 := pk_one 16 lt_1_16.
Definition F16_add : GF 16 -> GF 16 -> GF 16 := pk_add 16 gf16_xor_closed.
Definition F16_mul : GF 16 -> GF 16 -> GF 16 := pk_mul 16 mul16 gf16_closed.
Definition F16_opp : GF 16 -> GF 16 := pk_opp 16.
Definition F16_inv : GF 16 -> GF 16 := pk_inv 16 inv16 gf16_inv_closed.
Definition of_N16 : N -> GF 16 := pk_of_N 16 lt_1_16.
Definition F16_eq_dec : forall a b : GF 16, {a = b} + {a <> b} := GF_eq_dec 16.

Lemma F16_val_zero : val F16_zero = 0.  Proof. reflexivity. Qed.
Lemma F16_val_one : val F16_one = 1.    Proof. reflexivity. Qed.
Lemma F16_val_add x y : val (F16_add x y) = N.lxor (val x) (val y).  Proof. reflexivity. Qed.
Lemma F16_val_mul x y : val (F16_mul x y) = mul16 (val x) (val y).    Proof. reflexivity. Qed.
Lemma F16_val_opp x : val (F16_opp x) = val x.                        Proof. reflexivity. Qed.
Lemma F16_val_inv x : val (F16_inv x) = inv16 (val x).                Proof. reflexivity. Qed.
Lemma F16_val_lt (x : GF 16) : val x < 16.                            Proof. apply val_lt. Qed.
Lemma of_N16_val a : val (of_N16 a) = if N.ltb a 16 then a else 0.    Proof. reflexivity. Qed.
Lemma of_N16_val_lt a : a < 16 -> val (of_N16 a) = a.                 Proof. apply pk_val_of_N_lt. Qed.
Lemma of_N16_val_ge a : 16 <= a -> val (of_N16 a) = 0.                Proof. apply pk_val_of_N_ge. Qed.
Lemma of_N16_of_val x : of_N16 (val x) = x.                           Proof. apply pk_of_N_val. Qed.

Lemma F16_add_comm a b : F16_add a b = F16_add b a.
Proof. apply pk_add_comm. Qed.
Lemma F16_add_assoc a b c : F16_add a (F16_add b c) = F16_add (F16_add a b) c.
Proof. apply pk_add_assoc. Qed.
Lemma F16_add_0_l a : F16_add F16_zero a = a.
Proof. apply pk_add_0_l. Qed.
Lemma F16_add_opp_r a : F16_add a (F16_opp a) = F16_zero.
Proof. apply pk_add_opp_r. Qed.
Lemma F16_mul_comm a b : F16_mul a b = F16_mul b a.
Proof. apply pk_mul_comm. exact gf16_mul_comm. Qed.
Lemma F16_mul_assoc a b c : F16_mul a (F16_mul b c) = F16_mul (F16_mul a b) c.
Proof. apply pk_mul_assoc. exact gf16_mul_assoc. Qed.
Lemma F16_mul_1_l a : F16_mul F16_one a = a.
Proof. apply pk_mul_1_l. exact gf16_mul_1_l. Qed.
Lemma F16_mul_add_distr_l a b c : F16_mul a (F16_add b c) = F16_add (F16_mul a b) (F16_mul a c).
Proof. apply pk_mul_add_distr_l. exact gf16_distr. Qed.
Lemma F16_mul_inv_r a : a <> F16_zero -> F16_mul a (F16_inv a) = F16_one.
Proof. apply pk_mul_inv_r. exact gf16_mul_inv. Qed.
Lemma F16_one_neq_zero : F16_one <> F16_zero.
Proof. apply pk_one_neq_zero. Qed.

Definition F256_zero : GF 256 := pk_zero 256 lt_1_256.
Definition F256_one : GF 256 := pk_one 256 lt_1_256.
Definition F256_add : GF 256 -> GF 256 -> GF 256 := pk_add 256 gf256_xor_closed.
Definition F256_mul : GF 256 -> GF 256 -> GF 256 := pk_mul 256 mul256 gf256_closed.
Definition F256_opp : GF 256 -> GF 256 := pk_opp 256.
Definition F256_inv : GF 256 -> GF 256 := pk_inv 256 inv256 gf256_inv_closed.
Definition of_N256 : N -> GF 256 := pk_of_N 256 lt_1_256.
Definition F256_eq_dec : forall a b : GF 256, {a = b} + {a <> b} := GF_eq_dec 256.

Lemma F256_val_zero : val F256_zero = 0.  Proof. reflexivity. Qed.
Lemma F256_val_one : val F256_one = 1.    Proof. reflexivity. Qed.
Lemma F256_val_add x y : val (F256_add x y) = N.lxor (val x) (val y).  Proof. reflexivity. Qed.
Lemma F256_val_mul x y : val (F256_mul x y) = mul256 (val x) (val y).   Proof. reflexivity. Qed.
Lemma F256_val_opp x : val (F256_opp x) = val x.                        Proof. reflexivity. Qed.
Lemma F256_val_inv x : val (F256_inv x) = inv256 (val x).               Proof. reflexivity. Qed.
Lemma F256_val_lt (x : GF 256) : val x < 256.                           Proof. apply val_lt. Qed.
Lemma of_N256_val a : val (of_N256 a) = if N.ltb a 256 then a else 0.   Proof. reflexivity. Qed.
Lemma of_N256_val_lt a : a < 256 -> val (of_N256 a) = a.                Proof. apply pk_val_of_N_lt. Qed.
Lemma of_N256_val_ge a : 256 <= a -> val (of_N256 a) = 0.               Proof. apply pk_val_of_N_ge. Qed.
Lemma of_N256_of_val x : of_N256 (val x) = x.                           Proof. apply pk_of_N_val. Qed.

Lemma F256_add_comm a b : F256_add a b = F256_add b a.
Proof. apply pk_add_comm. Qed.
Lemma F256_add_assoc a b c : F256_add a (F256_add b c) = F256_add (F256_add a b) c.
Proof. apply pk_add_assoc. Qed.
Lemma F256_add_0_l a : F256_add F256_zero a = a.
Proof. apply pk_add_0_l. Qed.
Lemma F256_add_opp_r a : F256_add a (F256_opp a) = F256_zero.
Proof. apply pk_add_opp_r. Qed.
Lemma F256_mul_comm a b : F256_mul a b = F256_mul b a.
Proof. apply pk_mul_comm. exact gf256_mul_comm. Qed.
Lemma F256_mul_assoc a b c : F256_mul a (F256_mul b c) = F256_mul (F256_mul a b) c.
Proof. apply pk_mul_assoc. exact gf256_mul_assoc. Qed.
Lemma F256_mul_1_l a : F256_mul F256_one a = a.
Proof. apply pk_mul_1_l. exact gf256_mul_1_l. Qed.
Lemma F256_mul_add_distr_l a b c : F256_mul a (F256_add b c) = F256_add (F256_mul a b) (F256_mul a c).
Proof. apply pk_mul_add_distr_l. exact gf256_distr. Qed.
Lemma F256_mul_inv_r a : a <> F256_zero -> F256_mul a (F256_inv a) = F256_one.
Proof. apply pk_mul_inv_r. exact gf256_mul_inv. Qed.
Lemma F256_one_neq_zero : F256_one <> F256_zero.
Proof. apply pk_one_neq_zero. Qed.

(* The evaluation points, in the order of the rows of the Vandermonde matrix that the C fills in
   of_rs_2m_build_encoding_matrix: row 0 is (1,0,...,0), evaluation at 0; row j+1 is (x^(j*col))_col, evaluation at x^j. *)
Definition rs_point (m p : N) (j : nat) : N :=
  match j with O => 0 | S i => xpow m p i end.

Fixpoint nodupb (l : list N) : bool :=
  match l with [] => true | x :: t => negb (existsb (N.eqb x) t) && nodupb t end.

Lemma nodupb_NoDup l : nodupb l = true -> NoDup l.
Proof.
  induction l as [|x t IH]; intro H.
  - constructor.
  - cbn [nodupb] in H. apply andb_true_iff in H as [H1 H2]. constructor.
    + intro Hin. apply negb_true_iff in H1.
      assert (E : existsb (N.eqb x) t = true).
      { apply existsb_exists. exists x. split; [exact Hin|apply N.eqb_refl]. }
      rewrite E in H1. discriminate H1.
    + apply IH. exact H2.
Qed.

Section Points.
  Variables m p : N.
  Variable qn : nat.
  Hypothesis Hnd : nodupb (map (rs_point m p) (seq 0 qn)) = true.
  Hypothesis Hlt : forallb (fun j => N.ltb (rs_point m p j) (N.of_nat qn)) (seq 0 qn) = true.

  Lemma points_NoDup n : (n <= qn)%nat -> NoDup (map (rs_point m p) (seq 0 n)).
  Proof.
    intro Hn. pose proof (nodupb_NoDup _ Hnd) as H.
    replace qn with (n + (qn - n))%nat in H by lia.
    rewrite seq_app, map_app in H. apply NoDup_app_iff in H. apply H.
  Qed.

  Lemma points_inj i j : (i < qn)%nat -> (j < qn)%nat ->
    rs_point m p i = rs_point m p j -> i = j.
  Proof.
    intros Hi Hj E. pose proof (nodupb_NoDup _ Hnd) as H.
    rewrite (NoDup_nth _ (rs_point m p 0%nat)) in H.
    rewrite map_length, seq_length in H.
    apply (H i j Hi Hj). rewrite !map_nth, !seq_nth by assumption. exact E.
  Qed.

  Lemma points_lt j : (j < qn)%nat -> rs_point m p j < N.of_nat qn.
  Proof.
    intro Hj. rewrite forallb_forall in Hlt. apply N.ltb_lt. apply Hlt.
    apply in_seq. lia.
  Qed.
End Points.

(* that the points are distinct says that x is primitive: x^i, i < q-1, are q-1 different nonzero elements *)
Lemma rs_points16_nodup_chk : nodupb (map (rs_point 4 P16) (seq 0 16)) = true.
Proof. vm_compute. reflexivity. Qed.
Lemma rs_points16_lt_chk : forallb (fun j => N.ltb (rs_point 4 P16 j) (N.of_nat 16)) (seq 0 16) = true.
Proof. vm_compute. reflexivity. Qed.
Lemma rs_points256_nodup_chk : nodupb (map (rs_point 8 P256) (seq 0 256)) = true.
Proof. vm_compute. reflexivity. Qed.
Lemma rs_points256_lt_chk : forallb (fun j => N.ltb (rs_point 8 P256 j) (N.of_nat 256)) (seq 0 256) = true.
Proof. vm_compute. reflexivity. Qed.

Lemma rs_point16_inj i j : (i < 16)%nat -> (j < 16)%nat ->
  rs_point 4 P16 i = rs_point 4 P16 j -> i = j.
Proof. exact (points_inj 4 P16 16 rs_points16_nodup_chk i j). Qed.

Lemma rs_point16_lt j : (j < 16)%nat -> rs_point 4 P16 j < 16.
Proof. exact (points_lt 4 P16 16 rs_points16_lt_chk j). Qed.

Lemma rs_point16_NoDup n : (n <= 16)%nat -> NoDup (map (rs_point 4 P16) (seq 0 n)).
Proof. exact (points_NoDup 4 P16 16 rs_points16_nodup_chk n). Qed.

Lemma rs_point256_inj i j : (i < 256)%nat -> (j < 256)%nat ->
  rs_point 8 P256 i = rs_point 8 P256 j -> i = j.
Proof. exact (points_inj 8 P256 256 rs_points256_nodup_chk i j). Qed.

Lemma rs_point256_lt j : (j < 256)%nat -> rs_point 8 P256 j < 256.
Proof. exact (points_lt 8 P256 256 rs_points256_lt_chk j). Qed.

Lemma rs_point256_NoDup n : (n <= 256)%nat -> NoDup (map (rs_point 8 P256) (seq 0 n)).
Proof. exact (points_NoDup 8 P256 256 rs_points256_nodup_chk n). Qed.

Print Assumptions gf16_mul_assoc.
Print Assumptions gf16_distr.
Print Assumptions gf256_mul_assoc.
Print Assumptions gf256_distr.
Print Assumptions gf256_mul_inv.
Print Assumptions F256_mul_inv_r.
Print Assumptions F256_mul_assoc.
Print Assumptions F16_mul_assoc.
Print Assumptions F16_mul_inv_r.
Print Assumptions val_inj.
Print Assumptions rs_point16_inj.
Print Assumptions rs_point16_lt.
Print Assumptions rs_point16_NoDup.
Print Assumptions rs_point256_inj.
Print Assumptions rs_point256_lt.
Print Assumptions rs_point256_NoDup.
