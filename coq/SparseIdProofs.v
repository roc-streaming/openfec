(* C17 at the level of entry identities (SparseId.v): every entry of the matrix and every entry of the free list is
   named (block, index); the invariant PInv says that the names in use and the names on the free list are pairwise
   distinct, lie in blocks that have NOT been released, and account for every slot of every live block.  It holds of
   i_allocate, is preserved by every operation of the stream (insert, delete, clear, the four plain copies), and gives
   (Properties_C17.v): no entry of the matrix and no entry of the free list points into a released block; the entry
   handed out by of_alloc_entry is not in use.  A clear that releases the blocks but keeps the free list
   (p_clear_buggy: what of_mod2sparse_clear did before its repair) breaks it. *)
From Coq Require Import Arith List Bool Lia Permutation.
From OFV Require Import ListAux Sparse SparseProofs SparseOptProofs SparseChk SparseId.
Import ListNotations.

Definition PInv (m : imat) : Prop :=
     NoDup (map fst (ids m))
  /\ (forall k, In k (map fst (ids m)) <-> In k (entries (sm m)))
  /\ NoDup (map snd (ids m) ++ pfree (pl m))
  /\ (forall e, In e (map snd (ids m) ++ pfree (pl m)) -> In (fst e) (pblocks (pl m)) /\ snd e < BLOCK)
  /\ NoDup (pblocks (pl m)) /\ (forall b, In b (pblocks (pl m)) -> b < pnext (pl m))
  /\ length (ids m) + length (pfree (pl m)) = BLOCK * length (pblocks (pl m))
  /\ nblocks (sm m) = length (pblocks (pl m)) /\ nfree (sm m) = length (pfree (pl m)).

(* the pool alone: `used` is the list of names in use *)
Definition PoolInv (used : list (nat * nat)) (p : pool) : Prop :=
     NoDup (used ++ pfree p)
  /\ (forall e, In e (used ++ pfree p) -> In (fst e) (pblocks p) /\ snd e < BLOCK)
  /\ NoDup (pblocks p) /\ (forall b, In b (pblocks p) -> b < pnext p)
  /\ length used + length (pfree p) = BLOCK * length (pblocks p).

Lemma in_fresh_block (b B : nat) (i : nat * nat) : In i (map (fun i => (b, i)) (rev (seq 0 B))) <-> fst i = b /\ snd i < B.
Proof.
  rewrite in_map_iff. split.
  - intros (x & <- & Hx). apply in_rev, in_seq in Hx. simpl. split; [reflexivity|lia].
  - intros (E1 & E2). exists (snd i). split; [destruct i; simpl in *; now subst|]. apply -> in_rev. apply in_seq. lia.
Qed.

(* only the set of names in use or free matters, not which list holds a name *)
Lemma PoolInv_perm used p used' p' : Permutation (used ++ pfree p) (used' ++ pfree p') ->
  pblocks p' = pblocks p -> pnext p' = pnext p -> PoolInv used p -> PoolInv used' p'.
Proof.
  intros HP Eb En (A & B & C & D & E). unfold PoolInv. rewrite Eb, En.
  split; [exact (Permutation_NoDup HP A)|]. split; [intros e He; apply B, (Permutation_in e (Permutation_sym HP) He)|].
  split; [exact C|]. split; [exact D|]. apply Permutation_length in HP. rewrite !app_length in HP. lia.
Qed.

(* of_alloc_entry on an empty free list: a block with a fresh number joins the pool, all its slots free, the last one first *)
Lemma new_block_inv used p n : PoolInv used p -> pfree p = [] -> S n = BLOCK ->
  PoolInv used {| pblocks := pnext p :: pblocks p; pnext := S (pnext p);
                  pfree := (pnext p, n) :: map (fun i => (pnext p, i)) (rev (seq 0 n)) |}.
Proof.
  intros (Hnd & Hlive & Hnb & Hlt & Hlen) Ef En. rewrite Ef, app_nil_r in Hnd, Hlive. rewrite Ef in Hlen.
  replace ((pnext p, n) :: map (fun i => (pnext p, i)) (rev (seq 0 n))) with (map (fun i => (pnext p, i)) (rev (seq 0 BLOCK)))
    by (rewrite <- En, seq_S, rev_app_distr; reflexivity).
  assert (Hfresh : ~ In (pnext p) (pblocks p)) by (intros Hin; specialize (Hlt _ Hin); lia).
  unfold PoolInv. cbn [pblocks pnext pfree]. split; [|split; [|split; [|split]]].
  - apply NoDup_app_iff. split; [exact Hnd|]. split.
    { apply FinFun.Injective_map_NoDup; [intros x y E; now inversion E|apply NoDup_rev, seq_NoDup]. }
    (* the iff is projected by hand so that BLOCK stays folded *)
    intros x Hx Hin. apply (proj1 (in_fresh_block _ _ _)) in Hin as (E & _). apply Hfresh. rewrite <- E. apply (Hlive x Hx).
  - intros x Hx. apply in_app_or in Hx as [Hx|Hx].
    + destruct (Hlive x Hx). split; [now right|assumption].
    + apply (proj1 (in_fresh_block _ _ _)) in Hx as (E & Hs). split; [now left|exact Hs].
  - constructor; assumption.
  - intros b [<-|Hb]; [lia|]. specialize (Hlt b Hb). lia.
  - rewrite map_length, rev_length, seq_length. cbn [length] in *. rewrite Nat.mul_succ_r. lia.
Qed.

Lemma pop_inv used p e rest : PoolInv used p -> pfree p = e :: rest ->
  PoolInv (e :: used) {| pblocks := pblocks p; pnext := pnext p; pfree := rest |} /\ ~ In e used.
Proof.
  intros P Ef. split.
  - apply (PoolInv_perm used p); [|reflexivity|reflexivity|exact P]. rewrite Ef. symmetry. apply Permutation_middle.
  - destruct P as (Hnd & _). rewrite Ef in Hnd. intros Hin. apply (NoDup_remove_2 _ _ _ Hnd). apply in_or_app. now left.
Qed.

(* of_alloc_entry: a new block first if the free list is empty, then the head of the free list *)
Lemma p_take_inv used p : PoolInv used p ->
  let '(p', e) := p_take p in
  PoolInv (e :: used) p' /\ ~ In e used /\
  length (pblocks p') = (if length (pfree p) =? 0 then S (length (pblocks p)) else length (pblocks p)) /\
  length (pfree p') = (if length (pfree p) =? 0 then BLOCK - 1 else length (pfree p) - 1).
Proof.
  intros P. unfold p_take. destruct (pfree p) as [|e rest] eqn:Ef.
  - pose proof BLOCK_pos.
    destruct (pop_inv used _ _ _ (new_block_inv used p (BLOCK - 1) P Ef ltac:(lia)) eq_refl) as (P' & Hfresh).
    split; [exact P'|]. split; [exact Hfresh|]. cbn [pblocks pfree length Nat.eqb]. rewrite map_length, rev_length, seq_length. auto.
  - destruct (pop_inv used p e rest P Ef) as (P' & Hfresh).
    split; [exact P'|]. split; [exact Hfresh|]. cbn [pblocks pfree length Nat.eqb]. split; [reflexivity|lia].
Qed.

Lemma key_eqb_eq a b : key_eqb a b = true <-> a = b.
Proof.
  unfold key_eqb. rewrite andb_true_iff, !Nat.eqb_eq. destruct a, b; simpl. split; [intros (-> & ->); reflexivity|].
  intros E; inversion E; auto.
Qed.

Lemma id_of_In l k e : id_of l k = Some e -> In (k, e) l.
Proof.
  induction l as [|(k', e') t IH]; simpl; [discriminate|]. destruct (key_eqb k' k) eqn:E.
  - apply key_eqb_eq in E. subst. intros H; inversion H; subst. now left.
  - intros H. right. apply IH. exact H.
Qed.

Lemma id_of_some l k : In k (map fst l) -> exists e, id_of l k = Some e.
Proof.
  induction l as [|(k', e') t IH]; simpl; [intros []|]. intros [E|Hin].
  - subst. assert (E : key_eqb k k = true) by (apply key_eqb_eq; reflexivity). rewrite E. eauto.
  - destruct (key_eqb k' k); [eauto|]. apply IH. exact Hin.
Qed.

Lemma drop_key_keys l k k' : In k' (map fst (drop_key l k)) <-> In k' (map fst l) /\ k' <> k.
Proof.
  unfold drop_key. rewrite !in_map_iff. split.
  - intros (x & <- & Hx). apply filter_In in Hx as (Hx & Hn). split; [exists x; auto|].
    intros E. apply key_eqb_eq in E. rewrite E in Hn. discriminate.
  - intros ((x & <- & Hx) & Hne). exists x. split; [reflexivity|]. apply filter_In. split; [exact Hx|].
    destruct (key_eqb (fst x) k) eqn:E; [|reflexivity]. apply key_eqb_eq in E. contradiction.
Qed.

Lemma drop_key_notin l k : ~ In k (map fst l) -> drop_key l k = l.
Proof.
  induction l as [|x t IH]; intros Hn; [reflexivity|]. simpl. destruct (key_eqb (fst x) k) eqn:E.
  - exfalso. apply Hn. left. apply key_eqb_eq. exact E.
  - simpl. f_equal. apply IH. intros H. apply Hn. now right.
Qed.

Lemma drop_key_NoDup l k : NoDup (map fst l) -> NoDup (map fst (drop_key l k)).
Proof.
  induction l as [|x t IH]; intros H; [constructor|]. inversion H as [|a' t' Ha Ht]; subst.
  simpl. destruct (negb (key_eqb (fst x) k)); [|apply IH; exact Ht].
  simpl. constructor; [|apply IH; exact Ht]. intros Hin. apply drop_key_keys in Hin. tauto.
Qed.

Lemma drop_key_perm l k e : NoDup (map fst l) -> id_of l k = Some e ->
  Permutation (map snd l) (e :: map snd (drop_key l k)).
Proof.
  induction l as [|(k', e') t IH]; intros Hnd Hid; [discriminate|]. simpl in Hnd. inversion Hnd as [|a' t' Ha Ht]; subst.
  simpl in Hid. cbn [map snd drop_key filter fst]. fold (drop_key t k). destruct (key_eqb k' k) eqn:E; simpl.
  - apply key_eqb_eq in E. subst k'. inversion Hid; subst e'. now rewrite (drop_key_notin t k Ha).
  - rewrite (IH Ht Hid). apply perm_swap.
Qed.

Lemma entries_has m k : In k (entries m) <-> fst k < nr m /\ has m (fst k) (snd k) = true.
Proof. destruct k as [i j]. rewrite entries_spec, has_In. reflexivity. Qed.

Lemma entries_allocate r c : entries (s_allocate r c) = [].
Proof.
  destruct (entries (s_allocate r c)) as [|k t] eqn:E; [reflexivity|]. exfalso.
  assert (Hin : In k (entries (s_allocate r c))) by (rewrite E; now left).
  apply entries_has in Hin as (_ & Hh). now rewrite (proj2 (allocate_wf r c)) in Hh.
Qed.

Lemma entries_clear m : entries (s_clear m) = [].
Proof. exact (entries_allocate (nr m) (nc m)). Qed.

(* no entry, no block: the state after allocate and after clear *)
Lemma empty_inv s n : entries s = [] -> nblocks s = 0 -> nfree s = 0 ->
  PInv {| sm := s; ids := []; pl := {| pblocks := []; pnext := n; pfree := [] |} |}.
Proof.
  intros Ee Eb Ef. unfold PInv. cbn [sm ids pl pblocks pnext pfree map app length]. rewrite Ee, Eb, Ef, Nat.mul_0_r.
  split; [constructor|]. split; [reflexivity|]. split; [constructor|]. split; [intros e []|].
  split; [constructor|]. split; [intros b []|]. auto.
Qed.

Theorem i_allocate_inv r c : PInv (i_allocate r c).
Proof. apply (empty_inv (s_allocate r c) 0 (entries_allocate r c)); reflexivity. Qed.

Theorem i_insert_sm m i j : sm (fst (i_insert m i j)) = fst (s_insert (sm m) i j).
Proof. unfold i_insert. destruct (s_insert (sm m) i j) as [m' res]. destruct res, (p_take (pl m)); reflexivity. Qed.

Theorem i_insert_res m i j : snd (i_insert m i j) = snd (s_insert (sm m) i j).
Proof. unfold i_insert. destruct (s_insert (sm m) i j) as [m' res]. destruct res, (p_take (pl m)); reflexivity. Qed.

Theorem i_delete_sm m i j : sm (i_delete m i j) = s_delete (sm m) i j.
Proof.
  unfold i_delete, s_delete. destruct (mem j (nth i (rws (sm m)) [])) eqn:E; [|reflexivity].
  destruct (id_of (ids m) (i, j)); reflexivity.
Qed.

Theorem i_clear_sm m : sm (i_clear m) = s_clear (sm m).
Proof. reflexivity. Qed.

Theorem i_insert_all_sm es : forall m, sm (i_insert_all m es) = insert_all (sm m) es.
Proof.
  induction es as [|e es IH]; intros m; [reflexivity|]. rewrite insert_all_cons, <- i_insert_sm. apply IH.
Qed.

Theorem i_copy_sm m r : sm (i_copy m r) = s_copy (sm m) (sm r).
Proof.
  unfold i_copy, s_copy. destruct ((nr (sm r) <? nr (sm m)) || (nc (sm r) <? nc (sm m))); [reflexivity|].
  rewrite i_insert_all_sm. reflexivity.
Qed.

Theorem i_copyrows_sm m r rows : sm (i_copyrows m r rows) = s_copyrows_chk (sm m) (sm r) rows.
Proof.
  unfold i_copyrows, s_copyrows_chk. destruct (nc (sm r) <? nc (sm m)); [reflexivity|].
  rewrite i_insert_all_sm. reflexivity.
Qed.

Theorem i_copycols_sm m r cols : sm (i_copycols m r cols) = s_copycols_chk (sm m) (sm r) cols.
Proof.
  unfold i_copycols, s_copycols_chk. destruct (nr (sm r) <? nr (sm m)); [reflexivity|].
  rewrite i_insert_all_sm. reflexivity.
Qed.

Theorem i_copy_filled_sm m r irows icols : sm (i_copy_filled m r irows icols) = s_copy_filled (sm m) (sm r) irows icols.
Proof. unfold i_copy_filled, s_copy_filled. rewrite i_insert_all_sm. reflexivity. Qed.

Lemma i_insert_wf m i j : WF (sm m) -> WF (sm (fst (i_insert m i j))).
Proof. intros W. rewrite i_insert_sm. apply (insert_adds (sm m) i j W). Qed.

Lemma s_delete_wf m i j : WF m -> WF (s_delete m i j).
Proof.
  intros W. destruct (has m i j) eqn:E.
  - destruct (has_range m i j W E). now apply delete_spec.
  - unfold s_delete. fold (has m i j). now rewrite E.
Qed.

Lemma s_delete_fields m i j : mem j (nth i (rws m) []) = true ->
  nr (s_delete m i j) = nr m /\ nblocks (s_delete m i j) = nblocks m /\ nfree (s_delete m i j) = S (nfree m).
Proof. intros E. unfold s_delete. rewrite E. cbn [nr nblocks nfree]. auto. Qed.

Lemma PInv_iff m : PInv m <->
  NoDup (map fst (ids m)) /\ (forall k, In k (map fst (ids m)) <-> In k (entries (sm m))) /\
  PoolInv (map snd (ids m)) (pl m) /\ nblocks (sm m) = length (pblocks (pl m)) /\ nfree (sm m) = length (pfree (pl m)).
Proof. unfold PInv, PoolInv. rewrite map_length. tauto. Qed.

Theorem i_insert_inv m i j : WF (sm m) -> PInv m -> PInv (fst (i_insert m i j)).
Proof.
  intros W P. unfold i_insert.
  destruct (Nat.lt_ge_cases i (nr (sm m))) as [Hi|Hi]; [|rewrite s_insert_oor by (now left); now destruct m].
  destruct (Nat.lt_ge_cases j (nc (sm m))) as [Hj|Hj]; [|rewrite s_insert_oor by (now right); now destruct m].
  pose proof (insert_spec (sm m) i j W Hi Hj) as HS. rewrite (s_insert_inrange (sm m) i j W Hi Hj) in *.
  destruct (has (sm m) i j) eqn:Eh; [now destruct m|]. destruct HS as (_ & _ & _ & Hh & _).
  (* a new entry: of_alloc_entry *)
  apply PInv_iff in P as (P1 & P2 & P3 & P4 & P5).
  pose proof (p_take_inv _ _ P3) as HT. destruct (p_take (pl m)) as [p' e]. destruct HT as (T & _ & Tb & Tf).
  apply PInv_iff. cbn [fst sm ids pl map]. split; [|split; [|split; [exact T|]]].
  - constructor; [|exact P1]. intros Hin. apply P2, entries_has in Hin. cbn [fst snd] in Hin. destruct Hin; congruence.
  - intros k. cbn [In]. rewrite P2, !entries_has, Hh, orb_true_iff. cbn [nr].
    change ((fst k =? i) && (snd k =? j)) with (key_eqb k (i, j)). rewrite key_eqb_eq.
    split; [intros [<-|?]; [cbn [fst]; auto|tauto]|intros (A & [B| ->]); auto].
  - cbn [nblocks nfree]. rewrite Tb, Tf. unfold pool_take. rewrite P4, P5. now destruct (length (pfree (pl m)) =? 0).
Qed.

Theorem i_delete_inv m i j : WF (sm m) -> PInv m -> PInv (i_delete m i j).
Proof.
  intros W P. unfold i_delete. fold (has (sm m) i j). destruct (has (sm m) i j) eqn:E; [|exact P].
  destruct (has_range _ _ _ W E) as (Hi & Hj). destruct (delete_spec (sm m) i j W Hi Hj) as (_ & Hh).
  destruct (s_delete_fields (sm m) i j E) as (Dn & Db & Df).
  apply PInv_iff in P as (P1 & P2 & P3 & P4 & P5).
  assert (Hk : In (i, j) (map fst (ids m))) by (apply P2, entries_has; auto).
  destruct (id_of_some _ _ Hk) as (e & He). rewrite He.
  apply PInv_iff. cbn [sm ids pl]. split; [apply drop_key_NoDup, P1|]. split; [|split].
  - intros k. rewrite drop_key_keys, P2, !entries_has, Dn, Hh, andb_true_iff, negb_true_iff.
    change ((fst k =? i) && (snd k =? j)) with (key_eqb k (i, j)). rewrite <- not_true_iff_false, key_eqb_eq. tauto.
  - apply (PoolInv_perm (map snd (ids m)) (pl m)); [|reflexivity|reflexivity|exact P3].
    cbn [p_give pfree]. rewrite (drop_key_perm _ _ _ P1 He). apply Permutation_middle.
  - cbn [p_give pblocks pfree length]. split; congruence.
Qed.

Theorem i_clear_inv m : PInv (i_clear m).
Proof. apply (empty_inv (s_clear (sm m)) (pnext (pl m)) (entries_clear (sm m))); reflexivity. Qed.

Theorem i_insert_all_inv es : forall m, WF (sm m) -> PInv m -> WF (sm (i_insert_all m es)) /\ PInv (i_insert_all m es).
Proof.
  induction es as [|e es IH]; intros m W P; [split; assumption|].
  apply (IH (fst (i_insert m (fst e) (snd e)))); [apply i_insert_wf|apply i_insert_inv]; assumption.
Qed.

(* the copies: the source is only read (in fact nothing at all is needed of it: an out-of-range entry is refused) *)
Lemma i_refill_inv r es : WF (sm (i_insert_all (i_clear r) es)) /\ PInv (i_insert_all (i_clear r) es).
Proof. apply i_insert_all_inv; [apply clear_wf|apply i_clear_inv]. Qed.

Theorem i_copy_inv m r : WF (sm r) -> PInv r -> WF (sm (i_copy m r)) /\ PInv (i_copy m r).
Proof. intros W P. unfold i_copy. destruct (_ || _); [split; assumption|apply i_refill_inv]. Qed.

Theorem i_copyrows_inv m r rows : WF (sm r) -> PInv r -> WF (sm (i_copyrows m r rows)) /\ PInv (i_copyrows m r rows).
Proof. intros W P. unfold i_copyrows. destruct (_ <? _); [split; assumption|apply i_refill_inv]. Qed.

Theorem i_copycols_inv m r cols : WF (sm r) -> PInv r -> WF (sm (i_copycols m r cols)) /\ PInv (i_copycols m r cols).
Proof. intros W P. unfold i_copycols. destruct (_ <? _); [split; assumption|apply i_refill_inv]. Qed.

Theorem i_copy_filled_inv m r irows icols : WF (sm r) -> PInv r ->
  WF (sm (i_copy_filled m r irows icols)) /\ PInv (i_copy_filled m r irows icols).
Proof. intros W P. unfold i_copy_filled. apply i_insert_all_inv; assumption. Qed.

Theorem i_step_inv m o : WF (sm m) -> PInv m -> WF (sm (i_step m o)) /\ PInv (i_step m o).
Proof.
  intros W P.
  assert (J : forall r c junk, WF (sm (i_insert_all (i_allocate r c) junk)) /\ PInv (i_insert_all (i_allocate r c) junk)).
  { intros r c junk. apply i_insert_all_inv; [apply allocate_wf|apply i_allocate_inv]. }
  destruct o as [i j|i j| |dr dc junk|rows junk|cols junk|ir ic r2 c2| ]; cbn [i_step].
  - split; [apply i_insert_wf; exact W|apply i_insert_inv; assumption].
  - split; [rewrite i_delete_sm; apply s_delete_wf; exact W|apply i_delete_inv; assumption].
  - split; [apply clear_wf|apply i_clear_inv].
  - apply i_copy_inv; apply J.
  - apply i_copyrows_inv; apply J.
  - apply i_copycols_inv; apply J.
  - apply i_copy_filled_inv; [apply allocate_wf|apply i_allocate_inv].
  - split; assumption.
Qed.

Inductive reach : imat -> Prop :=
| reach_alloc r c : reach (i_allocate r c)
| reach_step m o : reach m -> reach (i_step m o).

Theorem reach_inv m : reach m -> WF (sm m) /\ PInv m.
Proof.
  induction 1 as [r c|m o _ IH].
  - split; [apply allocate_wf|apply i_allocate_inv].
  - apply i_step_inv; apply IH.
Qed.

Theorem free_list_in_live_blocks m : PInv m -> forall e, In e (pfree (pl m)) -> In (fst e) (pblocks (pl m)).
Proof. intros (_ & _ & _ & P4 & _) e He. apply P4. apply in_or_app. now right. Qed.

(* a clear that releases the blocks and keeps the free list *)
Definition p_clear_buggy (p : pool) : pool := {| pblocks := []; pnext := pnext p; pfree := pfree p |}.

Theorem buggy_clear_dangles m : pfree (pl m) <> [] ->
  ~ (forall e, In e (pfree (p_clear_buggy (pl m))) -> In (fst e) (pblocks (p_clear_buggy (pl m)))).
Proof.
  intros Hne H. cbn [p_clear_buggy pfree pblocks] in H. destruct (pfree (pl m)) as [|e t]; [now apply Hne|].
  exact (H e (or_introl eq_refl)).
Qed.

Corollary buggy_clear_breaks_PInv m s l : pfree (pl m) <> [] -> ~ PInv {| sm := s; ids := l; pl := p_clear_buggy (pl m) |}.
Proof.
  intros Hne P. apply (buggy_clear_dangles m Hne). intros e He.
  apply (free_list_in_live_blocks _ P). exact He.
Qed.

(* a reachable witness: allocate 1 x 1, insert (0, 0), delete it: the entry sits on the free list *)
Definition witness : imat := i_step (i_step (i_allocate 1 1) (IInsert 0 0)) (IDelete 0 0).

Lemma witness_reach : reach witness.
Proof. unfold witness. apply reach_step, reach_step, reach_alloc. Qed.

Lemma delete_pushes m i j : PInv m -> mem j (nth i (rws (sm m)) []) = true -> i < nr (sm m) -> pfree (pl (i_delete m i j)) <> [].
Proof.
  intros (P1 & P2 & _) E Hi. unfold i_delete. rewrite E.
  assert (Hk : In (i, j) (map fst (ids m))) by (apply P2, entries_spec; split; [exact Hi|apply mem_In; exact E]).
  destruct (id_of_some _ _ Hk) as (e & He). rewrite He. cbn [pl p_give pfree]. discriminate.
Qed.

Example buggy_clear_example :
  exists m, reach m /\ PInv m /\ pfree (pl m) <> [] /\
            ~ (forall e, In e (pfree (p_clear_buggy (pl m))) -> In (fst e) (pblocks (p_clear_buggy (pl m)))).
Proof.
  exists witness. pose proof (reach_inv _ witness_reach) as (W & P).
  assert (Hne : pfree (pl witness) <> []).
  { unfold witness. cbn [i_step]. apply delete_pushes.
    - apply i_insert_inv; [apply allocate_wf|apply i_allocate_inv].
    - rewrite i_insert_sm. reflexivity.
    - rewrite i_insert_sm. cbn. auto. }
  split; [exact witness_reach|]. split; [exact P|]. split; [exact Hne|]. apply buggy_clear_dangles. exact Hne.
Qed.

(* the literal scenario "insert; clear": after one insertion into a fresh matrix the rest of the new block (BLOCK - 1
   entries) is on the free list, and the buggy clear leaves all of them pointing into the released block *)
Lemma BLOCK_ge2 : 2 <= BLOCK.
Proof. apply Nat.leb_le. vm_compute. reflexivity. Qed.

Definition witness2 : imat := i_step (i_allocate 1 1) (IInsert 0 0).

Lemma witness2_free : length (pfree (pl witness2)) = BLOCK - 1.
Proof.
  unfold witness2. cbn [i_step]. unfold i_insert.
  change (s_insert (sm (i_allocate 1 1)) 0 0) with (s_insert (s_allocate 1 1) 0 0).
  cbn. rewrite map_length, rev_length, seq_length. reflexivity.
Qed.

Example buggy_clear_after_insert :
  reach witness2 /\ PInv witness2 /\ length (pfree (p_clear_buggy (pl witness2))) = BLOCK - 1 /\
  pblocks (p_clear_buggy (pl witness2)) = [] /\
  ~ (forall e, In e (pfree (p_clear_buggy (pl witness2))) -> In (fst e) (pblocks (p_clear_buggy (pl witness2)))).
Proof.
  assert (R : reach witness2) by (apply reach_step, reach_alloc).
  split; [exact R|]. split; [apply (reach_inv _ R)|]. split; [exact witness2_free|]. split; [reflexivity|].
  apply buggy_clear_dangles. intros E. pose proof witness2_free as H. rewrite E in H. pose proof BLOCK_ge2. simpl in H. lia.
Qed.

Print Assumptions i_allocate_inv.
Print Assumptions i_insert_inv.
Print Assumptions i_delete_inv.
Print Assumptions i_clear_inv.
Print Assumptions i_insert_all_inv.
Print Assumptions i_copy_inv.
Print Assumptions i_copyrows_inv.
Print Assumptions i_copycols_inv.
Print Assumptions i_copy_filled_inv.
Print Assumptions i_step_inv.
Print Assumptions reach_inv.
Print Assumptions i_copyrows_sm.
Print Assumptions i_copycols_sm.
Print Assumptions i_copy_sm.
Print Assumptions i_copy_filled_sm.
Print Assumptions free_list_in_live_blocks.
Print Assumptions buggy_clear_breaks_PInv.
Print Assumptions buggy_clear_example.
Print Assumptions buggy_clear_after_insert.
