(* ITModel.v defines its own `upd`; it is ListAux.upd (upd_same), and the lemmas of ListAux.v about it are
   stated here for the model's copy, so that the decoder proofs need not convert.  Also `known` read off the table. *)
From Coq Require Import List Arith Bool Lia. Import ListNotations.
From OFV Require ListAux.
From OFV Require Import ITModel.

Lemma upd_same {A} : @upd A = @ListAux.upd A.
Proof. reflexivity. Qed.

Lemma upd_length {A} (l:list A) i x : length (upd l i x) = length l.
Proof. rewrite upd_same. apply ListAux.upd_length. Qed.
Lemma nth_upd_eq {A} (l:list A) i x d : i < length l -> nth i (upd l i x) d = x.
Proof. rewrite upd_same. apply ListAux.nth_upd_eq. Qed.
Lemma nth_upd_neq {A} (l:list A) i j x d : i <> j -> nth j (upd l i x) d = nth j l d.
Proof. rewrite upd_same. apply ListAux.nth_upd_neq. Qed.

Lemma known_some {Sy} (s : st Sy) c v : nth c (tab s) None = Some v -> known s c = true.
Proof. unfold known. now intros ->. Qed.
Lemma known_none {Sy} (s : st Sy) c : nth c (tab s) None = None -> known s c = false.
Proof. unfold known. now intros ->. Qed.
Lemma known_inv {Sy} (s : st Sy) c : known s c = true -> exists v, nth c (tab s) None = Some v.
Proof. unfold known. destruct (nth c (tab s) None) as [v|]; [now exists v|discriminate]. Qed.
Lemma known_false_nth {Sy} (s : st Sy) c : known s c = false -> nth c (tab s) None = None.
Proof. unfold known. destruct (nth c (tab s) None); [discriminate|reflexivity]. Qed.

Lemma filter_length_split {A} (f:A->bool) l :
  length l = length (filter f l) + length (filter (fun x => negb (f x)) l).
Proof. apply ListAux.filter_length_split. Qed.

Lemma filter_filter {A} (f g:A->bool) l : filter f (filter g l) = filter (fun x => g x && f x) l.
Proof. apply ListAux.filter_filter. Qed.

Lemma filter_ext_in' {A} (f g:A->bool) l : (forall x, In x l -> f x = g x) -> filter f l = filter g l.
Proof. apply filter_ext_in. Qed.

Lemma filter_remove_nodup (l:list nat) c : NoDup l -> In c l ->
  length (filter (fun c' => negb (c' =? c)) l) = length l - 1.
Proof. apply ListAux.filter_neqb_length. Qed.

Lemma filter_single (f:nat->bool) l c : NoDup l -> In c l -> f c = true ->
  (forall x, In x l -> x <> c -> f x = false) -> filter f l = [c].
Proof.
  induction l as [|a l IH]; intros ND Hin Hc Hx; [inversion Hin|].
  inversion ND as [|? ? Ha ND']; subst. simpl. destruct (Nat.eq_dec a c) as [->|Hne].
  - rewrite Hc, ListAux.filter_none; [reflexivity|]. intros x Hi. apply Hx; [now right|intro; subst; tauto].
  - rewrite (Hx a) by (auto; now left). destruct Hin as [|Hin]; [tauto|].
    apply IH; auto. intros x Hi. apply Hx. now right.
Qed.
