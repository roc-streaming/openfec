(* C18 — dense GF(2) matrix and linear solver.
   (a) Dense.v mirrors the row-oriented build of of_matrix_dense.c (32-bit word packing, bit j of a row
       = bit j&31 of word j>>5): get after set / flip / clear / row XOR are exactly the bit-matrix
       operations, for all dimensions; weights and emptiness are counts over get.
   (b) DenseSolve.v mirrors of_ml_tool.c (pivot search, row swap, word-granular row XOR, NULL constant
       terms, backward substitution): whenever the solver returns, its result coincides with EVERY
       solution of the p x q system on all q unknowns, and is a solution as soon as one exists
       (universal in p, q, the matrix, the right-hand sides and the symbol group).
       The solver gives up if and only if the matrix has a non-trivial GF(2) kernel vector, i.e. lacks
       full column rank (DenseSolveComplete.v), and whether it gives up never depends on the
       right-hand sides.
   (c) DenseCopyProofs.v: copy / copy-rows / copy-columns are exactly the bit-matrix copies within the
       bounds of the matrices given (destination larger than the source included, early stop of
       copy-rows on a bad index included), under the invariants WFd, padzero (padding bits of the last
       word are zero) and words32 (words below 2^32), all three preserved by every operation; a row is
       reported empty iff it has no bit.
   (d) PopcountProofs.v, about gen/GenPopcount.v (regenerated from of_hamming_weight.c by the translator
       on every run): the SWAR popcounts of_hweight32 and of_popcount_3 return the number of set bits
       for EVERY 32-bit resp. 64-bit word, the byte table holds the popcount of every byte, and the
       table-based and naive variants (hand models of a pointer cast and a loop) agree.
   Further down, each under a note of its own: of_hweight_array and the row weight that skips leading words
   (HweightArrayProofs.v), the solver and the index translation of the ML finish with every access checked
   (SolveBounds.v), the bit macros of of_matrix_dense.h (BitsTie.v). *)
From Coq Require Import NArith Arith List Bool.
From Coq Require Import ZArith Lia.
From OFV Require Import CSem PopcountProofs.
From OFV.gen Require Import GenPopcount.
From OFV Require Import ListAux Dense DenseProofs DenseCopyProofs DenseSolve DenseSolveProofs DenseSolveComplete DenseSolveNZ.
Import ListNotations.

Theorem dense_get_after_set : forall m i j v i' j', WFd m -> i < dr m -> j < dc m ->
  d_get (d_set m i j v) i' j' = if (i' =? i) && (j' =? j) then v else d_get m i' j'.
Proof. exact get_set. Qed.

Theorem dense_get_after_flip : forall m i j i' j', WFd m -> i < dr m -> j < dc m ->
  d_get (fst (d_flip m i j)) i' j' = if (i' =? i) && (j' =? j) then negb (d_get m i j) else d_get m i' j'.
Proof. intros m i j i' j'. rewrite flip_fst. apply get_set. Qed.

Theorem dense_get_after_clear : forall m i j, d_get (d_clear m) i j = false.
Proof. exact get_clear. Qed.

Theorem dense_get_after_xor_rows : forall m from to i j, WFd m -> from < dr m -> to < dr m ->
  d_get (d_xor_rows m from to) i j = if i =? to then xorb (d_get m to j) (d_get m from j) else d_get m i j.
Proof. exact get_xor_rows. Qed.

Theorem dense_empty_row_has_no_bit : forall m i, d_row_is_empty m i = true -> forall j, d_get m i j = false.
Proof. exact row_is_empty_sound. Qed.

Theorem solver_returns_the_solution :
  forall (Sy : Type) (sxor : Sy -> Sy -> Sy) (s0 : Sy),
  (forall a b c, sxor a (sxor b c) = sxor (sxor a b) c) -> (forall a b, sxor a b = sxor b a) ->
  (forall a, sxor s0 a = a) -> (forall a, sxor a a = s0) ->
  forall (p q : nat) (y : sys Sy) (x : list Sy), WFs Sy p q y -> solve Sy sxor s0 p q y = Some x ->
  length x = q /\
  (forall x', sol Sy sxor s0 p q y x' -> forall j, j < q -> nth j x s0 = nth j x' s0) /\
  ((exists x', sol Sy sxor s0 p q y x') -> sol Sy sxor s0 p q y x).
Proof. exact solve_sound_proof. Qed.

Theorem solver_fails_iff_rank_deficient :
  forall (Sy : Type) (sxor : Sy -> Sy -> Sy) (s0 : Sy) (p q : nat) (y : sys Sy), WFs Sy p q y ->
  (solve Sy sxor s0 p q y = None <->
   exists z : nat -> bool, (exists c, c < q /\ z c = true) /\
     forall r, r < p -> fold_right xorb false (map (fun c => bit (getrow (sA y) r) c && z c) (seq 0 q)) = false).
Proof. exact solve_none_iff_kernel. Qed.

(* the two WFs hypotheses are not used: the outcome is a function of the matrix alone *)
Theorem solver_failure_independent_of_rhs :
  forall (Sy : Type) (sxor : Sy -> Sy -> Sy) (s0 : Sy) (p q : nat) (y1 y2 : sys Sy),
  WFs Sy p q y1 -> WFs Sy p q y2 -> sA y1 = sA y2 ->
  (solve Sy sxor s0 p q y1 = None <-> solve Sy sxor s0 p q y2 = None).
Proof. intros Sy sxor s0 p q y1 y2 _ _ E. apply solve_none_iff_gen. exact E. Qed.

Theorem dense_get_after_copy : forall m r i j, WFd m -> padzero m -> dr m <= dr r -> dc m <= dc r ->
  d_get (d_copy m r) i j = if (i <? dr m) && (j <? dc m) then d_get m i j else false.
Proof. exact get_copy_padzero. Qed.

Theorem dense_get_after_copyrows : forall m r rows t i j, WFd m -> padzero m -> dc m <= dc r -> stops_at m r rows t ->
  d_get (d_copyrows m r rows) i j = if (i <? t) && (j <? dc m) then d_get m (nth i rows 0) j else false.
Proof. exact get_copyrows_padzero. Qed.

Theorem dense_get_after_copycols : forall m r cols i j, WFd r -> dr m <= dr r ->
  d_get (d_copycols m r cols) i j = if (i <? dr m) && (j <? dc r) then d_get m i (nth j cols 0) else d_get r i j.
Proof. exact get_copycols_gen. Qed.

Theorem dense_row_is_empty_iff : forall m i, WFd m -> padzero m -> words32 m -> i < dr m ->
  (d_row_is_empty m i = true <-> forall j, j < dc m -> d_get m i j = false).
Proof. exact row_is_empty_iff. Qed.

Theorem popcount_swar32_correct : forall w, (0 <= w < 2 ^ 32)%Z -> of_hweight32 w = Some (popc 32 w).
Proof.
  intros w Hw. rewrite of_hweight32_eq, (wstages_bytes 32 4) by (reflexivity || lia).
  change 32%nat with (8 * 4)%nat. rewrite (popc_bytes 4 w Hw). f_equal.
  apply tail32_sum; apply (popc_nonneg 8).
Qed.

Theorem popcount_swar64_correct : forall x, (0 <= x < 2 ^ 64)%Z -> of_popcount_3 c_of_m1 c_of_m2 c_of_m4 c_of_h01 x = Some (popc 64 x).
Proof. exact popcount_3_correct. Qed.

Theorem popcount_byte_table_correct :
  length c_of_hw8table = 256 /\ forall b, (0 <= b < 256)%Z -> nth (Z.to_nat b) c_of_hw8table 0%Z = popc 8 b.
Proof. exact hw8table_correct. Qed.

Theorem popcount_table32_correct : forall w, (0 <= w < 2 ^ 32)%Z -> hweight32_table w = popc 32 w.
Proof. exact hweight32_table_correct. Qed.

Theorem popcount_naive32_correct : forall w, (0 <= w < 2 ^ 32)%Z -> naive 32 w 0%Z = popc 32 w.
Proof. intros w _. rewrite naive_popc. lia. Qed.

(* all-zero rows (whose right-hand side the ML path leaves unspecified) do not influence the result *)
Theorem solver_ignores_zero_rows :
  forall (Sy : Type) (sxor : Sy -> Sy -> Sy) (s0 : Sy),
  (forall a b c, sxor a (sxor b c) = sxor (sxor a b) c) -> (forall a b, sxor a b = sxor b a) ->
  (forall a, sxor s0 a = a) -> (forall a, sxor a a = s0) ->
  forall (p q : nat) (y : sys Sy) (x : list Sy), WFs Sy p q y -> solve Sy sxor s0 p q y = Some x ->
  length x = q /\ forall x', sol_nz Sy sxor s0 p q y x' -> forall j, j < q -> nth j x s0 = nth j x' s0.
Proof. exact solve_sound_nz. Qed.

(* of_hweight_array: the ones of the WHOLE 32-bit words that cover the first `size` bits (two words at a time through the 64-bit
   popcount, one table-driven popcount for an odd word out), reading exactly those words *)
From OFV Require Import HweightArray HweightArrayProofs.
Theorem popcount_array_correct : forall ws size, Forall (fun w => (0 <= w < 2 ^ 32)%Z) ws -> (0 <= size < 2 ^ 31)%Z ->
  (hw_words size <= Z.of_nat (length ws))%Z ->
  hweight_array ws size = Some (sum_popc (firstn (Z.to_nat (hw_words size)) ws)).
Proof. exact hweight_array_correct. Qed.

Theorem popcount_array_reads_only_its_words : forall ws ws' size, (0 <= size)%Z ->
  firstn (Z.to_nat (hw_words size)) ws = firstn (Z.to_nat (hw_words size)) ws' -> hweight_array ws size = hweight_array ws' size.
Proof. exact hweight_array_reads_only_its_words. Qed.

(* of_mod2dense_row_weight_ignore_first: the weight of the row from the word boundary at or below nb_ignore on - the bits
   nb_ignore mod 32 of the first counted word ARE counted (ignore_first_counts_ignored_bits in HweightArrayProofs.v is the witness);
   with nb_ignore = 0 it is the row weight of the bit-matrix model *)
Theorem dense_row_weight_ignore_first : forall m i nb, WFd m -> words32 m -> padzero m -> i < dr m -> 32 * (nb / 32) <= dc m ->
  (Z.of_nat (dc m) < 2 ^ 31)%Z ->
  d_row_weight_ignore_first m i nb = Some (Z.of_nat (length (filter (fun j => d_get m i j) (seq (32 * (nb / 32)) (dc m - 32 * (nb / 32)))))).
Proof. exact row_weight_ignore_first_correct. Qed.

Theorem dense_row_weight_ignore_nothing : forall m i, WFd m -> words32 m -> padzero m -> i < dr m -> (Z.of_nat (dc m) < 2 ^ 31)%Z ->
  d_row_weight_ignore_first m i 0 = Some (Z.of_nat (d_row_weight m i)).
Proof. exact row_weight_ignore_first_0. Qed.

(* "within the bounds of the matrices given": bounds-checked copy of the solver and of the index translation around it
   (SolveBounds.v).  DenseSolve.v reads with `nth i l default` and writes with `upd`, both total; solve_chk goes through
   accessors that FAIL out of range (and on two rows of different lengths in the word-granular row XOR).  It refines the
   plain model unconditionally, and on a well-shaped p x q system (p rows of q bits, p constant terms) it is never out of
   bounds: it returns exactly what the plain model returns.  The same for take_ct (the C's stale index_rows) and write_back
   (the positional copy-out) with the arguments ml_finish passes them.  The third theorem is stated from a state
   satisfying MLPre (rows untouched or empty), which is how the streaming decoder leaves a session that is not
   complete; after an early completion MLPre fails (MLSession.v goes through JF for that reason). *)
From OFV Require SolveBounds.
Theorem checked_solver_refines_the_model : forall (Sy : Type) (sxor : Sy -> Sy -> Sy) (s0 : Sy) p q (y : sys Sy),
  (forall x, SolveBounds.solve_chk Sy sxor s0 p q y = SolveBounds.Solved x -> solve Sy sxor s0 p q y = Some x) /\
  (SolveBounds.solve_chk Sy sxor s0 p q y = SolveBounds.NoSolution -> solve Sy sxor s0 p q y = None).
Proof. exact SolveBounds.solve_chk_refines. Qed.
Theorem solver_stays_within_the_matrix_given : forall (Sy : Type) (sxor : Sy -> Sy -> Sy) (s0 : Sy) p q (y : sys Sy),
  length (sA y) = p -> (forall row, In row (sA y) -> length row = q) -> length (sb y) = p ->
  SolveBounds.solve_chk Sy sxor s0 p q y <> SolveBounds.OutOfBounds.
Proof. exact SolveBounds.solve_chk_never_oob'. Qed.
Theorem ml_finish_index_translation_stays_in_range :
  forall (Sy : Type) (sxor : Sy -> Sy -> Sy) (s0 : Sy),
  (forall a b c, sxor a (sxor b c) = sxor (sxor a b) c) -> (forall a b, sxor a b = sxor b a) ->
  (forall a, sxor s0 a = a) -> (forall a, sxor a a = s0) ->
  forall (H0 : list (list nat)) (R0 N0 : nat), length H0 = R0 -> (forall i, i < R0 -> NoDup (nth i H0 [])) ->
  (forall i c, i < R0 -> In c (nth i H0 []) -> c < N0) -> (forall i, i < R0 -> 2 <= length (nth i H0 [])) -> R0 <= N0 ->
  forall cw : nat -> Sy, (forall i, i < R0 -> ITProofs.xs Sy sxor s0 cw (nth i H0 []) = s0) ->
  (forall c, c < N0 -> exists i, i < R0 /\ In c (nth i H0 [])) ->
  forall fuel perm (s : ITModel.st Sy), MLSimplify.MLPre Sy H0 R0 N0 cw s -> N0 < fuel ->
  (forall c, c < R0 -> In c perm) -> (forall c, In c perm -> c < R0) ->
  SolveBounds.ml_finish_chk Sy sxor s0 fuel perm s = MLModel.ml_finish sxor s0 fuel perm s /\
  (exists s1 o, MLFinish.red Sy sxor fuel perm s = Some s1 /\
                SolveBounds.ml_tail_chk Sy sxor s0 (ITModel.n s - ITModel.r s) s1 = Some o /\ MLModel.ml_finish sxor s0 fuel perm s = Some o).
Proof. exact SolveBounds.ml_finish_chk_safe. Qed.

(* the bit macros of of_matrix_dense.h, regenerated from the header on every run (gen/GenSymbol.v, BitsTie.v) *)
From OFV Require BitsTie.
From OFV.gen Require GenSymbol.
Theorem getbit_macro_is_testbit : forall w i, (0 <= w < 4294967296)%Z -> (0 <= i < 32)%Z ->
  GenSymbol.mod2_getbit w i = Some (if Z.testbit w i then 1%Z else 0%Z).
Proof. exact BitsTie.getbit_is_testbit. Qed.
Theorem setbit1_macro_sets_the_bit : forall w i, (0 <= w < 4294967296)%Z -> (0 <= i < 31)%Z ->
  GenSymbol.mod2_setbit1 w i = Some (Z.lor w (2 ^ i)).
Proof. exact BitsTie.setbit1_is_setbit_below_31. Qed.
(* bit 31: `1 << 31` overflows int; ISO C leaves it undefined, gcc/clang wrap, and Dense.v models the wrap: the one
   language-level assumption of the dense model, stated instead of hidden *)
Theorem setbit1_macro_at_bit_31_is_outside_iso_c : forall w, GenSymbol.mod2_setbit1 w 31 = None.
Proof. intros w. reflexivity. Qed.

Print Assumptions solver_stays_within_the_matrix_given.
Print Assumptions ml_finish_index_translation_stays_in_range.
Print Assumptions popcount_array_correct.
Print Assumptions dense_row_weight_ignore_first.
Print Assumptions dense_get_after_set.
Print Assumptions solver_ignores_zero_rows.
Print Assumptions dense_get_after_copy.
Print Assumptions dense_get_after_copyrows.
Print Assumptions dense_get_after_copycols.
Print Assumptions dense_row_is_empty_iff.
Print Assumptions popcount_swar32_correct.
Print Assumptions popcount_swar64_correct.
Print Assumptions popcount_byte_table_correct.
Print Assumptions solver_returns_the_solution.
Print Assumptions solver_fails_iff_rank_deficient.
Print Assumptions solver_failure_independent_of_rhs.
