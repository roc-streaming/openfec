(* C07 / C05 for the LDPC-Staircase parity-check matrix construction
   (of_create_pchck_matrix_rfc5170_compliant, model Pchk.pchk / PchkShape.gpchk): the construction never
   indexes its choice table u[] nor the matrix out of range, and never calls the PRNG with bound 0.

   Pchk.v reads u with [nth i u 0] and writes it with [upd], which are TOTAL (an out-of-range read returns
   0, an out-of-range write is dropped); of_mod2sparse_find out of range is read as "not found" ([found])
   and an insertion that s_insert refuses (OutOfRange) is silently ignored ([ins]).  A theorem about such
   a model could hide an index slip.  Here the construction is copied with accessors that FAIL:
        rd u i        = nth_chk of ITBounds       (read of u[i])
        wr u i x      = upd_chk of ITBounds       (u[i] = x)
        found_chk     fails when s_find answers None (row or column outside the matrix)
        ins_chk       fails when s_insert answers OutOfRange or Garbled
        row_chk       fails when the row header rows[i] is outside the matrix (of_mod2sparse_first_in_row)
        draw g maxv   fails when maxv = 0 (the C would evaluate of_rfc5170_rand(0))
   and the result type distinguishes
        Ok x | OutOfFuel | PrngUndefined | OutOfBounds | Rejected
   (OutOfFuel: a do-while retry loop used up its fuel; PrngUndefined: the PRNG step or the seeding
   returned None; Rejected: the "left_degree > nb_rows" test of the C, which returns NULL).

   Setting: the abstract-PRNG setting of PchkShape.v.  Section variables rndf, srandf (the two PRNG
   functions; gpchk rndf srandf is the plain model and Pchk.pchk = gpchk Pchk.rnd of_rfc5170_srand by
   pchk_is_gpchk) and, for the safety theorems only (Section SAFE), the hypotheses of PchkShape on the
   generator plus downward closure of okmax (PchkConcrete.prng_rnd_good / prng_rnd_range / prng_srand_good
   discharge the former for Pchk.rnd with okmax v := v <= 2^24, which is downward closed).

   *_refines: NO hypothesis.  Ok x -> the plain function returns x (Some x);
   OutOfFuel / PrngUndefined / Rejected -> the plain function returns None.
   The closed examples (a toy PRNG): a checked copy is OutOfBounds and the plain one returns a value.

   Not modelled as a failing access: the initialisation u[h] = h % nb_rows (h runs over the calloc'ed
   range by construction; the division is reached only when 1 <= left_degree <= nb_rows); the model's
   reading of a row that is still empty in the second half of the extra-entry pass (Pchk.v skips it; it
   cannot be empty once the checked insertion of the first half has succeeded on a well-formed matrix). *)
From Coq Require Import ZArith Arith List Bool Lia.
From OFV Require Import ListAux CSem Sparse SparseProofs Pchk PchkShape.
From OFV Require ITBounds.
Import ListNotations.

Inductive cres (A : Type) : Type :=
| Ok (a : A) | OutOfFuel | PrngUndefined | OutOfBounds | Rejected.
Arguments Ok {A} a.
Arguments OutOfFuel {A}.
Arguments PrngUndefined {A}.
Arguments OutOfBounds {A}.
Arguments Rejected {A}.

Definition bind {A B} (x : cres A) (f : A -> cres B) : cres B :=
  match x with
  | Ok a => f a
  | OutOfFuel => OutOfFuel
  | PrngUndefined => PrngUndefined
  | OutOfBounds => OutOfBounds
  | Rejected => Rejected
  end.

Notation "'do' x <- e ; k" := (bind e (fun x => k))
  (at level 200, x name, e at level 100, k at level 200, right associativity).

Definition rd (u : list nat) (i : nat) : cres nat :=
  match ITBounds.nth_chk u i with Some x => Ok x | None => OutOfBounds end.
Definition wr (u : list nat) (i x : nat) : cres (list nat) :=
  match ITBounds.upd_chk u i x with Some u' => Ok u' | None => OutOfBounds end.
Definition found_chk (m : smat) (i j : nat) : cres bool :=
  match s_find m i j with Some b => Ok b | None => OutOfBounds end.
Definition ins_chk (m : smat) (i j : nat) : cres smat :=
  let (m', st) := s_insert m i j in
  match st with Existed | Inserted => Ok m' | Garbled | OutOfRange => OutOfBounds end.
Definition row_chk (m : smat) (i : nat) : cres (list nat) :=
  match ITBounds.nth_chk (rws m) i with Some row => Ok row | None => OutOfBounds end.

Definition refines {A} (x : cres A) (o : option A) : Prop :=
  match x with
  | Ok a => o = Some a
  | OutOfBounds => True
  | OutOfFuel | PrngUndefined | Rejected => o = None
  end.

(* a checked step that answers v unless it is out of bounds, followed by the rest *)
Lemma refines_pure {A B} (x : cres A) v (f : A -> cres B) o :
  refines x (Some v) -> refines (f v) o -> refines (bind x f) o.
Proof. destruct x; cbn [refines bind]; intros E; try discriminate E; [injection E as <-|]; auto. Qed.

(* a checked step against a plain step that may fail, followed by the rest *)
Lemma refines_bind {A B} (x : cres A) o (f : A -> cres B) h :
  refines x o -> (forall a, refines (f a) (h a)) ->
  refines (bind x f) (match o with Some a => h a | None => None end).
Proof. destruct x; cbn [refines bind]; intros E H; subst; auto. Qed.

Definition post {A} (P : A -> Prop) (x : cres A) : Prop :=
  match x with Ok a => P a | OutOfBounds => False | OutOfFuel | PrngUndefined | Rejected => True end.

Lemma post_bind {A B} (P : A -> Prop) (Q : B -> Prop) (x : cres A) (f : A -> cres B) :
  post P x -> (forall a, P a -> post Q (f a)) -> post Q (bind x f).
Proof. destruct x; cbn [post bind]; auto. Qed.

Lemma post_mono {A} (P Q : A -> Prop) (x : cres A) : (forall a, P a -> Q a) -> post P x -> post Q x.
Proof. intros H. destruct x; cbn [post]; auto. Qed.

Lemma post_not_oob {A} (P : A -> Prop) (x : cres A) : post P x -> x <> OutOfBounds.
Proof. intros H E. rewrite E in H. exact H. Qed.

Lemma post_ok {A} (P : A -> Prop) (x : cres A) a : post P x -> x = Ok a -> P a.
Proof. intros H E. rewrite E in H. exact H. Qed.

(* an access: the accessor specs of ITBounds, read in this result type *)
Lemma refines_acc {A} (c : option A) v : ITBounds.chk False c v ->
  refines (match c with Some x => Ok x | None => OutOfBounds end) (Some v).
Proof. destruct c; cbn; [now intros <-|auto]. Qed.

Lemma rd_in u i : i < length u -> rd u i = Ok (nth i u 0).
Proof. intros H. unfold rd. rewrite (ITBounds.nth_chk_in u i 0 H). reflexivity. Qed.

Lemma rd_out u i : length u <= i -> rd u i = OutOfBounds.
Proof. intros H. unfold rd. apply ITBounds.nth_chk_none in H. rewrite H. reflexivity. Qed.

Lemma rd_cases u i : refines (rd u i) (Some (nth i u 0)).
Proof. apply refines_acc, ITBounds.chk_nth. intros []. Qed.

Lemma wr_in u i x : i < length u -> wr u i x = Ok (upd u i x).
Proof. intros H. unfold wr. rewrite (ITBounds.upd_chk_in u i x H). reflexivity. Qed.

Lemma wr_cases u i x : refines (wr u i x) (Some (upd u i x)).
Proof. apply refines_acc, ITBounds.chk_upd. intros []. Qed.

Lemma row_chk_in m i : i < length (rws m) -> row_chk m i = Ok (nth i (rws m) []).
Proof. intros H. unfold row_chk. rewrite (ITBounds.nth_chk_in (rws m) i [] H). reflexivity. Qed.

Lemma row_chk_cases m i : refines (row_chk m i) (Some (nth i (rws m) [])).
Proof. apply refines_acc, ITBounds.chk_nth. intros []. Qed.

Lemma found_chk_cases m i j : refines (found_chk m i j) (Some (found m i j)).
Proof. unfold found_chk, found. destruct (s_find m i j); reflexivity. Qed.

Lemma found_chk_in r n m i j : MInv r n m -> i < r -> j < n -> found_chk m i j = Ok (found m i j).
Proof. intros (W & <- & <-) Hi Hj. unfold found_chk, found. rewrite (find_spec m i j W Hi Hj). reflexivity. Qed.

Lemma found_chk_out m i j : ~ (i < nr m /\ j < nc m) -> found_chk m i j = OutOfBounds.
Proof.
  intros Hn. unfold found_chk, s_find.
  destruct (Nat.leb_spec (nr m) i); [reflexivity|]. destruct (Nat.leb_spec (nc m) j); [reflexivity|]. lia.
Qed.

Lemma ins_chk_cases m i j : refines (ins_chk m i j) (Some (ins m i j)).
Proof. unfold ins_chk, ins. destruct (s_insert m i j) as [m' []]; reflexivity. Qed.

Lemma ins_chk_in r n m i j : MInv r n m -> i < r -> j < n -> ins_chk m i j = Ok (ins m i j).
Proof.
  intros (W & <- & <-) Hi Hj. unfold ins_chk, ins. rewrite (s_insert_inrange m i j W Hi Hj).
  destruct (has m i j); reflexivity.
Qed.

Lemma ins_chk_out m i j : ~ (i < nr m /\ j < nc m) -> ins_chk m i j = OutOfBounds.
Proof. intros Hn. unfold ins_chk. rewrite s_insert_oor by lia. reflexivity. Qed.

(* for (i = t; i < len && find(u[i], j); i++) ;   -- no PRNG here *)
Fixpoint scan_chk (m : smat) (u : list nat) (j : nat) (i cnt : nat) : cres nat :=
  match cnt with
  | O => Ok i
  | S c => do x <- rd u i; do b <- found_chk m x j; if b then scan_chk m u j (S i) c else Ok i
  end.

Fixpoint foldC {A B} (f : A -> B -> cres A) (l : list B) (a : A) : cres A :=
  match l with [] => Ok a | x :: t => do a' <- f a x; foldC f t a' end.

(* insert (i, i) then (i, i - 1) *)
Definition stair_step_chk (acc : smat) (i : nat) : cres smat :=
  do m1 <- ins_chk acc i i; ins_chk m1 i (i - 1).

Definition staircase_chk (r : nat) (m : smat) : cres smat :=
  do m0 <- ins_chk m 0 0; foldC stair_step_chk (seq 1 (r - 1)) m0.

Section CHK.
Variable rndf : Z -> nat -> option (nat * Z).
Variable srandf : Z -> Z -> option Z.

(* of_rfc5170_rand (maxv): bound 0 is an error *)
Definition draw (g : Z) (maxv : nat) : cres (nat * Z) :=
  if maxv =? 0 then OutOfBounds else
  match rndf g maxv with Some p => Ok p | None => PrngUndefined end.

(* do { i = t + rand(len - t); } while (find(u[i], j)); *)
Fixpoint pick_u_chk (fuel : nat) (m : smat) (u : list nat) (j t len : nat) (g : Z) : cres (nat * Z) :=
  match fuel with
  | O => OutOfFuel
  | S f =>
      do p <- draw g (len - t);
      do x <- rd u (t + fst p);
      do b <- found_chk m x j;
      if b then pick_u_chk f m u j t len (snd p) else Ok (t + fst p, snd p)
  end.

(* do { i = rand(nb_rows); } while (find(i, j)); *)
Fixpoint pick_row_chk (fuel : nat) (m : smat) (j r : nat) (g : Z) : cres (nat * Z) :=
  match fuel with
  | O => OutOfFuel
  | S f =>
      do p <- draw g r;
      do b <- found_chk m (fst p) j;
      if b then pick_row_chk f m j r (snd p) else Ok p
  end.

(* the N1 insertions of one source column j:
     insert (u[i], j);  u[i] = u[t];  t++        or        insert (i, j) *)
Fixpoint fill_col_chk (fuel : nat) (cnt : nat) (j r len : nat) (s : lstate) : cres lstate :=
  match cnt with
  | O => Ok s
  | S c =>
      do i <- scan_chk (lm s) (lu s) j (lt s) (len - lt s);
      if i <? len then
        do p <- pick_u_chk fuel (lm s) (lu s) j (lt s) len (lg s);
        do row <- rd (lu s) (fst p);
        do m' <- ins_chk (lm s) row j;
        do ut <- rd (lu s) (lt s);
        do u' <- wr (lu s) (fst p) ut;
        fill_col_chk fuel c j r len {| lm := m'; lu := u'; lt := S (lt s); lg := snd p |}
      else
        do p <- pick_row_chk fuel (lm s) j r (lg s);
        do m' <- ins_chk (lm s) (fst p) j;
        fill_col_chk fuel c j r len {| lm := m'; lu := lu s; lt := lt s; lg := snd p |}
  end.

Fixpoint fill_cols_chk (fuel : nat) (cols : list nat) (n1 r len : nat) (s : lstate) : cres lstate :=
  match cols with
  | [] => Ok s
  | j :: rest => do s' <- fill_col_chk fuel n1 j r len s; fill_cols_chk fuel rest n1 r len s'
  end.

(* do { j = rand(k) + r; } while (j == col(e)); *)
Fixpoint pick_other_chk (fuel : nat) (k r avoid : nat) (g : Z) : cres (nat * Z) :=
  match fuel with
  | O => OutOfFuel
  | S f =>
      do p <- draw g k;
      if fst p + r =? avoid then pick_other_chk f k r avoid (snd p) else Ok (fst p + r, snd p)
  end.

(* the two halves of one round of the extra-entry pass (PchkShape.xstep1 / xstep2) *)
Definition xstep1_chk (i k r : nat) (m : smat) (g : Z) (added : nat) : cres (smat * Z * nat) :=
  do row <- row_chk m i;
  match row with
  | [] => do p <- draw g k; do m1 <- ins_chk m i (fst p + r); Ok (m1, snd p, S added)
  | _ => Ok (m, g, added)
  end.

Definition xstep2_chk (fuel i k r : nat) (m1 : smat) (g1 : Z) (a1 : nat) : cres (smat * Z * nat) :=
  do row <- row_chk m1 i;
  match row with
  | [e] => if 1 <? k then
             do p <- pick_other_chk fuel k r e g1; do m2 <- ins_chk m1 i (fst p); Ok (m2, snd p, S a1)
           else Ok (m1, g1, a1)
  | _ => Ok (m1, g1, a1)
  end.

Fixpoint extra_rows_chk (fuel : nat) (rows : list nat) (k r : nat) (m : smat) (g : Z) (added : nat)
  : cres (smat * Z * nat) :=
  match rows with
  | [] => Ok (m, g, added)
  | i :: rest =>
      do s1 <- xstep1_chk i k r m g added;
      do s2 <- xstep2_chk fuel i k r (fst (fst s1)) (snd (fst s1)) (snd s1);
      extra_rows_chk fuel rest k r (fst (fst s2)) (snd (fst s2)) (snd s2)
  end.

Definition pchk_chk (fuel : nat) (k r n1 : nat) (seed : Z) (g0 : Z) : cres (smat * bool * Z) :=
  if r <? n1 then Rejected else
  match srandf g0 seed with
  | None => PrngUndefined
  | Some g =>
      let n := k + r in let len := n1 * k in
      let u := map (fun h => h mod r) (seq 0 len) in
      do s <- fill_cols_chk fuel (seq r k) n1 r len {| lm := s_allocate r n; lu := u; lt := 0; lg := g |};
      do x <- extra_rows_chk fuel (seq 0 r) k r (lm s) (lg s) 0;
      do m' <- staircase_chk r (fst (fst x));
      Ok (m', 1 <=? snd x, snd (fst x))
  end.

End CHK.

Lemma scan_chk_cases m u j : forall cnt i, refines (scan_chk m u j i cnt) (Some (scan m u j i cnt)).
Proof.
  induction cnt as [|c IH]; intros i; cbn [scan_chk scan]; [reflexivity|].
  eapply refines_pure; [apply rd_cases|]. eapply refines_pure; [apply found_chk_cases|].
  destruct (found m (nth i u 0) j); [apply IH|reflexivity].
Qed.

Theorem scan_chk_refines m u j i cnt i' : scan_chk m u j i cnt = Ok i' -> scan m u j i cnt = i'.
Proof. intros H. pose proof (scan_chk_cases m u j cnt i) as R. rewrite H in R. injection R as R. exact R. Qed.

Lemma foldC_cases {A B} (f : A -> B -> cres A) (h : A -> B -> A) :
  (forall a x, refines (f a x) (Some (h a x))) -> forall l a, refines (foldC f l a) (Some (fold_left h l a)).
Proof.
  intros H. induction l as [|x l IH]; intros a; cbn [foldC fold_left]; [reflexivity|].
  eapply refines_pure; [apply H|apply IH].
Qed.

Lemma staircase_chk_cases r m : refines (staircase_chk r m) (Some (staircase r m)).
Proof.
  unfold staircase_chk, staircase. eapply refines_pure; [apply ins_chk_cases|].
  apply foldC_cases. intros a i. eapply refines_pure; apply ins_chk_cases.
Qed.

Theorem staircase_chk_refines r m m' : staircase_chk r m = Ok m' -> staircase r m = m'.
Proof. intros H. pose proof (staircase_chk_cases r m) as R. rewrite H in R. injection R as R. exact R. Qed.

Section REF.
Variable rndf : Z -> nat -> option (nat * Z).
Variable srandf : Z -> Z -> option Z.

Lemma draw_pos g maxv : 1 <= maxv ->
  draw rndf g maxv = match rndf g maxv with Some p => Ok p | None => PrngUndefined end.
Proof. intros H. unfold draw. destruct (Nat.eqb_spec maxv 0); [lia|reflexivity]. Qed.

Lemma draw_cases g maxv : refines (draw rndf g maxv) (rndf g maxv).
Proof. unfold draw. destruct (maxv =? 0); [exact I|]. destruct (rndf g maxv); reflexivity. Qed.

Lemma pick_u_chk_refines m u j t len : forall fuel g,
  refines (pick_u_chk rndf fuel m u j t len g) (gpick_u rndf fuel m u j t len g).
Proof.
  induction fuel as [|f IH]; intros g; cbn [pick_u_chk gpick_u]; [reflexivity|].
  apply refines_bind; [apply draw_cases|intros [x g']]. cbn [fst snd].
  eapply refines_pure; [apply rd_cases|]. eapply refines_pure; [apply found_chk_cases|].
  destruct (found m (nth (t + x) u 0) j); [apply IH|reflexivity].
Qed.

Lemma pick_row_chk_refines m j r : forall fuel g,
  refines (pick_row_chk rndf fuel m j r g) (gpick_row rndf fuel m j r g).
Proof.
  induction fuel as [|f IH]; intros g; cbn [pick_row_chk gpick_row]; [reflexivity|].
  apply refines_bind; [apply draw_cases|intros [x g']]. cbn [fst snd].
  eapply refines_pure; [apply found_chk_cases|].
  destruct (found m x j); [apply IH|reflexivity].
Qed.

Lemma pick_other_chk_refines k r avoid : forall fuel g,
  refines (pick_other_chk rndf fuel k r avoid g) (gpick_other rndf fuel k r avoid g).
Proof.
  induction fuel as [|f IH]; intros g; cbn [pick_other_chk gpick_other]; [reflexivity|].
  apply refines_bind; [apply draw_cases|intros [x g']]. cbn [fst snd].
  destruct (x + r =? avoid); [apply IH|reflexivity].
Qed.

Theorem fill_col_chk_refines fuel j r len : forall cnt s,
  refines (fill_col_chk rndf fuel cnt j r len s) (gfill_col rndf fuel cnt j r len s).
Proof.
  induction cnt as [|c IH]; intros s; cbn [fill_col_chk gfill_col]; [reflexivity|]. cbv zeta.
  eapply refines_pure; [apply scan_chk_cases|].
  destruct (scan (lm s) (lu s) j (lt s) (len - lt s) <? len).
  - apply refines_bind; [apply pick_u_chk_refines|intros [i' g']]. cbn [fst snd].
    eapply refines_pure; [apply rd_cases|]. eapply refines_pure; [apply ins_chk_cases|].
    eapply refines_pure; [apply rd_cases|]. eapply refines_pure; [apply wr_cases|]. apply IH.
  - apply refines_bind; [apply pick_row_chk_refines|intros [i' g']]. cbn [fst snd].
    eapply refines_pure; [apply ins_chk_cases|]. apply IH.
Qed.

Theorem fill_cols_chk_refines fuel n1 r len : forall cols s,
  refines (fill_cols_chk rndf fuel cols n1 r len s) (gfill_cols rndf fuel cols n1 r len s).
Proof.
  induction cols as [|j rest IH]; intros s; cbn [fill_cols_chk gfill_cols]; [reflexivity|].
  apply refines_bind; [apply fill_col_chk_refines|apply IH].
Qed.

Lemma xstep1_chk_refines i k r m g added :
  refines (xstep1_chk rndf i k r m g added) (xstep1 rndf i k r m g added).
Proof.
  unfold xstep1_chk, xstep1. eapply refines_pure; [apply row_chk_cases|].
  destruct (nth i (rws m) []) as [|e t]; [|reflexivity].
  apply refines_bind; [apply draw_cases|intros [x g']]. cbn [fst snd].
  eapply refines_pure; [apply ins_chk_cases|]. reflexivity.
Qed.

Lemma xstep2_chk_refines fuel i k r m1 g1 a1 :
  refines (xstep2_chk rndf fuel i k r m1 g1 a1) (xstep2 rndf fuel i k r m1 g1 a1).
Proof.
  unfold xstep2_chk, xstep2. eapply refines_pure; [apply row_chk_cases|].
  destruct (nth i (rws m1) []) as [|e [|e2 t]]; try reflexivity.
  destruct (1 <? k); [|reflexivity].
  apply refines_bind; [apply pick_other_chk_refines|intros [j g2]]. cbn [fst snd].
  eapply refines_pure; [apply ins_chk_cases|]. reflexivity.
Qed.

Theorem extra_rows_chk_refines fuel k r : forall rows m g added,
  refines (extra_rows_chk rndf fuel rows k r m g added) (gextra_rows rndf fuel rows k r m g added).
Proof.
  induction rows as [|i rest IH]; intros m g added; [reflexivity|].
  rewrite extra_rows_cons. cbn [extra_rows_chk].
  apply refines_bind; [apply xstep1_chk_refines|intros [[m1 g1] a1]]. cbn [fst snd].
  apply refines_bind; [apply xstep2_chk_refines|intros [[m2 g2] a2]]. cbn [fst snd]. apply IH.
Qed.

Theorem pchk_chk_refines fuel k r n1 seed g0 :
  refines (pchk_chk rndf srandf fuel k r n1 seed g0) (gpchk rndf srandf fuel k r n1 seed g0).
Proof.
  unfold pchk_chk, gpchk. destruct (r <? n1); [reflexivity|].
  destruct (srandf g0 seed) as [gs|]; [|reflexivity]. cbv zeta.
  apply refines_bind; [apply fill_cols_chk_refines|intros s].
  apply refines_bind; [apply extra_rows_chk_refines|intros [[m g'] added]]. cbn [fst snd].
  eapply refines_pure; [apply staircase_chk_cases|]. reflexivity.
Qed.

Corollary pchk_chk_ok fuel k r n1 seed g0 x :
  pchk_chk rndf srandf fuel k r n1 seed g0 = Ok x -> gpchk rndf srandf fuel k r n1 seed g0 = Some x.
Proof. intros H. pose proof (pchk_chk_refines fuel k r n1 seed g0) as R. rewrite H in R. exact R. Qed.

Corollary pchk_chk_none fuel k r n1 seed g0 :
  pchk_chk rndf srandf fuel k r n1 seed g0 = OutOfFuel \/
  pchk_chk rndf srandf fuel k r n1 seed g0 = PrngUndefined \/
  pchk_chk rndf srandf fuel k r n1 seed g0 = Rejected ->
  gpchk rndf srandf fuel k r n1 seed g0 = None.
Proof.
  intros H. pose proof (pchk_chk_refines fuel k r n1 seed g0) as R.
  destruct H as [H|[H|H]]; rewrite H in R; exact R.
Qed.

End REF.

(* the deterministic pieces, inside the tables: the checked copy succeeds with the plain value *)
Lemma scan_ge m u j : forall cnt i, i <= scan m u j i cnt.
Proof.
  induction cnt as [|c IH]; intros i; cbn [scan]; [apply Nat.le_refl|].
  destruct (found m (nth i u 0) j); [|apply Nat.le_refl]. specialize (IH (S i)). lia.
Qed.

Lemma scan_chk_in r n m u j : 1 <= r -> MInv r n m -> uok r u -> j < n -> forall cnt i,
  i + cnt <= length u -> scan_chk m u j i cnt = Ok (scan m u j i cnt).
Proof.
  intros Hr HM Hu Hj. induction cnt as [|c IH]; intros i Hi; cbn [scan_chk scan]; [reflexivity|].
  rewrite rd_in by lia. cbn [bind].
  rewrite (found_chk_in r n m _ j HM (uok_nth r u i Hr Hu) Hj). cbn [bind].
  destruct (found m (nth i u 0) j); [|reflexivity]. apply IH. lia.
Qed.

Lemma stair_fold_in r n : r <= n -> forall cnt a acc, a + cnt <= r -> MInv r n acc ->
  foldC stair_step_chk (seq a cnt) acc =
  Ok (fold_left (fun acc i => ins (ins acc i i) i (i - 1)) (seq a cnt) acc).
Proof.
  intros Hrn. induction cnt as [|cnt IH]; intros a acc Hac HM; cbn [seq foldC fold_left]; [reflexivity|].
  unfold stair_step_chk at 1. pose proof (ins_MInv r n acc a a HM) as HM1.
  rewrite (ins_chk_in r n acc a a HM) by lia. cbn [bind].
  rewrite (ins_chk_in r n _ a (a - 1) HM1) by lia. cbn [bind].
  apply IH; [lia|apply ins_MInv; exact HM1].
Qed.

Theorem staircase_chk_in r n m : 1 <= r -> r <= n -> MInv r n m -> staircase_chk r m = Ok (staircase r m).
Proof.
  intros Hr Hrn HM. unfold staircase_chk, staircase.
  rewrite (ins_chk_in r n m 0 0 HM) by lia. cbn [bind].
  apply (stair_fold_in r n Hrn (r - 1) 1 (ins m 0 0)); [lia|apply ins_MInv; exact HM].
Qed.

Section SAFE.
Variable rndf : Z -> nat -> option (nat * Z).
Variable srandf : Z -> Z -> option Z.

(* the hypotheses of PchkShape.v on the generator (good: invariant of its state; okmax: the bounds for
   which the range of a draw is known; pre: what the seeding needs), and okmax downward closed *)
Variable good : Z -> Prop.
Variable okmax : nat -> Prop.
Variable pre : Z -> Z -> Prop.
Hypothesis rnd_good : forall g maxv x g', good g -> rndf g maxv = Some (x, g') -> good g'.
Hypothesis rnd_range : forall g maxv x g', good g -> okmax maxv -> 1 <= maxv -> rndf g maxv = Some (x, g') -> x < maxv.
Hypothesis srand_good : forall g0 seed g, pre g0 seed -> srandf g0 seed = Some g -> good g.
Hypothesis okmax_le : forall a b, a <= b -> okmax b -> okmax a.

Lemma draw_post g maxv : good g -> okmax maxv -> 1 <= maxv ->
  post (fun p => fst p < maxv /\ good (snd p)) (draw rndf g maxv).
Proof.
  intros Hg Ho Hm. rewrite draw_pos by exact Hm.
  destruct (rndf g maxv) as [[x g']|] eqn:Er; cbn [post fst snd]; [|exact I].
  split; [exact (rnd_range _ _ _ _ Hg Ho Hm Er)|exact (rnd_good _ _ _ _ Hg Er)].
Qed.

(* i = t + rand(len - t) with t < len <= |u|: a draw is made with bound len - t >= 1, and t <= i < len *)
Lemma pick_u_chk_post r n m u j t len : 1 <= r -> MInv r n m -> uok r u -> j < n ->
  t < len -> len <= length u -> okmax (len - t) -> forall fuel g, good g ->
  post (fun p => t <= fst p < len /\ good (snd p)) (pick_u_chk rndf fuel m u j t len g).
Proof.
  intros Hr HM Hu Hj Ht Hlen Ho. induction fuel as [|f IH]; intros g Hg; cbn [pick_u_chk]; [exact I|].
  eapply post_bind; [exact (draw_post g (len - t) Hg Ho ltac:(lia))|].
  intros [x g'] (Hx & Hg'). cbn [fst snd] in *.
  rewrite rd_in by lia. cbn [bind].
  rewrite (found_chk_in r n m _ j HM (uok_nth r u _ Hr Hu) Hj). cbn [bind].
  destruct (found m (nth (t + x) u 0) j); [apply IH; exact Hg'|].
  cbn [post fst snd]. split; [lia|exact Hg'].
Qed.

Lemma pick_row_chk_post r n m j : 1 <= r -> okmax r -> MInv r n m -> j < n -> forall fuel g, good g ->
  post (fun p => fst p < r /\ good (snd p)) (pick_row_chk rndf fuel m j r g).
Proof.
  intros Hr Ho HM Hj. induction fuel as [|f IH]; intros g Hg; cbn [pick_row_chk]; [exact I|].
  eapply post_bind; [exact (draw_post g r Hg Ho Hr)|].
  intros [x g'] (Hx & Hg'). cbn [fst snd] in *.
  rewrite (found_chk_in r n m x j HM Hx Hj). cbn [bind].
  destruct (found m x j); [apply IH; exact Hg'|].
  cbn [post fst snd]. split; [exact Hx|exact Hg'].
Qed.

Lemma pick_other_chk_post k r avoid : 1 <= k -> okmax k -> forall fuel g, good g ->
  post (fun p => r <= fst p < k + r /\ good (snd p)) (pick_other_chk rndf fuel k r avoid g).
Proof.
  intros Hk Ho. induction fuel as [|f IH]; intros g Hg; cbn [pick_other_chk]; [exact I|].
  eapply post_bind; [exact (draw_post g k Hg Ho Hk)|].
  intros [x g'] (Hx & Hg'). cbn [fst snd] in *.
  destruct (x + r =? avoid); [apply IH; exact Hg'|].
  cbn [post fst snd]. split; [lia|exact Hg'].
Qed.

(* the states of the column-filling loops: the matrix is a well-formed r x n matrix, u holds row numbers,
   u has at least len cells, the left limit t is at most len, the generator state is good *)
Definition SInv (r n len : nat) (s : lstate) : Prop :=
  MInv r n (lm s) /\ uok r (lu s) /\ len <= length (lu s) /\ lt s <= len /\ good (lg s).

Theorem fill_col_chk_safe fuel j r n len : 1 <= r -> j < n -> okmax r -> okmax len ->
  forall cnt s, SInv r n len s -> post (SInv r n len) (fill_col_chk rndf fuel cnt j r len s).
Proof.
  intros Hr Hj Hor Hol. induction cnt as [|c IH]; intros s HS; cbn [fill_col_chk]; [exact HS|].
  destruct HS as (HM & Hu & Hlen & Ht & Hg).
  rewrite (scan_chk_in r n (lm s) (lu s) j Hr HM Hu Hj) by lia. cbn [bind].
  pose proof (scan_ge (lm s) (lu s) j (len - lt s) (lt s)) as Hge.
  destruct (Nat.ltb_spec (scan (lm s) (lu s) j (lt s) (len - lt s)) len) as [Hlt|Hnlt].
  - (* valid choices remain: lt s < len *)
    eapply post_bind; [exact (pick_u_chk_post r n (lm s) (lu s) j (lt s) len Hr HM Hu Hj ltac:(lia) Hlen (okmax_le (len - lt s) len ltac:(lia) Hol) fuel (lg s) Hg)|].
    intros [i' g'] (Hi & Hg'). cbn [fst snd] in *.
    rewrite rd_in by lia. cbn [bind].
    pose proof (uok_nth r (lu s) i' Hr Hu) as Hrow.
    rewrite (ins_chk_in r n _ _ j HM Hrow Hj). cbn [bind].
    rewrite rd_in by lia. cbn [bind]. rewrite wr_in by lia. cbn [bind].
    apply IH. unfold SInv. cbn [lm lu lt lg].
    split; [apply ins_MInv; exact HM|]. split; [apply uok_upd; [exact Hu|apply uok_nth; assumption]|].
    split; [rewrite upd_length; exact Hlen|]. split; [lia|exact Hg'].
  - (* no choice left *)
    eapply post_bind; [exact (pick_row_chk_post r n (lm s) j Hr Hor HM Hj fuel (lg s) Hg)|].
    intros [i' g'] (Hi & Hg'). cbn [fst snd] in *.
    rewrite (ins_chk_in r n _ i' j HM Hi Hj). cbn [bind].
    apply IH. unfold SInv. cbn [lm lu lt lg].
    split; [apply ins_MInv; exact HM|]. split; [exact Hu|]. split; [exact Hlen|]. split; [exact Ht|exact Hg'].
Qed.

Theorem fill_cols_chk_safe fuel r n n1 len : 1 <= r -> okmax r -> okmax len ->
  forall cols s, (forall c, In c cols -> c < n) -> SInv r n len s ->
  post (SInv r n len) (fill_cols_chk rndf fuel cols n1 r len s).
Proof.
  intros Hr Hor Hol. induction cols as [|j rest IH]; intros s Hc HS; cbn [fill_cols_chk]; [exact HS|].
  eapply post_bind; [exact (fill_col_chk_safe fuel j r n len Hr (Hc j (or_introl eq_refl)) Hor Hol n1 s HS)|].
  intros s' HS'. apply IH; [|exact HS']. intros c Hin. apply Hc. now right.
Qed.

Definition XInv (r n : nat) (x : smat * Z * nat) : Prop := MInv r n (fst (fst x)) /\ good (snd (fst x)).

Lemma xstep1_chk_post i k r n m g added : n = k + r -> 1 <= k -> okmax k -> i < r -> MInv r n m -> good g ->
  post (XInv r n) (xstep1_chk rndf i k r m g added).
Proof.
  intros En Hk Ho Hi HM Hg. unfold xstep1_chk.
  rewrite (row_chk_in m i) by (rewrite (MInv_rows r n m HM); exact Hi). cbn [bind].
  destruct (nth i (rws m) []) as [|e t]; [|split; [exact HM|exact Hg]].
  eapply post_bind; [exact (draw_post g k Hg Ho Hk)|].
  intros [x g'] (Hx & Hg'). cbn [fst snd] in *.
  rewrite (ins_chk_in r n m i (x + r) HM) by lia. cbn [bind].
  split; [apply ins_MInv; exact HM|exact Hg'].
Qed.

Lemma xstep2_chk_post fuel i k r n m1 g1 a1 : n = k + r -> 1 <= k -> okmax k -> i < r -> MInv r n m1 -> good g1 ->
  post (XInv r n) (xstep2_chk rndf fuel i k r m1 g1 a1).
Proof.
  intros En Hk Ho Hi HM Hg. unfold xstep2_chk.
  rewrite (row_chk_in m1 i) by (rewrite (MInv_rows r n m1 HM); exact Hi). cbn [bind].
  destruct (nth i (rws m1) []) as [|e [|e2 t]]; try (split; [exact HM|exact Hg]).
  destruct (1 <? k); [|split; [exact HM|exact Hg]].
  eapply post_bind; [exact (pick_other_chk_post k r e Hk Ho fuel g1 Hg)|].
  intros [j g2] (Hj & Hg2). cbn [fst snd] in *.
  rewrite (ins_chk_in r n m1 i j HM) by lia. cbn [bind].
  split; [apply ins_MInv; exact HM|exact Hg2].
Qed.

Theorem extra_rows_chk_safe fuel k r n : n = k + r -> 1 <= k -> okmax k ->
  forall rows m g added, (forall i, In i rows -> i < r) -> MInv r n m -> good g ->
  post (XInv r n) (extra_rows_chk rndf fuel rows k r m g added).
Proof.
  intros En Hk Ho. induction rows as [|i rest IH]; intros m g added Hrows HM Hg; cbn [extra_rows_chk].
  { split; [exact HM|exact Hg]. }
  assert (Hi : i < r) by (apply Hrows; now left).
  eapply post_bind; [exact (xstep1_chk_post i k r n m g added En Hk Ho Hi HM Hg)|].
  intros [[m1 g1] a1] (HM1 & Hg1). cbn [fst snd] in *.
  eapply post_bind; [exact (xstep2_chk_post fuel i k r n m1 g1 a1 En Hk Ho Hi HM1 Hg1)|].
  intros [[m2 g2] a2] (HM2 & Hg2). cbn [fst snd] in *.
  apply IH; [|exact HM2|exact Hg2]. intros i0 Hi0. apply Hrows. now right.
Qed.

(* the whole construction: for every fuel, never OutOfBounds, and an Ok result is a well-formed
   r x (k + r) matrix *)
Theorem pchk_chk_safe fuel k r n1 seed g0 : 1 <= k -> 1 <= r ->
  pre g0 seed -> okmax k -> okmax r -> okmax (n1 * k) ->
  post (fun x => MInv r (k + r) (fst (fst x))) (pchk_chk rndf srandf fuel k r n1 seed g0).
Proof.
  intros Hk Hr Hpre Hok Hor Hol. unfold pchk_chk. destruct (r <? n1); [exact I|].
  destruct (srandf g0 seed) as [gs|] eqn:Es; [|exact I]. cbv zeta.
  set (s0 := {| lm := s_allocate r (k + r); lu := map (fun h => h mod r) (seq 0 (n1 * k)); lt := 0; lg := gs |}).
  assert (HS0 : SInv r (k + r) (n1 * k) s0).
  { unfold SInv, s0. cbn [lm lu lt lg]. destruct (allocate_wf r (k + r)) as (W0 & _).
    split; [split; [exact W0|split; reflexivity]|]. split; [apply uok_init; exact Hr|].
    split; [rewrite map_length, seq_length; apply Nat.le_refl|]. split; [lia|exact (srand_good _ _ _ Hpre Es)]. }
  eapply post_bind; [exact (fill_cols_chk_safe fuel r (k + r) n1 (n1 * k) Hr Hor Hol (seq r k) s0 ltac:(intros c Hc; apply in_seq in Hc; lia) HS0)|].
  intros s (HM & _ & _ & _ & Hg).
  eapply post_bind; [exact (extra_rows_chk_safe fuel k r (k + r) eq_refl Hk Hok (seq 0 r) (lm s) (lg s) 0 ltac:(intros i Hi; apply in_seq in Hi; lia) HM Hg)|].
  intros [[m g'] added] (HM2 & _). cbn [fst snd] in *.
  rewrite (staircase_chk_in r (k + r) m Hr ltac:(lia) HM2). cbn [bind post fst].
  apply (staircase_spec r (k + r) m Hr ltac:(lia) HM2).
Qed.

Corollary pchk_chk_never_oob fuel k r n1 seed g0 : 1 <= k -> 1 <= r ->
  pre g0 seed -> okmax k -> okmax r -> okmax (n1 * k) ->
  pchk_chk rndf srandf fuel k r n1 seed g0 <> OutOfBounds.
Proof. intros Hk Hr Hpre Hok Hor Hol. exact (post_not_oob _ _ (pchk_chk_safe fuel k r n1 seed g0 Hk Hr Hpre Hok Hor Hol)). Qed.

(* hence the plain model and the checked copy agree whenever the plain model returns a matrix *)
Corollary pchk_chk_complete fuel k r n1 seed g0 x : 1 <= k -> 1 <= r ->
  pre g0 seed -> okmax k -> okmax r -> okmax (n1 * k) ->
  gpchk rndf srandf fuel k r n1 seed g0 = Some x -> pchk_chk rndf srandf fuel k r n1 seed g0 = Ok x.
Proof.
  intros Hk Hr Hpre Hok Hor Hol Hp.
  pose proof (pchk_chk_never_oob fuel k r n1 seed g0 Hk Hr Hpre Hok Hor Hol) as Hn.
  pose proof (pchk_chk_refines rndf srandf fuel k r n1 seed g0) as R.
  destruct (pchk_chk rndf srandf fuel k r n1 seed g0) as [y| | | |]; cbn [refines] in R;
    try congruence.
Qed.

End SAFE.

(* under the bare range hypothesis (instance good := True, okmax := True) *)
Section RANGE.
Variable rndf : Z -> nat -> option (nat * Z).
Variable srandf : Z -> Z -> option Z.
Hypothesis rnd_range : forall g maxv x g', 1 <= maxv -> rndf g maxv = Some (x, g') -> x < maxv.

Let goodT : Z -> Prop := fun _ => True.
Let okT : nat -> Prop := fun _ => True.
Let preT : Z -> Z -> Prop := fun _ _ => True.
Let hT1 : forall g maxv x g', goodT g -> rndf g maxv = Some (x, g') -> goodT g'.
Proof. intros; exact I. Qed.
Let hT2 : forall g maxv x g', goodT g -> okT maxv -> 1 <= maxv -> rndf g maxv = Some (x, g') -> x < maxv.
Proof. intros g1 maxv x g' _ _ Hm E. exact (rnd_range g1 maxv x g' Hm E). Qed.
Let hT3 : forall g0 seed g, preT g0 seed -> srandf g0 seed = Some g -> goodT g.
Proof. intros; exact I. Qed.
Let hT4 : forall a b, a <= b -> okT b -> okT a.
Proof. intros; exact I. Qed.

(* the u-table part on its own: from a state with a well-formed r x n matrix, row numbers in u,
   len <= |u| and t <= len, the N1 insertions of column j < n never leave u or the matrix *)
Theorem fill_col_chk_never_oob_range fuel cnt j r n len s : 1 <= r -> j < n ->
  MInv r n (lm s) -> uok r (lu s) -> len <= length (lu s) -> lt s <= len ->
  fill_col_chk rndf fuel cnt j r len s <> OutOfBounds.
Proof.
  intros Hr Hj HM Hu Hl Ht.
  apply (post_not_oob (SInv goodT r n len)).
  apply (fill_col_chk_safe rndf goodT okT hT1 hT2 hT4 fuel j r n len Hr Hj I I cnt s).
  exact (conj HM (conj Hu (conj Hl (conj Ht I)))).
Qed.

Theorem fill_cols_chk_never_oob_range fuel cols n1 r n len s : 1 <= r -> (forall c, In c cols -> c < n) ->
  MInv r n (lm s) -> uok r (lu s) -> len <= length (lu s) -> lt s <= len ->
  fill_cols_chk rndf fuel cols n1 r len s <> OutOfBounds.
Proof.
  intros Hr Hc HM Hu Hl Ht.
  apply (post_not_oob (SInv goodT r n len)).
  apply (fill_cols_chk_safe rndf goodT okT hT1 hT2 hT4 fuel r n n1 len Hr I I cols s Hc).
  exact (conj HM (conj Hu (conj Hl (conj Ht I)))).
Qed.

Theorem pchk_chk_never_oob_range fuel k r n1 seed g0 : 1 <= k -> 1 <= r ->
  pchk_chk rndf srandf fuel k r n1 seed g0 <> OutOfBounds.
Proof.
  intros Hk Hr.
  exact (pchk_chk_never_oob rndf srandf goodT okT preT hT1 hT2 hT3 hT4 fuel k r n1 seed g0 Hk Hr I I I I).
Qed.

Theorem pchk_chk_complete_range fuel k r n1 seed g0 x : 1 <= k -> 1 <= r ->
  gpchk rndf srandf fuel k r n1 seed g0 = Some x -> pchk_chk rndf srandf fuel k r n1 seed g0 = Ok x.
Proof.
  intros Hk Hr.
  exact (pchk_chk_complete rndf srandf goodT okT preT hT1 hT2 hT3 hT4 fuel k r n1 seed g0 x Hk Hr I I I I).
Qed.

End RANGE.

(* a toy generator (NOT the RFC 5170 one): it satisfies the range hypothesis, so the hypotheses of
   Section RANGE are satisfiable; with maxv = 0 it returns its state, as any value would do *)
Definition toy (g : Z) (maxv : nat) : option (nat * Z) := Some (Z.to_nat (g mod Z.of_nat maxv), (g + 1)%Z).
Definition toy_srand (g0 seed : Z) : option Z := Some seed.

Lemma toy_range : forall g maxv x g', 1 <= maxv -> toy g maxv = Some (x, g') -> x < maxv.
Proof.
  intros g maxv x g' Hm E. unfold toy in E. inversion E; subst.
  pose proof (Z.mod_pos_bound g (Z.of_nat maxv) ltac:(lia)) as Hb. lia.
Qed.

Theorem toy_pchk_never_oob fuel k r n1 seed g0 : 1 <= k -> 1 <= r ->
  pchk_chk toy toy_srand fuel k r n1 seed g0 <> OutOfBounds.
Proof. exact (pchk_chk_never_oob_range toy toy_srand toy_range fuel k r n1 seed g0). Qed.

(* a run inside the hypotheses: k = 4, r = 3, N1 = 3; the checked copy and the plain model agree *)
Example ex_ok : exists x, pchk_chk toy toy_srand 20 4 3 3 5 1 = Ok x /\ gpchk toy toy_srand 20 4 3 3 5 1 = Some x.
Proof. eexists. split; vm_compute; reflexivity. Qed.
Example ex_rejected : pchk_chk toy toy_srand 20 4 3 4 5 1 = Rejected.
Proof. vm_compute. reflexivity. Qed.
Example ex_fuel : pchk_chk toy toy_srand 1 4 3 3 5 1 = OutOfFuel.
Proof. vm_compute. reflexivity. Qed.

(* the scan loop on a table shorter than its bound: u[1] does not exist; the plain model reads 0 *)
Example ex_scan_short_table :
  scan_chk (ins (s_allocate 2 3) 0 2) [0] 2 0 2 = OutOfBounds /\ scan (ins (s_allocate 2 3) 0 2) [0] 2 0 2 = 2.
Proof. split; vm_compute; reflexivity. Qed.

Definition ex_state (u : list nat) (t : nat) (g : Z) : lstate := {| lm := s_allocate 2 4; lu := u; lt := t; lg := g |}.

(* len = 4 but u has 2 cells: i = t + rand(4) = 3 is outside u; the plain model goes on and returns a state *)
Example ex_fill_col_short_table :
  fill_col_chk toy 10 2 2 2 4 (ex_state [0; 1] 0 3) = OutOfBounds /\
  exists s', gfill_col toy 10 2 2 2 4 (ex_state [0; 1] 0 3) = Some s'.
Proof. split; [vm_compute; reflexivity|eexists; vm_compute; reflexivity]. Qed.

(* the same call with the 4 cells: fine *)
Example ex_fill_col_full_table : exists s',
  fill_col_chk toy 10 2 2 2 4 (ex_state [0; 1; 0; 1] 0 3) = Ok s' /\
  gfill_col toy 10 2 2 2 4 (ex_state [0; 1; 0; 1] 0 3) = Some s'.
Proof. eexists. split; vm_compute; reflexivity. Qed.

(* an entry of u that is not a row number: of_mod2sparse_find / insert are called with row 7 of a
   2-row matrix; the plain model reads "not found", drops the insertion and still advances t *)
Example ex_fill_col_bad_entry :
  fill_col_chk toy 10 1 2 2 4 (ex_state [0; 7; 0; 1] 0 1) = OutOfBounds /\
  exists s', gfill_col toy 10 1 2 2 4 (ex_state [0; 7; 0; 1] 0 1) = Some s' /\ lt s' = 1 /\ rws (lm s') = [[]; []].
Proof. split; [vm_compute; reflexivity|eexists; vm_compute; repeat split; reflexivity]. Qed.

(* the left limit t at len (resp. beyond): the draw would be rand(0) *)
Example ex_pick_u_t_eq_len :
  pick_u_chk toy 5 (s_allocate 2 4) [0; 1; 0; 1] 2 4 4 7 = OutOfBounds /\
  gpick_u toy 5 (s_allocate 2 4) [0; 1; 0; 1] 2 4 4 7 = Some (11, 8%Z).
Proof. split; vm_compute; reflexivity. Qed.
Example ex_pick_u_t_beyond_len :
  pick_u_chk toy 5 (s_allocate 2 4) [0; 1; 0; 1] 2 5 4 7 = OutOfBounds /\
  gpick_u toy 5 (s_allocate 2 4) [0; 1; 0; 1] 2 5 4 7 = Some (12, 8%Z).
Proof. split; vm_compute; reflexivity. Qed.

(* a staircase of 3 rows on a 2-row matrix; a row list that runs past the matrix *)
Example ex_staircase_short_matrix :
  staircase_chk 3 (s_allocate 2 5) = OutOfBounds /\ rws (staircase 3 (s_allocate 2 5)) = [[0]; [0; 1]].
Proof. split; vm_compute; reflexivity. Qed.
Example ex_extra_rows_past_matrix :
  extra_rows_chk toy 5 [0; 1; 2] 2 2 (s_allocate 2 4) 1 0 = OutOfBounds /\
  exists x, gextra_rows toy 5 [0; 1; 2] 2 2 (s_allocate 2 4) 1 0 = Some x.
Proof. split; [vm_compute; reflexivity|eexists; vm_compute; reflexivity]. Qed.

(* k = 0 (outside 1 <= k): the extra-entry pass calls rand(0); the plain model returns a matrix *)
Example ex_pchk_k0 :
  pchk_chk toy toy_srand 20 0 2 1 5 1 = OutOfBounds /\ exists x, gpchk toy toy_srand 20 0 2 1 5 1 = Some x.
Proof. split; [vm_compute; reflexivity|eexists; vm_compute; reflexivity]. Qed.

Print Assumptions pchk_chk_refines.
Print Assumptions fill_col_chk_refines.
Print Assumptions fill_col_chk_safe.
Print Assumptions fill_cols_chk_safe.
Print Assumptions extra_rows_chk_safe.
Print Assumptions staircase_chk_in.
Print Assumptions pchk_chk_safe.
Print Assumptions pchk_chk_never_oob.
Print Assumptions pchk_chk_complete.
Print Assumptions pchk_chk_never_oob_range.
Print Assumptions pchk_chk_complete_range.
Print Assumptions toy_pchk_never_oob.
Print Assumptions ex_fill_col_short_table.
Print Assumptions ex_pchk_k0.
