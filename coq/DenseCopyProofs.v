(* Copy operations of the dense GF(2) matrix model (Dense.v): d_copy, d_copyrows, d_copycols;
   the invariants padzero (clean padding bits) and words32 (32-bit words); completeness of d_row_is_empty.
   On the hypotheses:
   - row_is_empty_complete needs words32 (counter-example row_is_empty_complete_needs_words32);
   - padzero (d_copy m r) / (d_copyrows m r rows) need  padzero m \/ dw m < dw r
     (counter-example padzero_copy_needs_condition);
   - get_copyrows needs no hypothesis on length rows (nth defaults to index 0, which the validity hypothesis covers). *)
From Coq Require Import NArith Arith List Bool Lia ZifyNat.
From OFV Require Import ListAux Dense DenseProofs.
Import ListNotations.

(* padding bits (columns dc m .. 32*dw m - 1 of the last word) are zero *)
Definition padzero (m : dmat) : Prop :=
  forall i j, i < dr m -> dc m <= j -> j < 32 * dw m -> d_get m i j = false.

Definition words32 (m : dmat) : Prop := forall i k, (word m i k < 2 ^ 32)%N.

Lemma wfd_cols m : WFd m -> dc m <= 32 * dw m < dc m + 32.
Proof. intros W. rewrite (wd_words m W). unfold nwords. lia. Qed.

Lemma wfd_dw_le m r : WFd m -> WFd r -> dc m <= dc r -> dw m <= dw r.
Proof. intros Wm Wr H. pose proof (wfd_cols m Wm). pose proof (wfd_cols r Wr). lia. Qed.

Lemma div32_ltb j n : (j / 32 <? n) = (j <? 32 * n).
Proof. destruct (Nat.ltb_spec (j / 32) n), (Nat.ltb_spec j (32 * n)); try reflexivity; lia. Qed.

Lemma copy_words_length src n len : length src = n -> n <= len -> length (copy_words src n len) = len.
Proof.
  intros Hs Hl. unfold copy_words. rewrite app_length, firstn_length, repeat_length. lia.
Qed.

Lemma nth_copy_words src n len k : length src = n ->
  nth k (copy_words src n len) 0%N = if k <? n then nth k src 0%N else 0%N.
Proof.
  intros Hs. unfold copy_words. rewrite firstn_all2 by lia.
  destruct (Nat.ltb_spec k n) as [Hk|Hk].
  - apply app_nth1. lia.
  - rewrite app_nth2 by lia. apply nth_repeat.
Qed.

Lemma word_zero_get w n : w = 0%N -> N.testbit w n = false.
Proof. intros ->. apply N.bits_0. Qed.

Lemma lt32_bits w : (w < 2 ^ 32)%N <-> forall n, (32 <= n)%N -> N.testbit w n = false.
Proof.
  split.
  - intros H n Hn. rewrite <- (N.mod_small w (2 ^ 32)) by exact H. apply N.mod_pow2_bits_high. exact Hn.
  - intros H. assert (E : w = (w mod 2 ^ 32)%N).
    { apply N.bits_inj. intros n. destruct (N.lt_ge_cases n 32) as [Hn|Hn].
      - rewrite N.mod_pow2_bits_low by exact Hn. reflexivity.
      - rewrite N.mod_pow2_bits_high by exact Hn. apply H. exact Hn. }
    rewrite E. apply N.mod_lt. apply N.pow_nonzero. discriminate.
Qed.

Lemma zero_lt32 : (0 < 2 ^ 32)%N.
Proof. reflexivity. Qed.

Section WordCopy.
  (* rows 0 .. t-1 of res hold the words of the rows src i of m, every other word of res is zero *)
  Variables (m res : dmat) (src : nat -> nat) (t : nat).
  Hypothesis Hword : forall i k, word res i k = if (i <? t) && (k <? dw m) then word m (src i) k else 0%N.

  Lemma wc_get i j : d_get res i j = if (i <? t) && (j <? 32 * dw m) then d_get m (src i) j else false.
  Proof.
    unfold d_get at 1. rewrite Hword, div32_ltb.
    destruct ((i <? t) && (j <? 32 * dw m)); [reflexivity|apply N.bits_0].
  Qed.

  Lemma wc_words32 : words32 m -> words32 res.
  Proof. intros B i k. rewrite Hword. destruct ((i <? t) && (k <? dw m)); [apply B|apply zero_lt32]. Qed.

  Hypothesis Wm : WFd m.
  Hypothesis Hsrc : forall i, i < t -> src i < dr m.

  Lemma wc_get_padzero i j : padzero m ->
    d_get res i j = if (i <? t) && (j <? dc m) then d_get m (src i) j else false.
  Proof.
    intros P. rewrite wc_get. destruct (Nat.ltb_spec i t) as [Hi|Hi]; cbn [andb]; [|reflexivity].
    pose proof (wfd_cols m Wm).
    destruct (Nat.ltb_spec j (32 * dw m)), (Nat.ltb_spec j (dc m)); try reflexivity; try lia.
    apply P; auto.
  Qed.

  (* either m's padding is clean, or m is strictly narrower in words: then m's padding bits
     fall inside r's column range, and r's padding gets zero words *)
  Lemma wc_padzero r : WFd r -> dc res = dc r -> dw res = dw r -> dc m <= dc r ->
    padzero m \/ dw m < dw r -> padzero res.
  Proof.
    intros Wr D2 D3 H2 Hc i j. rewrite D2, D3. intros _ B C. rewrite wc_get.
    destruct (Nat.ltb_spec i t) as [Hi|Hi]; cbn [andb]; [|reflexivity].
    destruct (Nat.ltb_spec j (32 * dw m)) as [Hj|Hj]; [|reflexivity].
    destruct Hc as [P|Hn]; [apply P; auto; lia|]. pose proof (wfd_cols r Wr). lia.
  Qed.
End WordCopy.

Lemma copy_rejected m r : dr r < dr m \/ dc r < dc m -> d_copy m r = r.
Proof.
  intros H. unfold d_copy.
  destruct (Nat.ltb_spec (dr r) (dr m)); [reflexivity|].
  destruct (Nat.ltb_spec (dc r) (dc m)); [reflexivity|]. lia.
Qed.

Lemma copy_accepted m r : dr m <= dr r -> dc m <= dc r ->
  d_copy m r = {| dr := dr r; dc := dc r; dw := dw r;
     drows := map (fun i => if i <? dr m then copy_words (nth i (drows m) []) (dw m) (dw r) else repeat 0%N (dw r)) (seq 0 (dr r)) |}.
Proof.
  intros H1 H2. unfold d_copy.
  destruct (Nat.ltb_spec (dr r) (dr m)); [lia|].
  destruct (Nat.ltb_spec (dc r) (dc m)); [lia|]. reflexivity.
Qed.

Lemma copy_cases m r : d_copy m r = r \/ dr m <= dr r /\ dc m <= dc r.
Proof.
  destruct (le_lt_dec (dr m) (dr r)), (le_lt_dec (dc m) (dc r)); auto using copy_rejected.
Qed.

Lemma copy_dims m r : dr (d_copy m r) = dr r /\ dc (d_copy m r) = dc r /\ dw (d_copy m r) = dw r.
Proof. unfold d_copy. destruct ((dr r <? dr m) || (dc r <? dc m)); cbn; auto. Qed.

Theorem copy_wfd m r : WFd m -> WFd r -> dr m <= dr r -> dc m <= dc r -> WFd (d_copy m r).
Proof.
  intros Wm Wr H1 H2. rewrite copy_accepted by assumption. constructor; cbn [dr dc dw drows].
  - rewrite map_length, seq_length. reflexivity.
  - intros i Hi. rewrite nth_map_seq by exact Hi. cbn [Nat.add].
    destruct (Nat.ltb_spec i (dr m)) as [Him|Him].
    + apply copy_words_length; [apply (wd_len m Wm i Him)|apply wfd_dw_le; assumption].
    + apply repeat_length.
  - apply (wd_words r Wr).
Qed.

Lemma word_copy m r i k : WFd m -> dr m <= dr r -> dc m <= dc r ->
  word (d_copy m r) i k = if (i <? dr m) && (k <? dw m) then word m i k else 0%N.
Proof.
  intros Wm H1 H2. rewrite copy_accepted by assumption. unfold word. cbn [drows].
  destruct (Nat.lt_ge_cases i (dr r)) as [Hi|Hi].
  - rewrite nth_map_seq by exact Hi. cbn [Nat.add].
    destruct (Nat.ltb_spec i (dr m)) as [Him|Him]; cbn [andb].
    + apply nth_copy_words. apply (wd_len m Wm i Him).
    + apply nth_repeat.
  - rewrite (nth_overflow (map _ _)) by (rewrite map_length, seq_length; exact Hi).
    destruct (Nat.ltb_spec i (dr m)) as [Him|Him]; [lia|]. destruct k; reflexivity.
Qed.

Theorem get_copy m r i j : WFd m -> dr m <= dr r -> dc m <= dc r ->
  d_get (d_copy m r) i j = if (i <? dr m) && (j <? 32 * dw m) then d_get m i j else false.
Proof. intros Wm H1 H2. apply (wc_get m _ (fun i => i)). intros. apply word_copy; assumption. Qed.

Theorem copy_wfd_get m r : WFd m -> WFd r -> dr m <= dr r -> dc m <= dc r ->
  WFd (d_copy m r) /\
  forall i j, i < dr r -> j < dc r ->
    d_get (d_copy m r) i j = if (i <? dr m) && (j <? 32 * dw m) then d_get m i j else false.
Proof.
  intros Wm Wr H1 H2. split; [apply copy_wfd; assumption|].
  intros i j _ _. apply get_copy; assumption.
Qed.

Corollary get_copy_in m r i j : WFd m -> dr m <= dr r -> dc m <= dc r -> i < dr m -> j < dc m ->
  d_get (d_copy m r) i j = d_get m i j.
Proof.
  intros Wm H1 H2 Hi Hj. rewrite get_copy by assumption. pose proof (wfd_cols m Wm).
  destruct (Nat.ltb_spec i (dr m)); [|lia]. destruct (Nat.ltb_spec j (32 * dw m)); [|lia]. reflexivity.
Qed.

Corollary get_copy_below m r i j : WFd m -> dr m <= dr r -> dc m <= dc r -> dr m <= i ->
  d_get (d_copy m r) i j = false.
Proof.
  intros Wm H1 H2 Hi. rewrite get_copy by assumption. destruct (Nat.ltb_spec i (dr m)); [lia|reflexivity].
Qed.

Corollary get_copy_padzero m r i j : WFd m -> padzero m -> dr m <= dr r -> dc m <= dc r ->
  d_get (d_copy m r) i j = if (i <? dr m) && (j <? dc m) then d_get m i j else false.
Proof.
  intros Wm P H1 H2. apply (wc_get_padzero m _ (fun i => i)); auto. intros. apply word_copy; assumption.
Qed.

Lemma copyrows_rejected m r rows : dc r < dc m -> d_copyrows m r rows = r.
Proof. intros H. unfold d_copyrows. destruct (Nat.ltb_spec (dc r) (dc m)); [reflexivity|lia]. Qed.

Lemma copyrows_accepted m r rows : dc m <= dc r ->
  d_copyrows m r rows = {| dr := dr r; dc := dc r; dw := dw r;
                           drows := copyrows_loop m rows (dr r) 0 (drows (d_clear r)) (dw r) |}.
Proof. intros H. unfold d_copyrows. destruct (Nat.ltb_spec (dc r) (dc m)); [lia|reflexivity]. Qed.

Lemma copyrows_cases m r rows : d_copyrows m r rows = r \/ dc m <= dc r.
Proof. destruct (le_lt_dec (dc m) (dc r)); auto using copyrows_rejected. Qed.

Lemma copyrows_dims m r rows :
  dr (d_copyrows m r rows) = dr r /\ dc (d_copyrows m r rows) = dc r /\ dw (d_copyrows m r rows) = dw r.
Proof. unfold d_copyrows. destruct (dc r <? dc m); cbn; auto. Qed.

(* the loop over the indices i .. i+n-1 stops at some t: the end, or the first invalid index *)
Lemma copyrows_loop_spec m rows w : forall n i acc, i + n <= length acc ->
  exists t, i <= t <= i + n /\ (forall k, i <= k < t -> nth k rows 0 < dr m) /\ (t = i + n \/ dr m <= nth t rows 0) /\
    length (copyrows_loop m rows n i acc w) = length acc /\
    forall k d, nth k (copyrows_loop m rows n i acc w) d =
      if (i <=? k) && (k <? t) then copy_words (nth (nth k rows 0) (drows m) []) (dw m) w else nth k acc d.
Proof.
  induction n as [|n IH]; intros i acc Hlen; cbn [copyrows_loop].
  { exists i. split; [lia|]. split; [intros k Hk; lia|]. split; [lia|]. split; [reflexivity|].
    intros k d. rewrite between_empty. reflexivity. }
  destruct (Nat.leb_spec (dr m) (nth i rows 0)) as [Hbad|Hgood].
  { (* invalid index: the loop stops here, t = i *)
    exists i. split; [lia|]. split; [intros k Hk; lia|]. split; [right; exact Hbad|]. split; [reflexivity|].
    intros k d. rewrite between_empty. reflexivity. }
  destruct (IH (S i) (upd acc i (copy_words (nth (nth i rows 0) (drows m) []) (dw m) w)))
    as (t & Ht & Hok & Hstop & L & G); [rewrite upd_length; lia|].
  exists t. split; [lia|]. split; [|split; [lia|split; [rewrite L; apply upd_length|]]].
  - intros k Hk. destruct (Nat.eq_dec k i) as [->|Hki]; [exact Hgood|apply Hok; lia].
  - intros k d. rewrite G. destruct (Nat.eq_dec k i) as [->|Hki].
    + rewrite nth_upd_eq by lia.
      rewrite (proj2 (Nat.leb_gt (S i) i)), Nat.leb_refl, (proj2 (Nat.ltb_lt i t)) by lia. reflexivity.
    + rewrite nth_upd_neq by lia.
      destruct (Nat.leb_spec (S i) k), (Nat.leb_spec i k); try reflexivity; lia.
Qed.

Definition stops_at (m r : dmat) (rows : list nat) (t : nat) : Prop :=
  t <= dr r /\ (forall k, k < t -> nth k rows 0 < dr m) /\ (t = dr r \/ dr m <= nth t rows 0).

Lemma stops_at_exists m r rows : exists t, stops_at m r rows t.
Proof.
  (* only the stopping index of the loop is wanted: run it on any accumulator of dr r rows *)
  destruct (copyrows_loop_spec m rows 0 (dr r) 0 (repeat [] (dr r))) as (t & Ht & Hok & Hstop & _).
  - rewrite repeat_length. lia.
  - exists t. split; [lia|]. split; [intros k Hk; apply Hok; lia|exact Hstop].
Qed.

Lemma stops_at_unique m r rows t t' : stops_at m r rows t -> stops_at m r rows t' -> t = t'.
Proof.
  intros (A & B & C) (A' & B' & C').
  destruct (Nat.lt_trichotomy t t') as [H|[H|H]]; [|exact H|].
  - specialize (B' t H). destruct C as [C|C]; lia.
  - specialize (B t' H). destruct C' as [C'|C']; lia.
Qed.

Lemma copyrows_rows m r rows t : dc m <= dc r -> stops_at m r rows t ->
  length (drows (d_copyrows m r rows)) = dr r /\
  forall k d, nth k (drows (d_copyrows m r rows)) d =
    if k <? t then copy_words (nth (nth k rows 0) (drows m) []) (dw m) (dw r) else nth k (drows (d_clear r)) d.
Proof.
  intros H2 St. rewrite copyrows_accepted by exact H2. cbn [drows].
  assert (Hc : length (drows (d_clear r)) = dr r) by apply repeat_length.
  destruct (copyrows_loop_spec m rows (dw r) (dr r) 0 (drows (d_clear r))) as (t' & Ht & Hok & Hstop & L & G); [lia|].
  assert (t' = t) as ->.
  { apply (stops_at_unique m r rows); [|exact St]. split; [lia|]. split; [intros k Hk; apply Hok; lia|exact Hstop]. }
  split; [congruence|exact G].
Qed.

Lemma word_copyrows m r rows t i k : WFd m -> dc m <= dc r -> stops_at m r rows t ->
  word (d_copyrows m r rows) i k = if (i <? t) && (k <? dw m) then word m (nth i rows 0) k else 0%N.
Proof.
  intros Wm H2 St. destruct (copyrows_rows m r rows t H2 St) as (_ & G).
  unfold word at 1. rewrite G. destruct (Nat.ltb_spec i t) as [Hi|Hi]; cbn [andb].
  - destruct St as (_ & Hok & _). apply nth_copy_words. apply (wd_len m Wm). apply Hok. exact Hi.
  - apply (word_clear r i k).
Qed.

Theorem copyrows_wfd m r rows t : WFd m -> WFd r -> dc m <= dc r -> stops_at m r rows t ->
  WFd (d_copyrows m r rows).
Proof.
  intros Wm Wr H2 St. destruct (copyrows_rows m r rows t H2 St) as (L & G).
  destruct (copyrows_dims m r rows) as (D1 & D2 & D3).
  constructor; rewrite ?D1, ?D2, ?D3.
  - exact L.
  - intros i Hi. rewrite G. destruct (Nat.ltb_spec i t) as [Hit|Hit].
    + destruct St as (_ & Hok & _). apply copy_words_length.
      * apply (wd_len m Wm). apply Hok. exact Hit.
      * apply wfd_dw_le; assumption.
    + apply row_zeros. exact Hi.
  - apply (wd_words r Wr).
Qed.

Theorem get_copyrows_gen m r rows t i j : WFd m -> dc m <= dc r -> stops_at m r rows t ->
  d_get (d_copyrows m r rows) i j =
    if (i <? t) && (j <? 32 * dw m) then d_get m (nth i rows 0) j else false.
Proof.
  intros Wm H2 St. apply (wc_get m _ (fun i => nth i rows 0)). intros. apply word_copyrows; assumption.
Qed.

Theorem get_copyrows m r rows : WFd m -> WFd r -> dc m <= dc r ->
  (forall i, i < dr r -> nth i rows 0 < dr m) ->
  WFd (d_copyrows m r rows) /\
  forall i j, i < dr r -> j < dc r ->
    d_get (d_copyrows m r rows) i j = if j <? 32 * dw m then d_get m (nth i rows 0) j else false.
Proof.
  intros Wm Wr H2 Hok.
  assert (St : stops_at m r rows (dr r)) by (split; [lia|split; [exact Hok|left; reflexivity]]).
  split; [apply (copyrows_wfd m r rows (dr r)); assumption|].
  intros i j Hi _. rewrite (get_copyrows_gen m r rows (dr r)) by assumption.
  destruct (Nat.ltb_spec i (dr r)); [reflexivity|lia].
Qed.

Theorem get_copyrows_stop m r rows t : WFd m -> WFd r -> dc m <= dc r ->
  t < dr r -> (forall k, k < t -> nth k rows 0 < dr m) -> dr m <= nth t rows 0 ->
  WFd (d_copyrows m r rows) /\
  (forall i j, i < t -> d_get (d_copyrows m r rows) i j = if j <? 32 * dw m then d_get m (nth i rows 0) j else false) /\
  (forall i j, t <= i -> d_get (d_copyrows m r rows) i j = false).
Proof.
  intros Wm Wr H2 Ht Hok Hbad.
  assert (St : stops_at m r rows t) by (split; [lia|split; [exact Hok|right; exact Hbad]]).
  split; [apply (copyrows_wfd m r rows t); assumption|].
  split; intros i j Hi; rewrite (get_copyrows_gen m r rows t) by assumption;
    destruct (Nat.ltb_spec i t); try lia; reflexivity.
Qed.

Corollary get_copyrows_padzero m r rows t i j : WFd m -> padzero m -> dc m <= dc r -> stops_at m r rows t ->
  d_get (d_copyrows m r rows) i j = if (i <? t) && (j <? dc m) then d_get m (nth i rows 0) j else false.
Proof.
  intros Wm P H2 St. apply (wc_get_padzero m _ (fun i => nth i rows 0)); auto; [|apply St].
  intros. apply word_copyrows; assumption.
Qed.

Theorem copyrows_wfd_any m r rows : WFd m -> WFd r -> WFd (d_copyrows m r rows).
Proof.
  intros Wm Wr. destruct (copyrows_cases m r rows) as [->|H]; [exact Wr|].
  destruct (stops_at_exists m r rows) as (t & St). apply (copyrows_wfd m r rows t); assumption.
Qed.

Lemma set_dims m i j v : dr (d_set m i j v) = dr m /\ dc (d_set m i j v) = dc m /\ dw (d_set m i j v) = dw m.
Proof. unfold d_set. destruct ((dr m <=? i) || (dc m <=? j)); cbn; auto. Qed.

(* what every intermediate matrix of the two loops has in common with r *)
Definition shaped (r a : dmat) : Prop := WFd a /\ dr a = dr r /\ dc a = dc r /\ dw a = dw r.

Lemma shaped_set r a i j v : shaped r a -> shaped r (d_set a i j v).
Proof.
  intros (W & D). destruct (set_dims a i j v) as (E1 & E2 & E3).
  split; [apply set_wfd; exact W|]. rewrite E1, E2, E3. exact D.
Qed.

(* inner loop: one column j, rows in l *)
Lemma setcol_get (f : nat -> bool) r j l : j < dc r -> (forall i, In i l -> i < dr r) ->
  forall acc i' j', shaped r acc ->
  d_get (fold_left (fun a i => d_set a i j (f i)) l acc) i' j' =
    if existsb (Nat.eqb i') l && (j' =? j) then f i' else d_get acc i' j'.
Proof.
  intros Hj. induction l as [|a l IH]; intros Hl acc i' j' S; cbn [fold_left existsb]; [reflexivity|].
  rewrite IH by auto using in_cons, shaped_set. destruct S as (W & D1 & D2 & _).
  rewrite get_set by (rewrite ?D1, ?D2; auto using in_eq).
  destruct (Nat.eqb_spec i' a) as [->|_]; [|reflexivity].
  destruct (existsb (Nat.eqb a) l), (j' =? j); reflexivity.
Qed.

(* outer loop: columns in lj *)
Lemma setcols_get (f : nat -> nat -> bool) r li lj : (forall i, In i li -> i < dr r) -> (forall j, In j lj -> j < dc r) ->
  forall acc i' j', shaped r acc ->
  d_get (fold_left (fun a j => fold_left (fun a2 i => d_set a2 i j (f i j)) li a) lj acc) i' j' =
    if existsb (Nat.eqb i') li && existsb (Nat.eqb j') lj then f i' j' else d_get acc i' j'.
Proof.
  intros Hli. induction lj as [|b lj IH]; intros Hlj acc i' j' S; cbn [fold_left existsb].
  - rewrite andb_false_r. reflexivity.
  - rewrite IH by (auto using in_cons; apply (fold_left_inv (shaped r)); auto using shaped_set).
    rewrite (setcol_get (fun i => f i b) r) by auto using in_eq.
    destruct (Nat.eqb_spec j' b) as [->|_]; [|rewrite andb_false_r; reflexivity].
    destruct (existsb (Nat.eqb i') li), (existsb (Nat.eqb b) lj); reflexivity.
Qed.

Lemma copycols_rejected m r cols : dr r < dr m -> d_copycols m r cols = r.
Proof. intros H. unfold d_copycols. destruct (Nat.ltb_spec (dr r) (dr m)); [reflexivity|lia]. Qed.

(* d_copycols changes r by calls of d_set only: what d_set keeps of a well-formed matrix, d_copycols keeps *)
Lemma copycols_inv (P : dmat -> Prop) : (forall a i j v, WFd a -> P a -> P (d_set a i j v)) ->
  forall m r cols, WFd r -> P r -> WFd (d_copycols m r cols) /\ P (d_copycols m r cols).
Proof.
  intros HP m r cols Wr Pr. unfold d_copycols. destruct (dr r <? dr m); [split; assumption|].
  apply (fold_left_inv (fun a => WFd a /\ P a)); [|split; assumption].
  intros a j Pa. apply (fold_left_inv (fun a => WFd a /\ P a)); [|exact Pa].
  intros a2 i (W2 & P2). split; [apply set_wfd; exact W2|apply HP; assumption].
Qed.

Theorem copycols_wfd m r cols : WFd r -> WFd (d_copycols m r cols).
Proof. intros Wr. apply (copycols_inv (fun _ => True)); auto. Qed.

Lemma copycols_dims m r cols : WFd r ->
  dr (d_copycols m r cols) = dr r /\ dc (d_copycols m r cols) = dc r /\ dw (d_copycols m r cols) = dw r.
Proof.
  intros Wr. apply (copycols_inv (fun a => dr a = dr r /\ dc a = dc r /\ dw a = dw r)); auto.
  intros a i j v _. destruct (set_dims a i j v) as (-> & -> & ->). auto.
Qed.

Lemma copycols_spec m r cols : WFd r -> dr m <= dr r ->
  let res := d_copycols m r cols in
  WFd res /\ dr res = dr r /\ dc res = dc r /\ dw res = dw r /\
  forall i j, d_get res i j = if (i <? dr m) && (j <? dc r) then d_get m i (nth j cols 0) else d_get r i j.
Proof.
  intros Wr H1. cbv zeta. split; [apply copycols_wfd; exact Wr|]. rewrite <- !and_assoc. split.
  - rewrite !and_assoc. apply copycols_dims. exact Wr.
  - intros i j. assert (S : shaped r r) by (split; auto).
    unfold d_copycols. destruct (Nat.ltb_spec (dr r) (dr m)) as [Hlt|_]; [lia|].
    rewrite (setcols_get (fun i j => d_get m i (nth j cols 0)) r), !existsb_eqb_seq; auto;
      intros k Hk; apply in_seq in Hk; lia.
Qed.

(* any i j; m need not be well-formed (only read through d_get) *)
Theorem get_copycols_gen m r cols i j : WFd r -> dr m <= dr r ->
  d_get (d_copycols m r cols) i j = if (i <? dr m) && (j <? dc r) then d_get m i (nth j cols 0) else d_get r i j.
Proof. intros Wr H1. apply (copycols_spec m r cols Wr H1). Qed.

Theorem get_copycols m r cols : WFd r -> dr m <= dr r ->
  WFd (d_copycols m r cols) /\
  forall i j, i < dr r -> j < dc r ->
    d_get (d_copycols m r cols) i j = if i <? dr m then d_get m i (nth j cols 0) else d_get r i j.
Proof.
  intros Wr H1. split; [apply copycols_wfd; exact Wr|].
  intros i j _ Hj. rewrite get_copycols_gen by assumption.
  destruct (Nat.ltb_spec j (dc r)); [|lia]. now rewrite andb_true_r.
Qed.

Theorem padzero_allocate rr cc : padzero (d_allocate rr cc).
Proof. intros i j _ _ _. apply allocate_wfd. Qed.

Theorem padzero_set m i j v : WFd m -> padzero m -> padzero (d_set m i j v).
Proof.
  intros W P. destruct (set_cases m i j v) as [->|(Hi & Hj)]; [exact P|].
  destruct (set_dims m i j v) as (D1 & D2 & D3). intros i' j'. rewrite D1, D2, D3. intros A B C.
  rewrite get_set by assumption.
  destruct (Nat.eqb_spec j' j) as [->|Hne]; [lia|]. rewrite andb_false_r. apply P; assumption.
Qed.

Theorem padzero_flip m i j : WFd m -> padzero m -> padzero (fst (d_flip m i j)).
Proof. rewrite flip_fst. apply padzero_set. Qed.

Theorem padzero_clear m : padzero (d_clear m).
Proof. intros i j _ _ _. apply get_clear. Qed.

Theorem padzero_xor_rows m a b : WFd m -> padzero m -> a < dr m -> b < dr m -> padzero (d_xor_rows m a b).
Proof.
  intros W P Ha Hb i j. unfold d_xor_rows at 1 2 3. cbn [dr dc dw]. intros A B C.
  rewrite get_xor_rows by assumption.
  destruct (Nat.eqb_spec i b) as [->|Hne]; [|apply P; assumption].
  rewrite (P b j), (P a j) by assumption. reflexivity.
Qed.

Theorem padzero_copycols m r cols : WFd r -> padzero r -> padzero (d_copycols m r cols).
Proof.
  intros Wr P. apply (copycols_inv padzero); auto using padzero_set.
Qed.

Theorem padzero_copy m r : WFd m -> WFd r -> dr m <= dr r -> dc m <= dc r ->
  padzero m \/ dw m < dw r -> padzero (d_copy m r).
Proof.
  intros Wm Wr H1 H2. destruct (copy_dims m r) as (_ & D2 & D3).
  apply (wc_padzero m _ (fun i => i) (dr m)); auto. intros. apply word_copy; assumption.
Qed.

Theorem padzero_copy_any m r : WFd m -> WFd r -> padzero m -> padzero r -> padzero (d_copy m r).
Proof.
  intros Wm Wr Pm Pr. destruct (copy_cases m r) as [->|(H1 & H2)]; [exact Pr|]. apply padzero_copy; auto.
Qed.

Theorem padzero_copyrows m r rows : WFd m -> WFd r -> dc m <= dc r ->
  padzero m \/ dw m < dw r -> padzero (d_copyrows m r rows).
Proof.
  intros Wm Wr H2. destruct (stops_at_exists m r rows) as (t & St).
  destruct (copyrows_dims m r rows) as (_ & D2 & D3).
  apply (wc_padzero m _ (fun i => nth i rows 0) t); auto; [|apply St]. intros. apply word_copyrows; assumption.
Qed.

Theorem padzero_copyrows_any m r rows : WFd m -> WFd r -> padzero m -> padzero r -> padzero (d_copyrows m r rows).
Proof.
  intros Wm Wr Pm Pr. destruct (copyrows_cases m r rows) as [->|H2]; [exact Pr|]. apply padzero_copyrows; auto.
Qed.

(* the side condition cannot be dropped: same word count, dirty padding in m -> dirty padding in the copy *)
Example padzero_copy_needs_condition :
  let m := {| dr := 1; dc := 1; dw := 1; drows := [[2%N]] |} in
  let r := d_allocate 1 1 in
  d_get (d_copy m r) 0 1 = true /\ d_get (d_copyrows m r [0]) 0 1 = true.
Proof. vm_compute. split; reflexivity. Qed.

(* words32 is what the completeness of d_row_is_empty needs besides padzero; every operation preserves it *)
Theorem words32_allocate rr cc : words32 (d_allocate rr cc).
Proof. intros i k. rewrite word_allocate. apply zero_lt32. Qed.

Theorem words32_clear m : words32 (d_clear m).
Proof. intros i k. rewrite word_clear. apply zero_lt32. Qed.

Theorem words32_set m i j v : WFd m -> words32 m -> words32 (d_set m i j v).
Proof.
  intros W B. destruct (set_cases m i j v) as [->|(Hi & Hj)]; [exact B|]. rewrite set_in by assumption.
  intros i' k'. rewrite word_set_word
    by (rewrite ?(wd_rows m W), ?(wd_len m W i Hi), ?(wd_words m W); auto using nwords_bound).
  destruct ((i' =? i) && (k' =? j / 32)); [|apply B].
  apply lt32_bits. intros n Hn. cbv zeta. rewrite testbit_assign.
  destruct (N.eqb_spec n (N.of_nat (j mod 32))); [lia|]. apply lt32_bits; [apply B|exact Hn].
Qed.

Theorem words32_flip m i j : WFd m -> words32 m -> words32 (fst (d_flip m i j)).
Proof. rewrite flip_fst. apply words32_set. Qed.

Theorem words32_xor_rows m a b : WFd m -> words32 m -> a < dr m -> b < dr m -> words32 (d_xor_rows m a b).
Proof.
  intros W B Ha Hb i k. rewrite word_xor_rows by assumption. destruct (i =? b); [|apply B].
  apply lt32_bits. intros n Hn.
  rewrite N.lxor_spec, (proj1 (lt32_bits _) (B b k) n Hn), (proj1 (lt32_bits _) (B a k) n Hn). reflexivity.
Qed.

Theorem words32_copy m r : WFd m -> words32 m -> words32 r -> words32 (d_copy m r).
Proof.
  intros Wm Bm Br. destruct (copy_cases m r) as [->|(H1 & H2)]; [exact Br|].
  apply (wc_words32 m _ (fun i => i) (dr m)); [|exact Bm]. intros. apply word_copy; assumption.
Qed.

Theorem words32_copyrows m r rows : WFd m -> words32 m -> words32 r -> words32 (d_copyrows m r rows).
Proof.
  intros Wm Bm Br. destruct (copyrows_cases m r rows) as [->|H2]; [exact Br|].
  destruct (stops_at_exists m r rows) as (t & St).
  apply (wc_words32 m _ (fun i => nth i rows 0) t); [|exact Bm]. intros. apply word_copyrows; assumption.
Qed.

Theorem words32_copycols m r cols : WFd r -> words32 r -> words32 (d_copycols m r cols).
Proof.
  intros Wr Br. apply (copycols_inv words32); auto using words32_set.
Qed.

Theorem row_is_empty_complete m i : WFd m -> padzero m -> words32 m -> i < dr m ->
  (forall j, j < dc m -> d_get m i j = false) -> d_row_is_empty m i = true.
Proof.
  intros W P B Hi Hz. unfold d_row_is_empty. apply forallb_forall. intros w Hin.
  destruct (In_nth _ _ 0%N Hin) as (k & Hk & Ew). rewrite (wd_len m W i Hi) in Hk.
  apply N.eqb_eq. apply N.bits_inj_0. intros n.
  destruct (N.lt_ge_cases n 32) as [Hn|Hn].
  - assert (G : d_get m i (32 * k + N.to_nat n) = false).
    { destruct (le_lt_dec (dc m) (32 * k + N.to_nat n)) as [Hp|Hc]; [apply P; try assumption; lia|apply Hz; exact Hc]. }
    rewrite get_word, N2Nat.id in G by lia. unfold word in G. rewrite Ew in G. exact G.
  - pose proof (B i k) as Bk. unfold word in Bk. rewrite Ew in Bk.
    apply (proj1 (lt32_bits w) Bk). exact Hn.
Qed.

Theorem row_is_empty_iff m i : WFd m -> padzero m -> words32 m -> i < dr m ->
  (d_row_is_empty m i = true <-> forall j, j < dc m -> d_get m i j = false).
Proof.
  intros W P B Hi. split.
  - intros H j _. apply row_is_empty_sound. exact H.
  - apply row_is_empty_complete; assumption.
Qed.

(* words32 cannot be dropped from row_is_empty_complete: a row holding the (non 32-bit) word 2^32 has no bit set in any column,
   is well-formed with clean padding, and is not "empty" *)
Example row_is_empty_complete_needs_words32 :
  let m := {| dr := 1; dc := 1; dw := 1; drows := [[(2 ^ 32)%N]] |} in
  WFd m /\ padzero m /\ (forall i j, d_get m i j = false) /\ d_row_is_empty m 0 = false.
Proof.
  cbv zeta.
  assert (G : forall i j, d_get {| dr := 1; dc := 1; dw := 1; drows := [[(2 ^ 32)%N]] |} i j = false).
  { intros i j. unfold d_get, word. cbn [drows].
    destruct i as [|[|i]], (j / 32) as [|[|q]]; cbn [nth]; try apply N.bits_0.
    apply N.pow2_bits_false. lia. }
  split; [|split; [|split]].
  - constructor; cbn [dr dc dw drows]; [reflexivity| |reflexivity].
    intros i Hi. assert (i = 0) by lia. subst i. reflexivity.
  - intros i j _ _ _. apply G.
  - exact G.
  - reflexivity.
Qed.

(* one bundle holding every theorem of this file, so that a single Print Assumptions covers them all *)
Definition DenseCopyProofs_all :=
  (@copy_wfd_get,
   @get_copy,
   @get_copy_in,
   @get_copy_padzero,
   @copy_rejected,
   @get_copyrows,
   @get_copyrows_stop,
   @get_copyrows_gen,
   @copyrows_wfd_any,
   @get_copycols,
   @get_copycols_gen,
   @padzero_allocate,
   @padzero_set,
   @padzero_flip,
   @padzero_clear,
   @padzero_xor_rows,
   @padzero_copycols,
   @padzero_copy,
   @padzero_copy_any,
   @padzero_copyrows,
   @padzero_copyrows_any,
   @words32_set,
   @words32_xor_rows,
   @words32_copy,
   @words32_copyrows,
   @words32_copycols,
   @row_is_empty_complete,
   @row_is_empty_iff,
   @row_is_empty_complete_needs_words32,
   @copy_wfd,
   @copy_dims,
   @copyrows_dims,
   @copycols_dims,
   @copycols_wfd,
   @copyrows_wfd,
   @copyrows_rejected,
   @copycols_rejected,
   @stops_at_exists,
   @stops_at_unique,
   @get_copy_below,
   @get_copyrows_padzero,
   @words32_allocate,
   @words32_clear,
   @words32_flip,
   @padzero_copy_needs_condition,
   @word_copy,
   @word_copyrows,
   @lt32_bits).
Print Assumptions DenseCopyProofs_all.
