(* C12 — sessions are independent of each other.
   Generic theorem (Interleave.v): for ANY machine whose steps do not let the shared global state
   influence the session's next state or its output, the outputs of a session in ANY interleaving with
   other sessions equal its outputs when run alone from ANY global state.
   Instance: configuring an LDPC-Staircase session, the only API step that reads the shared PRNG state
   (of_seed), is local: refused seeds are rejected up front (C09) and accepted ones overwrite the state
   before its first read (C05, C19).
   Second instance: of_finish_decoding of the LDPC codecs draws the injection order of the repair symbols
   from the C library's rand(), whose state every session shares: whether decoding succeeds does not depend
   on that order (nor on anything but the set of received symbols), and every symbol it delivers is the
   codeword's whatever the order (Properties_C03.v, restated below for the status).
   Third instance: the whole LDPC-Staircase decoder session (Submit, Finish, Query) as a machine over the
   shared rand() state.  Finish changes the session's internals with the draw, so the generic theorem is
   taken up to a relation between session states (`sessions_independent_observationally`); of the draw
   only `finish_shuffle_is_a_permutation` is needed.
   The remaining shared state (the GF(2^8) tables of codec 1, built
   once, proved canonical in C14; of_verbosity, printing only) and the sessions of the other codecs are
   covered by the correspondence: interleaved runs of mixed sessions against solo runs in fresh processes. *)
From Coq Require Import ZArith Arith List Bool.
From OFV Require Import Sparse Interleave IndepLdpc LdpcEnc ITModel ITProofs MLModel MLSession InterleaveObs.
Import ListNotations.

Theorem sessions_independent :
  forall (G S Op Out : Type) (step : G -> S -> Op -> G * S * Out),
  (forall g g' s o, snd (fst (step g s o)) = snd (fst (step g' s o)) /\ snd (step g s o) = snd (step g' s o)) ->
  forall (h : list (nat * Op)) (g : G) (st : nat -> S) (i : nat) (g' : G),
  outs_of Out i (grun G S Op Out step g st h) = solo G S Op Out step g' (st i) (ops_of Op i h).
Proof. exact sessions_independent_proof. Qed.

Theorem ldpc_configuration_is_independent : forall fuel (h : list (nat * IndepLdpc.cfg)) g st i g',
  outs_of bool i (grun Z (option (smat * bool)) IndepLdpc.cfg bool (ldpc_configure fuel) g st h)
  = solo Z (option (smat * bool)) IndepLdpc.cfg bool (ldpc_configure fuel) g' (st i) (ops_of IndepLdpc.cfg i h).
Proof. intros. apply sessions_independent_proof. apply ldpc_configure_local. Qed.

Theorem ldpc_finish_status_independent_of_rand :
  forall (Sy : Type) (sxor : Sy -> Sy -> Sy) (s0 : Sy),
  (forall a b c, sxor a (sxor b c) = sxor (sxor a b) c) -> (forall a b, sxor a b = sxor b a) ->
  (forall a, sxor s0 a = a) -> (forall a, sxor a a = s0) ->
  forall (H0 : list (list nat)) (R0 N0 : nat),
  length H0 = R0 -> (forall i, i < R0 -> NoDup (nth i H0 [])) ->
  (forall i c, i < R0 -> In c (nth i H0 []) -> c < N0) -> (forall i, i < R0 -> 2 <= length (nth i H0 [])) -> R0 <= N0 ->
  (forall c, c < N0 -> exists i, i < R0 /\ In c (nth i H0 [])) -> stair R0 H0 -> (exists a : Sy, a <> s0) ->
  forall cw : nat -> Sy, (forall i, i < R0 -> fold_right sxor s0 (map cw (nth i H0 [])) = s0) ->
  forall (h1 h2 : list (nat * Sy)) (s1 s2 : st Sy) (fuel1 fuel2 : nat) (perm1 perm2 : list nat) (o1 o2 : outcome Sy),
  (forall ev, In ev h1 -> fst ev < N0 /\ snd ev = cw (fst ev)) -> (forall ev, In ev h2 -> fst ev < N0 /\ snd ev = cw (fst ev)) ->
  (forall c, In c (map fst h1) <-> In c (map fst h2)) ->
  run Sy sxor s0 H0 R0 N0 (S N0) h1 = Some s1 -> run Sy sxor s0 H0 R0 N0 (S N0) h2 = Some s2 ->
  N0 < fuel1 -> N0 < fuel2 ->
  (forall c, c < R0 -> In c perm1) -> (forall c, In c perm1 -> c < R0) ->
  (forall c, c < R0 -> In c perm2) -> (forall c, In c perm2 -> c < R0) ->
  ml_finish sxor s0 fuel1 perm1 s1 = Some o1 -> ml_finish sxor s0 fuel2 perm2 s2 = Some o2 -> o_ok o1 = o_ok o2.
Proof. exact ldpc_session_finish_order_independent. Qed.

(* It suffices that the steps preserve a relation R between session states and give equal outputs on R-related
   states, whatever the two global states.  This is what of_finish_decoding needs: the permutation it draws from
   the shared rand() state may change the decoder's internals, not what the application can observe. *)
Theorem sessions_independent_observationally :
  forall (G S Op Out : Type) (step : G -> S -> Op -> G * S * Out) (R : S -> S -> Prop),
  (forall s s', R s s' -> forall g g' o, R (snd (fst (step g s o))) (snd (fst (step g' s' o))) /\ snd (step g s o) = snd (step g' s' o)) ->
  forall (h : list (nat * Op)) (g : G) (st : nat -> S) (i : nat) (g' : G) (s' : S), R (st i) s' ->
  outs_of Out i (grun G S Op Out step g st h) = solo G S Op Out step g' s' (ops_of Op i h).
Proof. exact sessions_independent_obs. Qed.

(* the C's shuffle loop of of_finish_decoding yields a permutation of the rows whatever rand() returns *)
Theorem finish_shuffle_is_a_permutation : forall r rvs,
  (forall c, c < r -> In c (shuffle r rvs)) /\ (forall c, In c (shuffle r rvs) -> c < r) /\ NoDup (shuffle r rvs) /\ length (shuffle r rvs) = r.
Proof. exact shuffle_perm. Qed.

(* The complete LDPC-Staircase decoder session as a machine over the shared rand() state (any type G, any function
   draw : G -> nat -> list nat * G, nothing assumed about it): Submit (any column, any order, duplicates), Finish
   (draws R0 values, shuffles, runs the ML finish), Query.  Every operation outputs (status, completion flag, the
   source table).  For ANY interleaving with other sessions in ANY states and ANY two rand() states, a session that
   starts from the initial state of a well-formed configuration outputs what it outputs alone. *)
Theorem ldpc_session_is_independent_of_every_other_session :
  forall (Sy : Type) (sxor : Sy -> Sy -> Sy) (s0 : Sy),
  (forall a b c, sxor a (sxor b c) = sxor (sxor a b) c) -> (forall a b, sxor a b = sxor b a) ->
  (forall a, sxor s0 a = a) -> (forall a, sxor a a = s0) -> (exists a : Sy, a <> s0) ->
  forall (G : Type) (draw : G -> nat -> list nat * G) (c : InterleaveObs.cfg Sy), WFcfg Sy sxor s0 c ->
  forall (h : list (nat * lop)) (g g' : G) (st : nat -> lsess Sy) (i : nat), st i = init_sess Sy c ->
  outs_of (lout Sy) i (grun G (lsess Sy) lop (lout Sy) (lstep Sy sxor s0 G draw) g st h)
  = solo G (lsess Sy) lop (lout Sy) (lstep Sy sxor s0 G draw) g' (st i) (ops_of lop i h).
Proof. exact ldpc_sessions_independent_full. Qed.

Print Assumptions sessions_independent.
Print Assumptions sessions_independent_observationally.
Print Assumptions finish_shuffle_is_a_permutation.
Print Assumptions ldpc_session_is_independent_of_every_other_session.
Print Assumptions ldpc_finish_status_independent_of_rand.
Print Assumptions ldpc_configuration_is_independent.
