(* Projections of MLSession.ldpc_session_finish for the properties that use one clause of it. *)
From Coq Require Import Arith List Bool.
From OFV Require Import ListAux XorGroup LdpcEnc ITModel ITProofs MLModel MLFinish MLSession.
Import ListNotations.

Section C.
Variable Sy : Type. Variable sxor : Sy -> Sy -> Sy. Variable s0 : Sy.
Hypothesis sxor_assoc : forall a b c, sxor a (sxor b c) = sxor (sxor a b) c.
Hypothesis sxor_comm : forall a b, sxor a b = sxor b a.
Hypothesis sxor_0_l : forall a, sxor s0 a = a.
Hypothesis sxor_nilp : forall a, sxor a a = s0.
Variable H0 : list (list nat). Variable R0 N0 : nat.
Hypothesis H0_len : length H0 = R0.
Hypothesis H0_nodup : forall i, i < R0 -> NoDup (nth i H0 []).
Hypothesis H0_range : forall i c, i < R0 -> In c (nth i H0 []) -> c < N0.
Hypothesis H0_deg : forall i, i < R0 -> 2 <= length (nth i H0 []).
Hypothesis R_le_N : R0 <= N0.
Hypothesis H0_cols : forall c, c < N0 -> exists i, i < R0 /\ In c (nth i H0 []).
Hypothesis H0_stair : stair R0 H0.
Hypothesis Sy_nontrivial : exists a : Sy, a <> s0.
Variable cw : nat -> Sy.
Hypothesis parity : forall i, i < R0 -> fold_right sxor s0 (map cw (nth i H0 [])) = s0.

Lemma ml_session_values (hist : list (nat * Sy)) (s : st Sy) fuel perm (o : outcome Sy) :
  (forall ev, In ev hist -> fst ev < N0 /\ snd ev = cw (fst ev)) -> run Sy sxor s0 H0 R0 N0 (S N0) hist = Some s ->
  N0 < fuel -> (forall c, c < R0 -> In c perm) -> (forall c, In c perm -> c < R0) ->
  ml_finish sxor s0 fuel perm s = Some o ->
  forall c v, nth c (tab (o_st o)) None = Some v -> v = cw c.
Proof.
  intros A B C D E F.
  exact (proj1 (ldpc_session_finish Sy sxor s0 sxor_assoc sxor_comm sxor_0_l sxor_nilp H0 R0 N0 H0_len H0_nodup H0_range H0_deg
           R_le_N H0_cols H0_stair Sy_nontrivial cw parity hist s fuel perm o A B C D E F)).
Qed.

Lemma ml_session_status (hist : list (nat * Sy)) (s : st Sy) fuel perm (o : outcome Sy) :
  (forall ev, In ev hist -> fst ev < N0 /\ snd ev = cw (fst ev)) -> run Sy sxor s0 H0 R0 N0 (S N0) hist = Some s ->
  N0 < fuel -> (forall c, c < R0 -> In c perm) -> (forall c, In c perm -> c < R0) ->
  ml_finish sxor s0 fuel perm s = Some o ->
  (o_ok o = true <-> forall c, R0 <= c < N0 -> known (o_st o) c = true).
Proof.
  intros A B C D E F.
  exact (proj1 (proj2 (proj2 (ldpc_session_finish Sy sxor s0 sxor_assoc sxor_comm sxor_0_l sxor_nilp H0 R0 N0 H0_len H0_nodup H0_range H0_deg
           R_le_N H0_cols H0_stair Sy_nontrivial cw parity hist s fuel perm o A B C D E F)))).
Qed.
End C.
