(* Completeness of the dense GF(2) solver model (DenseSolve.v): `solve` answers None exactly when the
   matrix does not have full column rank (solve_none_kernel and solve_some_no_kernel, the two halves of
   solve_none_iff_kernel), and that decision never looks at the right-hand sides.
   The structural facts are obtained from DenseSolveProofs.v instantiated at Sy := bool, sxor := xorb,
   s0 := false with an all-null right-hand side; the generic symbol type is reached through the
   observation that the matrix component of every step is a function of the matrix component only. *)
From Coq Require Import Arith List Bool Lia.
From OFV Require Import ListAux XorGroup DenseSolve DenseSolveProofs.
Import ListNotations.

Definition bdot (q : nat) (row : list bool) (z : nat -> bool) : bool :=
  fold_right xorb false (map (fun c => bit row c && z c) (seq 0 q)).
Definition kernel (p q : nat) (A : list (list bool)) (z : nat -> bool) : Prop :=
  forall r, r < p -> bdot q (getrow A r) z = false.
Definition nontrivial (q : nat) (z : nat -> bool) : Prop := exists c, c < q /\ z c = true.

Section Indep.
Variable Sy1 : Type. Variable sxor1 : Sy1 -> Sy1 -> Sy1. Variable s01 : Sy1.
Variable Sy2 : Type. Variable sxor2 : Sy2 -> Sy2 -> Sy2. Variable s02 : Sy2.

Lemma elim_fold_sA i : forall js (y1 : sys Sy1) (y2 : sys Sy2), sA y1 = sA y2 ->
  sA (fold_left (elim_row Sy1 sxor1 s01 i) js y1) = sA (fold_left (elim_row Sy2 sxor2 s02 i) js y2).
Proof.
  induction js as [|j js IH]; intros y1 y2 E; simpl; [exact E|].
  apply IH. now rewrite !elim_row_sA, E.
Qed.

Lemma col_forward_sA p (y1 : sys Sy1) (y2 : sys Sy2) i : sA y1 = sA y2 ->
  option_map sA (col_forward Sy1 sxor1 s01 p y1 i) = option_map sA (col_forward Sy2 sxor2 s02 p y2 i).
Proof.
  intros E. unfold col_forward. rewrite E.
  destruct (find_pivot (sA y2) i i (p - i)) as [j|]; simpl; [|reflexivity].
  f_equal. apply elim_fold_sA. destruct (j =? i); simpl; [exact E|reflexivity].
Qed.

Lemma triangularize_sA p : forall cols (y1 : sys Sy1) (y2 : sys Sy2), sA y1 = sA y2 ->
  option_map sA (triangularize Sy1 sxor1 s01 p cols y1) = option_map sA (triangularize Sy2 sxor2 s02 p cols y2).
Proof.
  induction cols as [|i cols IH]; intros y1 y2 E; simpl; [now f_equal|].
  pose proof (col_forward_sA p y1 y2 i E) as H.
  destruct (col_forward Sy1 sxor1 s01 p y1 i) as [a|], (col_forward Sy2 sxor2 s02 p y2 i) as [b|];
    try discriminate H; [|reflexivity].
  apply IH. now injection H.
Qed.

Lemma solve_none_iff_gen p q (y1 : sys Sy1) (y2 : sys Sy2) : sA y1 = sA y2 ->
  (solve Sy1 sxor1 s01 p q y1 = None <-> solve Sy2 sxor2 s02 p q y2 = None).
Proof.
  intros E. unfold solve. pose proof (triangularize_sA p (seq 0 q) y1 y2 E) as H.
  destruct (triangularize Sy1 sxor1 s01 p (seq 0 q) y1) as [a|], (triangularize Sy2 sxor2 s02 p (seq 0 q) y2) as [b|];
    try discriminate H; [split; discriminate|split; trivial].
Qed.
End Indep.

Lemma bdot_ext q row row' z z' :
  (forall c, c < q -> bit row c && z c = bit row' c && z' c) -> bdot q row z = bdot q row' z'.
Proof.
  intros H. unfold bdot. f_equal. apply map_ext_in. intros c Hc. apply in_seq in Hc. apply H. lia.
Qed.

Lemma bx_assoc : forall a b c, xorb a (xorb b c) = xorb (xorb a b) c.
Proof. intros [] [] []; reflexivity. Qed.
Lemma bx_comm : forall a b, xorb a b = xorb b a.
Proof. intros [] []; reflexivity. Qed.
Lemma bx_0_l : forall a, xorb false a = a.
Proof. intros []; reflexivity. Qed.
Lemma bx_nilp : forall a, xorb a a = false.
Proof. intros []; reflexivity. Qed.

Lemma fold_xorb_zero (f : nat -> bool) : forall l, (forall c, In c l -> f c = false) ->
  fold_right xorb false (map f l) = false.
Proof.
  intros l H. rewrite (map_ext_in f (fun _ => false)) by exact H. apply (xsum_zero bool xorb false bx_0_l).
Qed.

Lemma bdot_zero q row z : (forall c, c < q -> bit row c && z c = false) -> bdot q row z = false.
Proof.
  intros H. unfold bdot. apply fold_xorb_zero. intros c Hc. apply in_seq in Hc. apply H. lia.
Qed.

Definition zl (q : nat) (z : nat -> bool) : list bool := map z (seq 0 q).
Definition hsys (p : nat) (A : list (list bool)) : sys bool := {| sA := A; sb := repeat None p |}.

Lemma nth_zl q z c : c < q -> nth c (zl q z) false = z c.
Proof. apply (nth_map_seq z 0). Qed.

Lemma dot_bdot q row x : dot bool xorb false q row x = bdot q row (fun c => nth c x false).
Proof. reflexivity. Qed.

Section B.
Variable p q : nat.
Notation solb := (sol bool xorb false p q).
Notation WFb := (WFs bool p q).
Notation vbb := (vb bool false).

Definition homog (y : sys bool) : Prop := forall r, r < p -> vbb y r = false.

Lemma sol_kernel (y : sys bool) x : homog y -> (solb y x <-> kernel p q (sA y) (fun c => nth c x false)).
Proof.
  intros Hh. unfold sol, kernel. split; intros H r Hr.
  - rewrite <- dot_bdot. rewrite H by exact Hr. apply Hh. exact Hr.
  - rewrite dot_bdot. rewrite H by exact Hr. symmetry. apply Hh. exact Hr.
Qed.

Lemma kernel_zl A z : kernel p q A (fun c => nth c (zl q z) false) <-> kernel p q A z.
Proof. split; intros H r Hr; (etransitivity; [|exact (H r Hr)]); apply bdot_ext; intros c Hc; now rewrite nth_zl. Qed.

Lemma kernel_zero A : kernel p q A (fun _ => false).
Proof. intros r Hr. apply bdot_zero. intros c Hc. apply andb_false_r. Qed.

(* a system whose solution set is that of a homogeneous system is homogeneous *)
Lemma homog_transport (y y' : sys bool) : homog y -> (forall x, solb y' x <-> solb y x) -> homog y'.
Proof.
  intros Hh Hs r Hr.
  assert (H0 : solb y' (zl q (fun _ => false))) by (apply Hs, (sol_kernel y _ Hh), kernel_zl, kernel_zero).
  specialize (H0 r Hr). rewrite dot_bdot in H0. unfold vb. rewrite <- H0. exact (proj2 (kernel_zl _ _) (kernel_zero _) r Hr).
Qed.

(* no pivot for column i: set unknown i to 1, the later ones to 0, and let back-substitution in the unit upper
   triangular block choose the earlier ones *)
Lemma pivot_fail_kernel (y : sys bool) i : homog y -> Lower bool p y i -> Diag bool y i -> i < q -> i <= p ->
  find_pivot (sA y) i i (p - i) = None -> exists z, nontrivial q z /\ kernel p q (sA y) z.
Proof.
  intros Hh HL HD Hiq Hip Hf.
  destruct (back_subst_solves bool xorb false bx_assoc bx_comm bx_0_l bx_nilp p q y i HL HD ltac:(lia) Hip
              i (zl q (fun k => k =? i))) as (Hk & Hr).
  { lia. } { unfold zl. now rewrite map_length, seq_length. } { intros r Hr. lia. }
  set (x := back_subst bool xorb false q y i _) in *.
  assert (Hz : forall k, i <= k < q -> nth k x false = (k =? i)) by (intros k Hk'; now rewrite Hk, nth_zl by lia).
  exists (fun c => nth c x false). split.
  - exists i. split; [exact Hiq|]. rewrite Hz by lia. apply Nat.eqb_refl.
  - intros r Hr'. destruct (le_lt_dec i r) as [Hir|Hri].
    + apply bdot_zero. intros c Hc. destruct (lt_eq_lt_dec c i) as [[Hci| ->]|Hic].
      * now rewrite (HL r c) by lia.
      * pose proof (find_pivot_spec (sA y) i (p - i) i) as F. rewrite Hf in F. now rewrite (F r) by lia.
      * rewrite Hz by lia. destruct (Nat.eqb_spec c i); [lia|]. apply andb_false_r.
    + rewrite <- dot_bdot, Hr by exact Hri. apply Hh. lia.
Qed.

Lemma triangularize_none_kernel : forall cnt i (y : sys bool),
  WFb y -> Lower bool p y i -> Diag bool y i -> homog y -> i + cnt <= q -> i <= p ->
  triangularize bool xorb false p (seq i cnt) y = None ->
  exists z, nontrivial q z /\ kernel p q (sA y) z.
Proof.
  induction cnt as [|cnt IH]; intros i y W HL HD Hh Hq Hp Ht; simpl in Ht; [discriminate|].
  destruct (col_forward bool xorb false p y i) as [y1|] eqn:Ecf.
  - destruct (col_forward_spec bool xorb false bx_assoc bx_comm bx_0_l bx_nilp p q y y1 i W HL HD ltac:(lia) Ecf)
      as (HL1 & HD1 & E1).
    pose proof (Eqv_sol bool xorb false p q y y1 E1) as Hs1.
    pose proof (homog_transport y y1 Hh Hs1) as Hh1.
    destruct (IH (S i) y1 (col_forward_WFs bool xorb false p q y y1 i W Ecf) HL1 HD1 Hh1 ltac:(lia)
                 (col_forward_lt bool xorb false p y y1 i Ecf) Ht) as (z & Hnz & Hk).
    exists z. split; [exact Hnz|].
    apply kernel_zl, (sol_kernel y _ Hh), Hs1, (sol_kernel y1 _ Hh1), (proj2 (kernel_zl _ z)), Hk.
  - unfold col_forward in Ecf.
    destruct (find_pivot (sA y) i i (p - i)) as [j|] eqn:Ef; [discriminate|].
    apply (pivot_fail_kernel y i Hh HL HD ltac:(lia) Hp Ef).
Qed.

Lemma hsys_WF A : length A = p -> (forall r, r < p -> length (getrow A r) = q) -> WFb (hsys p A).
Proof. intros H1 H2. constructor; simpl; [exact H1|apply repeat_length|exact H2]. Qed.

Lemma hsys_homog A : homog (hsys p A).
Proof. intros r Hr. unfold vb, hsys. simpl. rewrite nth_repeat. reflexivity. Qed.

Lemma hsolve_none_iff A : WFb (hsys p A) ->
  (solve bool xorb false p q (hsys p A) = None <-> exists z, nontrivial q z /\ kernel p q A z).
Proof.
  intros W. split.
  - intros H. unfold solve in H.
    destruct (triangularize bool xorb false p (seq 0 q) (hsys p A)) as [y'|] eqn:Et; [discriminate|].
    apply (triangularize_none_kernel q 0 (hsys p A) W); [| |apply hsys_homog|lia|lia|exact Et].
    + intros r c Hc. lia.
    + intros c Hc. lia.
  - (* a solved system has one solution: a kernel vector coincides with the zero vector *)
    intros (z & (c & Hc & Hzc) & Hz). destruct (solve bool xorb false p q (hsys p A)) as [x|] eqn:H; [exfalso|reflexivity].
    destruct (solve_sound_proof bool xorb false bx_assoc bx_comm bx_0_l bx_nilp p q (hsys p A) x W H) as (_ & Hu & _).
    assert (S : forall z', kernel p q A z' -> solb (hsys p A) (zl q z'))
      by (intros z' Hz'; apply (sol_kernel _ _ (hsys_homog A)), kernel_zl, Hz').
    pose proof (Hu _ (S z Hz) c Hc) as E1. pose proof (Hu _ (S _ (kernel_zero A)) c Hc) as E2.
    rewrite nth_zl in E1, E2 by exact Hc. congruence.
Qed.
End B.

Corollary solve_none_iff_kernel (Sy : Type) (sxor : Sy -> Sy -> Sy) (s0 : Sy) (p q : nat) (y : sys Sy) :
  WFs Sy p q y ->
  (solve Sy sxor s0 p q y = None <-> exists z, nontrivial q z /\ kernel p q (sA y) z).
Proof.
  intros W. rewrite (solve_none_iff_gen Sy sxor s0 bool xorb false p q y (hsys p (sA y)) eq_refl).
  apply hsolve_none_iff, hsys_WF; [apply (w_rows _ _ _ _ W)|apply (w_len _ _ _ _ W)].
Qed.

Theorem solve_none_kernel (Sy : Type) (sxor : Sy -> Sy -> Sy) (s0 : Sy) (p q : nat) (y : sys Sy) :
  WFs Sy p q y -> solve Sy sxor s0 p q y = None ->
  exists z, nontrivial q z /\ kernel p q (sA y) z.
Proof. intros W. apply solve_none_iff_kernel, W. Qed.

Theorem solve_some_no_kernel (Sy : Type) (sxor : Sy -> Sy -> Sy) (s0 : Sy) (p q : nat) (y : sys Sy) (x : list Sy) :
  WFs Sy p q y -> solve Sy sxor s0 p q y = Some x ->
  forall z, kernel p q (sA y) z -> forall c, c < q -> z c = false.
Proof.
  intros W H z Hk c Hc. destruct (z c) eqn:E; [|reflexivity].
  assert (N : solve Sy sxor s0 p q y = None)
    by (apply (solve_none_iff_kernel Sy sxor s0 p q y W); exists z; split; [exists c; auto|exact Hk]).
  congruence.
Qed.

Print Assumptions solve_none_kernel.
Print Assumptions solve_some_no_kernel.
Print Assumptions solve_none_iff_kernel.
