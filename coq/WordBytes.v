(* C13, word accesses of the symbol kernels on a little-endian machine.
   Kernels.v models a UINT64/UINT32 operation as the same operation on the bytes the word covers.
   This file discharges that modelling step: a word access is a load of the little-endian value of
   the covered bytes (`le`), the word operation of the C (XOR, or XOR with the OR/shift packing of
   eight table look-ups), and a store of the little-endian bytes of the result (`bytes_of`); the
   result is exactly `upd_range` of Kernels.v.  Word-level versions of the kernels are then shown
   to return what the byte-level definitions return. *)
From Coq Require Import NArith ZArith Arith List Bool Lia.
From OFV Require Import ListAux Kernels KernelProofs.
Import ListNotations.

Local Open Scope N_scope.

(* value of the word whose little-endian bytes are bs *)
Definition le (bs : list N) : N := fold_right (fun b acc => b + 256 * acc) 0 bs.
(* store of a w-byte word *)
Fixpoint bytes_of (w : nat) (x : N) : list N :=
  match w with O => [] | S w' => (x mod 256) :: bytes_of w' (x / 256) end.
(* the C expression b0 | b1<<8 | b2<<16 ... *)
Fixpoint pack_from (i : nat) (l : list N) : N :=
  match l with [] => 0 | b :: t => N.lor (N.shiftl b (8 * N.of_nat i)) (pack_from (S i) t) end.

Definition bytes (l : list N) : Prop := Forall (fun b => b < 256) l.

Lemma le_cons b t : le (b :: t) = b + 256 * le t.
Proof. reflexivity. Qed.

(* arithmetic of one k-bit digit under a word (k = 8: a byte; k = 4: a nibble of the packed
   GF(2^4) kernel) *)
Lemma pow2_nz k : 2 ^ k <> 0.
Proof. apply N.pow_nonzero. discriminate. Qed.
Lemma cons_mod k b x : b < 2^k -> (b + 2^k * x) mod 2^k = b.
Proof.
  intros Hb. rewrite (N.mul_comm (2^k) x), N.mod_add by apply pow2_nz. apply N.mod_small, Hb.
Qed.
Lemma cons_div k b x : b < 2^k -> (b + 2^k * x) / 2^k = x.
Proof.
  intros Hb. rewrite (N.mul_comm (2^k) x), N.div_add, (N.div_small b _ Hb) by apply pow2_nz. reflexivity.
Qed.
Lemma split_digit k v : v = v mod 2^k + 2^k * (v / 2^k).
Proof. rewrite N.add_comm. apply N.div_mod, pow2_nz. Qed.

Lemma lxor_mod k u v : N.lxor u v mod 2^k = N.lxor (u mod 2^k) (v mod 2^k).
Proof.
  apply N.bits_inj. intros n. rewrite N.lxor_spec. destruct (N.ltb_spec n k) as [H|H].
  - rewrite !N.mod_pow2_bits_low, N.lxor_spec by exact H. reflexivity.
  - rewrite !N.mod_pow2_bits_high by exact H. reflexivity.
Qed.
Lemma lxor_div k u v : N.lxor u v / 2^k = N.lxor (u / 2^k) (v / 2^k).
Proof. rewrite <- !N.shiftr_div_pow2. apply N.shiftr_lxor. Qed.
Lemma lxor_digit k a b : a < 2^k -> b < 2^k -> N.lxor a b < 2^k.
Proof.
  intros Ha Hb. rewrite (split_digit k (N.lxor a b)), lxor_div, (N.div_small a _ Ha), (N.div_small b _ Hb).
  rewrite N.mul_0_r, N.add_0_r. apply N.mod_lt, pow2_nz.
Qed.
Lemma lxor_cons k a x b y : a < 2^k -> b < 2^k ->
  N.lxor (a + 2^k * x) (b + 2^k * y) = N.lxor a b + 2^k * N.lxor x y.
Proof.
  intros Ha Hb. rewrite (split_digit k (N.lxor _ _)).
  rewrite lxor_mod, lxor_div, !cons_mod, !cons_div by assumption. reflexivity.
Qed.
Lemma lor_shift_cons k b y : b < 2^k -> N.lor b (N.shiftl y k) = b + 2^k * y.
Proof.
  intros Hb. rewrite (split_digit k (N.lor _ _)). f_equal; [|f_equal].
  - rewrite <- N.land_ones, N.land_lor_distr_l, !N.land_ones, N.shiftl_mul_pow2, N.mod_mul, N.lor_0_r by apply pow2_nz.
    apply N.mod_small, Hb.
  - rewrite <- N.shiftr_div_pow2, N.shiftr_lor, N.shiftr_shiftl_l, N.sub_diag, N.shiftl_0_r by apply N.le_refl.
    rewrite N.shiftr_div_pow2, (N.div_small b _ Hb). apply N.lor_0_l.
Qed.

Theorem bytes_of_le bs : Forall (fun b => b < 256) bs -> bytes_of (length bs) (le bs) = bs.
Proof.
  induction 1 as [|b t Hb Ht IH]; [reflexivity|].
  cbn [length bytes_of]. rewrite le_cons, (cons_mod 8), (cons_div 8), IH by exact Hb. reflexivity.
Qed.

Theorem le_bound bs : Forall (fun b => b < 256) bs -> le bs < 256 ^ N.of_nat (length bs).
Proof.
  induction 1 as [|b t Hb Ht IH]; [reflexivity|].
  cbn [length]. rewrite Nat2N.inj_succ, N.pow_succ_r', le_cons. lia.
Qed.

Theorem le_bytes_of : forall w x, le (bytes_of w x) = x mod 256 ^ N.of_nat w.
Proof.
  induction w as [|w IH]; intros x.
  - cbn [bytes_of le fold_right]. change (256 ^ N.of_nat 0) with 1. rewrite N.mod_1_r. reflexivity.
  - cbn [bytes_of]. rewrite le_cons, IH, Nat2N.inj_succ, N.pow_succ_r'.
    rewrite N.mod_mul_r; [reflexivity|discriminate|]. apply N.pow_nonzero. discriminate.
Qed.

Lemma bytes_of_length : forall w x, length (bytes_of w x) = w.
Proof. induction w as [|w IH]; intros x; cbn [bytes_of length]; [|rewrite IH]; reflexivity. Qed.

Lemma bytes_of_bytes : forall w x, Forall (fun b => b < 256) (bytes_of w x).
Proof.
  induction w as [|w IH]; intros x; cbn [bytes_of]; constructor; [|apply IH].
  apply N.mod_lt. discriminate.
Qed.

Corollary le_bytes_of_small w x : x < 256 ^ N.of_nat w -> le (bytes_of w x) = x.
Proof. intros H. rewrite le_bytes_of. apply N.mod_small. exact H. Qed.

Definition xor_bytes (a b : list N) : list N := map (fun p => N.lxor (fst p) (snd p)) (combine a b).

Theorem le_lxor : forall a b, length a = length b ->
  Forall (fun x => x < 256) a -> Forall (fun x => x < 256) b ->
  N.lxor (le a) (le b) = le (map (fun p => N.lxor (fst p) (snd p)) (combine a b)).
Proof.
  induction a as [|x a IH]; intros [|y b] Hl Ha Hb; try discriminate; [reflexivity|].
  inversion Ha as [|? ? Hx Ha']; subst. inversion Hb as [|? ? Hy Hb']; subst.
  cbn [combine map fst snd]. rewrite !le_cons, (lxor_cons 8) by assumption.
  rewrite IH; [reflexivity| |assumption|assumption]. simpl in Hl. lia.
Qed.

Lemma xor_bytes_length a b : length a = length b -> length (xor_bytes a b) = length a.
Proof. intros H. unfold xor_bytes. rewrite map_length, combine_length. lia. Qed.

Lemma xor_bytes_bytes : forall a b, Forall (fun x => x < 256) a -> Forall (fun x => x < 256) b ->
  Forall (fun x => x < 256) (xor_bytes a b).
Proof.
  induction a as [|x a IH]; intros [|y b] Ha Hb; try constructor.
  - inversion Ha; inversion Hb; subst. apply (lxor_digit 8); assumption.
  - inversion Ha; inversion Hb; subst. apply IH; assumption.
Qed.

Lemma xor_bytes_nth a b k : length a = length b ->
  nth k (xor_bytes a b) 0 = N.lxor (nth k a 0) (nth k b 0).
Proof.
  intros H. unfold xor_bytes.
  change 0 with ((fun p => N.lxor (fst p) (snd p)) (0, 0)) at 1.
  rewrite map_nth, combine_nth by exact H. reflexivity.
Qed.

Lemma pack_from_le : forall l i, Forall (fun b => b < 256) l ->
  pack_from i l = N.shiftl (le l) (8 * N.of_nat i).
Proof.
  induction l as [|b t IH]; intros i H.
  - cbn [pack_from le fold_right]. rewrite N.shiftl_0_l. reflexivity.
  - inversion H as [|? ? Hb Ht]; subst. cbn [pack_from]. rewrite IH by exact Ht.
    rewrite le_cons, <- (lor_shift_cons 8) by exact Hb.
    rewrite N.shiftl_lor, N.shiftl_shiftl. do 2 f_equal. lia.
Qed.

Theorem pack_is_le l : Forall (fun b => b < 256) l -> pack_from 0 l = le l.
Proof. intros H. rewrite pack_from_le by exact H. apply N.shiftl_0_r. Qed.

(* the word operations never leave the word: nothing is lost by the w-byte store *)
Corollary lxor_le_bound a b : length a = length b ->
  Forall (fun x => x < 256) a -> Forall (fun x => x < 256) b ->
  N.lxor (le a) (le b) < 256 ^ N.of_nat (length a).
Proof.
  intros Hl Ha Hb. rewrite le_lxor by assumption. fold (xor_bytes a b).
  rewrite <- (xor_bytes_length a b Hl). apply le_bound. apply xor_bytes_bytes; assumption.
Qed.
Corollary pack_bound l : Forall (fun b => b < 256) l -> pack_from 0 l < 256 ^ N.of_nat (length l).
Proof. intros H. rewrite pack_is_le by exact H. apply le_bound. exact H. Qed.

Example le_example : le [120; 86; 52; 18] = 305419896 (* 0x12345678 *)
  /\ bytes_of 4 305419896 = [120; 86; 52; 18] /\ pack_from 0 [120; 86; 52; 18] = 305419896.
Proof. repeat split; vm_compute; reflexivity. Qed.

Local Close Scope N_scope.

Definition slice (off w : nat) (l : list N) : list N := firstn w (skipn off l).
Definition store (off : nat) (bs l : list N) : list N :=
  firstn off l ++ bs ++ skipn (off + length bs) l.

Lemma slice_length off w l : off + w <= length l -> length (slice off w l) = w.
Proof. intros H. unfold slice. rewrite firstn_length, skipn_length. lia. Qed.
Lemma slice_nth off w l k : k < w -> nth k (slice off w l) 0%N = nth (off + k) l 0%N.
Proof. intros H. unfold slice. rewrite nth_firstn_lt by exact H. apply nth_skipn. Qed.
Lemma slice_bytes off w l : bytes l -> bytes (slice off w l).
Proof. intros H. apply Forall_firstn, Forall_skipn, H. Qed.

Lemma store_length off bs l : off + length bs <= length l -> length (store off bs l) = length l.
Proof. intros H. unfold store. rewrite !app_length, firstn_length, skipn_length. lia. Qed.
Lemma store_nth off bs l j : off + length bs <= length l ->
  nth j (store off bs l) 0%N =
  if j <? off then nth j l 0%N else if j <? off + length bs then nth (j - off) bs 0%N else nth j l 0%N.
Proof.
  intros H. unfold store.
  assert (Hf : length (firstn off l) = off) by (rewrite firstn_length; lia).
  destruct (Nat.ltb_spec j off) as [H1|H1].
  - rewrite app_nth1 by lia. apply nth_firstn_lt. exact H1.
  - rewrite app_nth2 by lia. rewrite Hf.
    destruct (Nat.ltb_spec j (off + length bs)) as [H2|H2].
    + rewrite app_nth1 by lia. reflexivity.
    + rewrite app_nth2 by lia. rewrite nth_skipn. f_equal. lia.
Qed.

Lemma word_store_is_upd_range f off w bs dst :
  off + w <= length dst -> length bs = w -> bytes bs ->
  (forall k, k < w -> nth k bs 0%N = f (off + k) (nth (off + k) dst 0%N)) ->
  store off (bytes_of w (le bs)) dst = upd_range f off w dst.
Proof.
  intros Hd <- Hb Hn. rewrite bytes_of_le by exact Hb. apply (nth_ext _ _ 0%N 0%N).
  - rewrite store_length, upd_range_length by lia. reflexivity.
  - intros j _. rewrite store_nth, nth_upd_range by lia.
    destruct (Nat.ltb_spec j off) as [H1|H1], (Nat.leb_spec off j) as [H3|H3]; try lia; [reflexivity|].
    destruct (Nat.ltb_spec j (off + length bs)) as [H2|H2]; [|reflexivity].
    destruct (Nat.ltb_spec j (length dst)) as [H4|H4]; [|lia]. cbn [andb].
    rewrite Hn by lia. replace (off + (j - off)) with j by lia. reflexivity.
Qed.

(* XOR of the word of dst with the words of every operand of a group *)
Definition xor_group (off w : nat) (grp : list (list N)) (a : list N) : list N :=
  fold_left (fun a s => xor_bytes a (slice off w s)) grp a.
Definition group_ok (n : nat) (grp : list (list N)) : Prop :=
  Forall (fun s => n <= length s /\ bytes s) grp.

Lemma group_ok_le n m grp : n <= m -> group_ok m grp -> group_ok n grp.
Proof.
  intros H. apply Forall_impl. intros s [H1 H2]. split; [lia|exact H2].
Qed.

Lemma xor_group_spec off w : forall grp a, length a = w -> bytes a -> group_ok (off + w) grp ->
  fold_left (fun acc s => N.lxor acc (le (slice off w s))) grp (le a) = le (xor_group off w grp a)
  /\ length (xor_group off w grp a) = w /\ bytes (xor_group off w grp a)
  /\ forall k, k < w -> nth k (xor_group off w grp a) 0%N = fx grp (off + k) (nth k a 0%N).
Proof.
  induction grp as [|s grp IH]; intros a Hl Hb Hg.
  - cbn [fold_left xor_group]. repeat split; auto.
  - inversion Hg as [|? ? [Hs1 Hs2] Hg']; subst.
    assert (Hsl : length (slice off (length a) s) = length a) by (apply slice_length; exact Hs1).
    assert (Hsb : bytes (slice off (length a) s)) by (apply slice_bytes; exact Hs2).
    destruct (IH (xor_bytes a (slice off (length a) s))) as (E & L & B & Nt).
    + apply xor_bytes_length. symmetry. exact Hsl.
    + apply xor_bytes_bytes; assumption.
    + exact Hg'.
    + cbn [fold_left]. unfold xor_group in *. cbn [fold_left].
      rewrite le_lxor by (try assumption; symmetry; exact Hsl). fold (xor_bytes a (slice off (length a) s)).
      repeat split; try assumption.
      intros k Hk. rewrite Nt by exact Hk. rewrite xor_bytes_nth by (symmetry; exact Hsl).
      rewrite slice_nth by exact Hk. reflexivity.
Qed.

Theorem word_xor_group_step grp off w dst :
  off + w <= length dst -> bytes dst -> group_ok (off + w) grp ->
  store off (bytes_of w (fold_left (fun acc s => N.lxor acc (le (slice off w s))) grp (le (slice off w dst)))) dst
  = upd_range (fx grp) off w dst.
Proof.
  intros Hd Hb Hg.
  destruct (xor_group_spec off w grp (slice off w dst)) as (E & L & B & Nt);
    [apply slice_length; exact Hd|apply slice_bytes; exact Hb|exact Hg|].
  rewrite E. apply word_store_is_upd_range; try assumption.
  intros k Hk. rewrite Nt, slice_nth by exact Hk. reflexivity.
Qed.

Theorem word_xor_step off w dst src :
  off + w <= length dst -> off + w <= length src ->
  Forall (fun b => (b < 256)%N) dst -> Forall (fun b => (b < 256)%N) src ->
  store off (bytes_of w (N.lxor (le (slice off w dst)) (le (slice off w src)))) dst
  = upd_range (fun i x => N.lxor x (nth i src 0%N)) off w dst.
Proof.
  intros Hd Hs Hbd Hbs.
  exact (word_xor_group_step [src] off w dst Hd Hbd (Forall_cons _ (conj Hs Hbs) (Forall_nil _))).
Qed.

Lemma map_bytes (mulc : N -> N) : (forall x, (mulc x < 256)%N) -> forall l, bytes (map mulc l).
Proof. intros H. induction l as [|x t IH]; cbn [map]; constructor; [apply H|exact IH]. Qed.

Theorem word_addmul_step mulc off w dst src :
  off + w <= length dst -> off + w <= length src ->
  Forall (fun b => (b < 256)%N) dst -> (forall x, (mulc x < 256)%N) ->
  store off (bytes_of w (N.lxor (le (slice off w dst)) (pack_from 0 (map mulc (slice off w src))))) dst
  = upd_range (fmul mulc src) off w dst.
Proof.
  intros Hd Hs Hbd Hm.
  pose proof (slice_length off w dst Hd) as La. pose proof (slice_length off w src Hs) as Ls.
  pose proof (slice_bytes off w dst Hbd) as Ba.
  pose proof (map_bytes mulc Hm (slice off w src)) as Bm.
  assert (Lm : length (slice off w dst) = length (map mulc (slice off w src))) by (rewrite map_length; lia).
  rewrite pack_is_le, le_lxor by assumption.
  fold (xor_bytes (slice off w dst) (map mulc (slice off w src))).
  apply word_store_is_upd_range; [exact Hd|rewrite xor_bytes_length; assumption|apply xor_bytes_bytes; assumption|].
  intros k Hk. rewrite xor_bytes_nth, slice_nth by assumption. unfold fmul. f_equal.
  rewrite (nth_map_lt mulc _ k 0%N), slice_nth by (rewrite ?Ls; exact Hk). reflexivity.
Qed.

(* a w-byte load, and a w-byte store of the value x (truncated to w bytes as the C store does) *)
Definition wload (off w : nat) (l : list N) : N := le (slice off w l).
Definition wstore (off w : nat) (x : N) (l : list N) : list N := store off (bytes_of w x) l.

(* *(UINTw* )(dst+off) ^= *(UINTw* )(s1+off) ^ ... ^ *(UINTw* )(sn+off) *)
Definition word_xor (grp : list (list N)) (off w : nat) (dst : list N) : list N :=
  wstore off w (fold_left (fun acc s => N.lxor acc (wload off w s)) grp (wload off w dst)) dst.
(* tmp = mulc[src[off]] | mulc[src[off+1]]<<8 | ... ;  *(UINTw* )(dst+off) ^= tmp *)
Definition word_addmul (mulc : N -> N) (src : list N) (off w : nat) (dst : list N) : list N :=
  wstore off w (N.lxor (wload off w dst) (pack_from 0 (map mulc (slice off w src)))) dst.

(* word_xor_group_step and word_addmul_step, read on the two operations *)
Theorem word_xor_eq grp off w dst :
  off + w <= length dst -> bytes dst -> group_ok (off + w) grp ->
  word_xor grp off w dst = upd_range (fx grp) off w dst.
Proof. apply word_xor_group_step. Qed.

Theorem word_addmul_eq mulc src off w dst :
  off + w <= length dst -> off + w <= length src -> bytes dst -> (forall x, (mulc x < 256)%N) ->
  word_addmul mulc src off w dst = upd_range (fmul mulc src) off w dst.
Proof. intros. apply word_addmul_step; assumption. Qed.

Lemma upd_range_bytes f off len l :
  (forall i x, (x < 256)%N -> (f i x < 256)%N) -> bytes l -> bytes (upd_range f off len l).
Proof.
  intros Hf Hb. unfold upd_range. generalize 0 as i.
  induction Hb as [|x t Hx Ht IH]; intros i; cbn [upd_range_aux]; constructor; [|apply IH].
  destruct ((off <=? i) && (i <? off + len)); [apply Hf|]; exact Hx.
Qed.
Lemma fx_byte n i : forall grp x, group_ok n grp -> (x < 256)%N -> (fx grp i x < 256)%N.
Proof.
  unfold fx. induction grp as [|s grp IH]; intros x Hg Hx; cbn [fold_left]; [exact Hx|].
  inversion Hg as [|? ? [_ Hs] Hg']; subst. apply IH; [exact Hg'|].
  apply (lxor_digit 8); [exact Hx|apply Forall_nth_default; [exact Hs|reflexivity]].
Qed.
Lemma upd_range_fx_bytes n grp off len l : group_ok n grp -> bytes l -> bytes (upd_range (fx grp) off len l).
Proof. intros Hg. apply upd_range_bytes. intros i x. apply (fx_byte n), Hg. Qed.
Lemma upd_range_fmul_bytes mulc src off len l :
  (forall x, (mulc x < 256)%N) -> bytes l -> bytes (upd_range (fmul mulc src) off len l).
Proof.
  intros Hm. apply upd_range_bytes. intros i x Hx. unfold fmul. apply (lxor_digit 8); [exact Hx|apply Hm].
Qed.

Fixpoint wloop64 (cnt w : nat) (grp : list (list N)) (dst : list N) : list N * nat :=
  match cnt with O => (dst, w) | S c => wloop64 c (S w) grp (word_xor grp (8 * w) 8 dst) end.

Definition wxor_block (size : nat) (grp : list (list N)) (dst : list N) : list N :=
  let s64 := size / 8 in let s32 := size / 4 in let rem := size mod 4 in
  let '(d, w) := wloop64 s64 0 grp dst in
  let off := 8 * w in
  let '(d, off) := if s64 * 2 <? s32 then (word_xor grp off 4 d, off + 4) else (d, off) in
  tail_loop rem 0 off grp d.

Lemma word_xor_in size grp off w dst :
  group_ok size grp -> off + w <= size -> size <= length dst -> bytes dst ->
  word_xor grp off w dst = upd_range (fx grp) off w dst.
Proof. intros Hg Ho Hd Hb. apply word_xor_eq; [lia|exact Hb|apply (group_ok_le _ size); [lia|exact Hg]]. Qed.

Lemma wloop64_eq size grp : group_ok size grp -> forall cnt w dst,
  8 * (w + cnt) <= size -> size <= length dst -> bytes dst ->
  wloop64 cnt w grp dst = loop64 cnt w grp dst.
Proof.
  intros Hg. induction cnt as [|c IH]; intros w dst Hs Hd Hb; cbn [wloop64 loop64]; [reflexivity|].
  rewrite (word_xor_in size) by (try assumption; lia).
  apply IH; [lia|rewrite upd_range_length; exact Hd|exact (upd_range_fx_bytes _ _ _ _ _ Hg Hb)].
Qed.

Theorem wxor_block_eq size grp dst :
  size <= length dst -> bytes dst -> group_ok size grp ->
  wxor_block size grp dst = xor_block size grp dst.
Proof.
  intros Hd Hb Hg. unfold wxor_block, xor_block.
  pose proof (Nat.mul_div_le size 8 ltac:(lia)) as H8. pose proof (Nat.mul_div_le size 4 ltac:(lia)) as H4.
  rewrite (wloop64_eq size grp Hg), loop64_spec by (try assumption; lia). cbn [Nat.add].
  destruct (Nat.ltb_spec (size / 8 * 2) (size / 4)) as [Hlt|Hge]; [|reflexivity].
  rewrite (word_xor_in size); [reflexivity|exact Hg|lia|rewrite upd_range_length; exact Hd|].
  exact (upd_range_fx_bytes _ _ _ _ _ Hg Hb).
Qed.

Definition wadd_to_symbol (dst from : list N) (size : nat) : list N := wxor_block size [from] dst.

Theorem wadd_to_symbol_eq dst from size :
  size <= length dst -> size <= length from -> bytes dst -> bytes from ->
  wadd_to_symbol dst from size = add_to_symbol dst from size.
Proof.
  intros Hd Hf Hbd Hbf. apply wxor_block_eq; [exact Hd|exact Hbd|].
  constructor; [split; assumption|constructor].
Qed.

Lemma xor_block_length size grp dst : length (xor_block size grp dst) = length dst.
Proof. rewrite xor_block_spec. apply upd_range_length. Qed.
Lemma xor_block_bytes size grp dst : group_ok size grp -> bytes dst -> bytes (xor_block size grp dst).
Proof.
  intros Hg Hb. rewrite xor_block_spec. exact (upd_range_fx_bytes _ _ _ _ _ Hg Hb).
Qed.

Fixpoint wtake_groups (g fuel size : nat) (from : list (list N)) (dst : list N) : list N * list (list N) :=
  match fuel with
  | O => (dst, from)
  | S f => if g <=? length from then wtake_groups g f size (skipn g from) (wxor_block size (firstn g from) dst)
           else (dst, from)
  end.
Definition wadd_from_multiple (dst : list N) (from : list (list N)) (size : nat) : list N :=
  let fuel := S (length from) in
  let '(d, fr) := wtake_groups 8 fuel size from dst in
  let '(d, fr) := wtake_groups 4 fuel size fr d in
  let '(d, fr) := wtake_groups 2 fuel size fr d in
  match fr with [] => d | f :: _ => wxor_block size [f] d end.

(* a stage of the grouping loop: what follows it only has to agree on results of the same shape *)
Lemma wtake_groups_eq {T} g size (k k' : list N -> list (list N) -> T) :
  (forall d fr, size <= length d -> bytes d -> group_ok size fr -> k d fr = k' d fr) ->
  forall fuel from dst, size <= length dst -> bytes dst -> group_ok size from ->
  (let '(d, fr) := wtake_groups g fuel size from dst in k d fr) =
  (let '(d, fr) := take_groups g fuel size from dst in k' d fr).
Proof.
  intros Hk. induction fuel as [|f IH]; intros from dst Hd Hb Hg; cbn [wtake_groups take_groups].
  - apply Hk; assumption.
  - destruct (g <=? length from); [|apply Hk; assumption].
    assert (Hg1 : group_ok size (firstn g from)) by (apply Forall_firstn; exact Hg).
    rewrite wxor_block_eq by assumption.
    apply IH; [rewrite xor_block_length; exact Hd|apply xor_block_bytes; assumption|].
    apply Forall_skipn. exact Hg.
Qed.

Theorem wadd_from_multiple_eq dst from size :
  size <= length dst -> bytes dst -> group_ok size from ->
  wadd_from_multiple dst from size = add_from_multiple dst from size.
Proof.
  unfold wadd_from_multiple, add_from_multiple.
  apply wtake_groups_eq. intros d1 f1. apply wtake_groups_eq. intros d2 f2. apply wtake_groups_eq.
  intros d3 [|s r] D3 B3 G3; [reflexivity|].
  inversion G3 as [|? ? [Hs1 Hs2] _]; subst. apply (wadd_to_symbol_eq d3 s size); assumption.
Qed.

Fixpoint wtake_groups_to (g fuel size : nat) (from : list N) (tos done : list (list N)) : list (list N) * list (list N) :=
  match fuel with
  | O => (done, tos)
  | S f => if g <=? length tos
           then wtake_groups_to g f size from (skipn g tos) (done ++ map (wxor_block size [from]) (firstn g tos))
           else (done, tos)
  end.
Definition wadd_to_multiple (tos : list (list N)) (from : list N) (size : nat) : list (list N) :=
  let fuel := S (length tos) in
  let '(dn, ts) := wtake_groups_to 8 fuel size from tos [] in
  let '(dn, ts) := wtake_groups_to 4 fuel size from ts dn in
  let '(dn, ts) := wtake_groups_to 2 fuel size from ts dn in
  match ts with [] => dn | t :: rest => dn ++ wxor_block size [from] t :: rest end.

Lemma wxor_block_map_eq size from ts : size <= length from -> bytes from -> group_ok size ts ->
  map (wxor_block size [from]) ts = map (xor_block size [from]) ts.
Proof.
  intros Hf Hb Hg. induction Hg as [|t ts [Ht1 Ht2] Hg IH]; [reflexivity|].
  cbn [map]. rewrite IH. f_equal. apply (wadd_to_symbol_eq t from size); assumption.
Qed.

Lemma wtake_groups_to_eq {T} g size from (k k' : list (list N) -> list (list N) -> T) :
  size <= length from -> bytes from ->
  (forall dn ts, group_ok size ts -> k dn ts = k' dn ts) ->
  forall fuel tos done, group_ok size tos ->
  (let '(dn, ts) := wtake_groups_to g fuel size from tos done in k dn ts) =
  (let '(dn, ts) := take_groups_to g fuel size from tos done in k' dn ts).
Proof.
  intros Hf Hb Hk. induction fuel as [|f IH]; intros tos done Hg; cbn [wtake_groups_to take_groups_to].
  - apply Hk, Hg.
  - destruct (g <=? length tos); [|apply Hk, Hg].
    rewrite wxor_block_map_eq by (try assumption; apply Forall_firstn; exact Hg).
    apply IH. apply Forall_skipn. exact Hg.
Qed.

Theorem wadd_to_multiple_eq tos from size :
  size <= length from -> bytes from -> group_ok size tos ->
  wadd_to_multiple tos from size = add_to_multiple tos from size.
Proof.
  intros Hf Hb. unfold wadd_to_multiple, add_to_multiple.
  apply wtake_groups_to_eq; try assumption. intros d1 t1. apply wtake_groups_to_eq; try assumption.
  intros d2 t2. apply wtake_groups_to_eq; try assumption.
  intros d3 [|t r] G3; [reflexivity|]. inversion G3 as [|? ? [Ht1 Ht2] ?]; subst.
  do 2 f_equal. apply (wadd_to_symbol_eq t from size); assumption.
Qed.

Local Open Scope Z_scope.
Fixpoint waddmul_main (fuel : nat) (off sz : Z) (mulc : N -> N) (src dst : list N) : list N * Z :=
  match fuel with
  | O => (dst, off)
  | S k => if off <? sz - 15
           then waddmul_main k (off + 16) sz mulc src
                  (word_addmul mulc src (Z.to_nat off + 8) 8 (word_addmul mulc src (Z.to_nat off) 8 dst))
           else (dst, off)
  end.
Definition waddmul_gen (mulc : N -> N) (ftail : nat -> N -> N) (src : list N) (sz : Z) (dst : list N) : list N :=
  let '(d, off) := waddmul_main (Z.to_nat sz) 0 sz mulc src dst in
  addmul_tail 16 off sz ftail d.
Definition waddmul1 (mulc : N -> N) (dst src : list N) (sz : Z) : list N :=
  waddmul_gen mulc (fmul mulc src) src sz dst.
Definition waddmul1_compact (optrow : N -> N) (dst src : list N) (sz : Z) : list N :=
  waddmul_gen optrow (fnib optrow src) src sz dst.

Theorem waddmul_main_eq mulc src sz : (forall x, (mulc x < 256)%N) -> sz <= Z.of_nat (length src) ->
  forall fuel off dst, 0 <= off -> sz <= Z.of_nat (length dst) -> bytes dst ->
  waddmul_main fuel off sz mulc src dst = addmul_main fuel off sz (fmul mulc src) dst.
Proof.
  intros Hm Hs. induction fuel as [|k IH]; intros off dst Hoff Hd Hb; cbn [waddmul_main addmul_main]; [reflexivity|].
  destruct (Z.ltb_spec off (sz - 15)) as [Hlt|Hge]; [|reflexivity].
  rewrite (word_addmul_eq mulc src (Z.to_nat off) 8 dst) by (try assumption; lia).
  rewrite word_addmul_eq; try assumption; try (rewrite ?upd_range_length; lia).
  - apply IH; [lia|rewrite !upd_range_length; exact Hd|].
    apply upd_range_fmul_bytes; [exact Hm|]. apply upd_range_fmul_bytes; [exact Hm|exact Hb].
  - apply upd_range_fmul_bytes; [exact Hm|exact Hb].
Qed.

Theorem waddmul_gen_eq mulc ftail src sz dst :
  (forall x, (mulc x < 256)%N) -> sz <= Z.of_nat (length src) -> sz <= Z.of_nat (length dst) -> bytes dst ->
  waddmul_gen mulc ftail src sz dst = addmul_gen (fmul mulc src) ftail sz dst.
Proof.
  intros Hm Hs Hd Hb. unfold waddmul_gen, addmul_gen.
  rewrite (waddmul_main_eq mulc src sz Hm Hs) by (try assumption; lia). reflexivity.
Qed.

Print Assumptions bytes_of_le.
Print Assumptions le_bound.
Print Assumptions le_bytes_of.
Print Assumptions le_lxor.
Print Assumptions pack_is_le.
Print Assumptions lxor_le_bound.
Print Assumptions pack_bound.
Print Assumptions word_xor_step.
Print Assumptions word_xor_group_step.
Print Assumptions word_addmul_step.
Print Assumptions word_xor_eq.
Print Assumptions word_addmul_eq.
Print Assumptions wxor_block_eq.
Print Assumptions wadd_to_symbol_eq.
Print Assumptions wadd_from_multiple_eq.
Print Assumptions wadd_to_multiple_eq.
Print Assumptions waddmul_main_eq.
Print Assumptions waddmul_gen_eq.
