(* In an LDPC / 2D session the simplification stage of of_finish_decoding never decodes a symbol.

   The C function of_linear_binary_code_simplify_linear_system_with_a_symbol has a branch "only one
   more symbol in the line: decode it and recurse" (MLModel.simplify: the `None => simplify f ...`
   branch; Events.simplify_ev: the only place that appends to the log).  In a session it is never
   taken: the streaming decoder has already consumed every
   equation with exactly one unknown symbol (unless decoding is complete), the preparation sets the
   row counter to the row length, and the injection of a KNOWN symbol does not change the set of
   unknown entries of any row; so when a counter reaches 1 the remaining entry is a known column.
   No hypothesis on the symbol values or on the xor; no hypothesis on fuel or on perm. *)
From Coq Require Import List Arith Bool Lia.
From OFV Require Import ListAux ITModel ITLemmas ITProofs DenseSolve MLModel StableTables Events EventsProofs.
Import ListNotations.

(* the invariant of the simplification: no matrix, no dimensions *)
Section Silent.
Variable Sy : Type. Variable sxor : Sy -> Sy -> Sy. Variable s0 : Sy.
Notation st := (st Sy).

Definition nunk (s : st) (l : list nat) : nat := length (filter (fun c => negb (known s c)) l).

Record MI (s : st) : Prop := {
  mi_len : length (unk s) = length (rws s);
  mi_nd  : forall i, NoDup (nth i (rws s) []);
  mi_cnt : forall i, i < length (rws s) -> getn (unk s) i = length (nth i (rws s) []);
  mi_ns  : forall i, nunk s (nth i (rws s) []) <> 1 }.

Lemma nunk_rm (s : st) c l : known s c = true -> nunk s (rm c l) = nunk s l.
Proof.
  intros Hk. unfold nunk, rm. rewrite filter_filter. f_equal. apply filter_ext. intros x.
  destruct (Nat.eqb_spec x c) as [->|_]; [rewrite Hk|]; reflexivity.
Qed.

Lemma MI_set_fnd (s : st) i : MI s -> MI (set_fnd s i).
Proof. intros [H1 H2 H3 H4]. constructor; assumption. Qed.

(* what the steps of the simplification do to (state, log) on the invariant: nothing to the log, the table
   and the dimensions *)
Definition Quiet (p p' : st * list nat) : Prop :=
  snd p' = snd p /\ tab (fst p') = tab (fst p) /\ r (fst p') = r (fst p) /\ n (fst p') = n (fst p).

Lemma Quiet_refl p : Quiet p p.
Proof. unfold Quiet. auto. Qed.

Lemma Quiet_trans p1 p2 p3 : Quiet p1 p2 -> Quiet p2 p3 -> Quiet p1 p3.
Proof. unfold Quiet. intros (A & B & C & D) (A' & B' & C' & D'). repeat split; congruence. Qed.

(* one row of the loop of simplify: nothing is decoded *)
Lemma srow_ev_silent (rec : st -> nat -> Sy -> option (st * list nat)) c v (s : st) l row p' :
  MI s -> known s c = true -> In c (nth row (rws s) []) ->
  srow_ev Sy sxor rec c v (Some (s, l)) row = Some p' ->
  MI (fst p') /\ Quiet (s, l) p' /\ (forall j, j <> row -> nth j (rws (fst p')) [] = nth j (rws s) []).
Proof.
  intros [H1 H2 H3 H4] Hk Hin H. unfold srow_ev in H. cbv zeta in H.
  set (t := match nth row (ct s) None with Some t => sxor t v | None => v end) in *.
  set (u := getn (unk s) row - 1) in *.
  set (rw := rm c (nth row (rws s) [])) in *.
  assert (Hrow : row < length (rws s)).
  { destruct (Nat.lt_ge_cases row (length (rws s))) as [Hlt|Hge]; [exact Hlt|].
    rewrite nth_overflow in Hin by exact Hge. destruct Hin. }
  assert (Hu : u = length rw).
  { unfold u, rw. rewrite (H3 row Hrow). symmetry. apply filter_remove_nodup; [apply H2|exact Hin]. }
  assert (Hnrw : nunk s rw <> 1) by (unfold rw; rewrite nunk_rm by exact Hk; apply H4).
  set (s1 := set_row s row rw u (Some t)) in *.
  assert (Hrws : forall i, nth i (rws s1) [] = if i =? row then rw else nth i (rws s) []).
  { intros i. cbn [s1 set_row rws]. rewrite upd_same, ListAux.nth_upd.
    apply Nat.ltb_lt in Hrow. rewrite Hrow, andb_true_r. reflexivity. }
  assert (HM1 : MI s1).
  { constructor.
    - cbn [s1 set_row unk rws]. rewrite !ITLemmas.upd_length. exact H1.
    - intros i. rewrite Hrws. destruct (i =? row); [apply NoDup_filter|]; apply H2.
    - intros i Hi. rewrite Hrws. cbn [s1 set_row unk rws] in Hi |- *. rewrite ITLemmas.upd_length in Hi.
      unfold getn. rewrite upd_same, ListAux.nth_upd, H1. apply Nat.ltb_lt in Hrow. rewrite Hrow, andb_true_r.
      destruct (i =? row); [exact Hu|exact (H3 i Hi)].
    - intros i. change (nunk s1 (nth i (rws s1) [])) with (nunk s (nth i (rws s1) [])). rewrite Hrws.
      destruct (i =? row); [exact Hnrw|apply H4]. }
  assert (Hsame : MI s1 /\ Quiet (s, l) (s1, l) /\ (forall j, j <> row -> nth j (rws s1) [] = nth j (rws s) [])).
  { split; [exact HM1|split; [exact (Quiet_refl (s, l))|]]. intros j Hj. rewrite Hrws.
    destruct (Nat.eqb_spec j row); [contradiction|reflexivity]. }
  destruct (u =? 1) eqn:Eu; [|injection H as <-; exact Hsame].
  apply Nat.eqb_eq in Eu. destruct rw as [|c' rest] eqn:Erw; [discriminate|].
  change (tab s1) with (tab s) in H.
  destruct (nth c' (tab s) None) as [w|] eqn:Ec'; [injection H as <-; exact Hsame|].
  (* the row is left with the single entry c', which would be unknown *)
  exfalso. apply Hnrw. rewrite Eu in Hu. destruct rest as [|x rest']; [|discriminate Hu].
  unfold nunk. cbn [filter]. now rewrite (known_none s c' Ec').
Qed.

(* the rows of the loop are distinct and each still holds c when its turn comes *)
Lemma srow_ev_fold_silent (rec : st -> nat -> Sy -> option (st * list nat)) c v :
  forall rows (s : st) l p', NoDup rows -> MI s -> known s c = true ->
  (forall i, In i rows -> In c (nth i (rws s) [])) ->
  fold_left (srow_ev Sy sxor rec c v) rows (Some (s, l)) = Some p' -> MI (fst p') /\ Quiet (s, l) p'.
Proof.
  induction rows as [|a rows IH]; intros s l p' Hnd HM Hk Hrows H; cbn [fold_left] in H.
  - injection H as <-. split; [exact HM|apply Quiet_refl].
  - apply NoDup_cons_iff in Hnd. destruct Hnd as [Hna Hnd].
    destruct (srow_ev Sy sxor rec c v (Some (s, l)) a) as [[s1 l1]|] eqn:E;
      [|rewrite fold_left_None in H by reflexivity; discriminate].
    destruct (srow_ev_silent rec c v s l a _ HM Hk (Hrows a (or_introl eq_refl)) E) as (HM1 & Q1 & O1).
    cbn [fst] in HM1, O1. pose proof Q1 as (_ & T1 & _). cbn [fst] in T1.
    refine ((fun X => conj (proj1 X) (Quiet_trans _ _ _ Q1 (proj2 X))) (IH s1 l1 p' Hnd HM1 _ _ H)).
    + rewrite (known_tab_eq Sy s s1 T1). exact Hk.
    + intros i Hi. rewrite O1; [apply Hrows; right; exact Hi|]. intros ->. exact (Hna Hi).
Qed.

Lemma simplify_ev_quiet fuel (s : st) c v p' : MI s -> known s c = true ->
  simplify_ev sxor fuel s c v = Some p' -> MI (fst p') /\ Quiet (s, []) p'.
Proof.
  intros HM Hk H. destruct fuel as [|f]; [discriminate|].
  rewrite simplify_ev_unfold in H.
  pose proof (rows_with_In Sy s c) as Hin. pose proof (rows_with_nodup Sy s c) as Hnd.
  destruct (rows_with s c) as [|row0 rowsl]; [injection H as <-; split; [exact HM|apply Quiet_refl]|].
  cbv zeta in H. destruct (early_fnd Sy s c) as [i E].
  destruct (if r s <=? c then is_complete s else (false, s)) as [cf se]. cbn [fst snd] in *. subst se.
  destruct cf; [injection H as <-; split; [exact (MI_set_fnd s i HM)|exact (Quiet_refl (s, []))]|].
  exact (srow_ev_fold_silent _ c v _ (set_fnd s i) [] p' Hnd (MI_set_fnd s i HM) Hk Hin H).
Qed.

(* injecting a known column logs nothing, leaves the table alone and keeps the invariant
   (whatever the fuel: the recursive call is never reached) *)
Theorem simplify_ev_no_log fuel (s : st) c v s' l : MI s -> known s c = true ->
  simplify_ev sxor fuel s c v = Some (s', l) ->
  l = [] /\ tab s' = tab s /\ MI s' /\ r s' = r s /\ n s' = n s.
Proof. intros HM Hk H. destruct (simplify_ev_quiet fuel s c v _ HM Hk H) as (A & B & C & D). auto. Qed.

Corollary simplify_no_decode fuel (s : st) c v s' : MI s -> known s c = true ->
  simplify sxor fuel s c v = Some s' -> tab s' = tab s /\ MI s' /\ r s' = r s /\ n s' = n s.
Proof.
  intros HM Hk H. destruct (proj1 (proj2 (simplify_ev_sim Sy sxor fuel s c v)) s' H) as (l & Hl).
  exact (proj2 (simplify_ev_no_log fuel s c v s' l HM Hk Hl)).
Qed.

Lemma inject_ev_silent fuel p c p' : MI (fst p) ->
  inject_ev sxor fuel (Some p) c = Some p' -> MI (fst p') /\ Quiet p p'.
Proof.
  destruct p as [s l]. intros HM H. cbn [inject_ev fst] in *. destruct (nth c (tab s) None) as [v|] eqn:Ec.
  - destruct (simplify_ev sxor fuel s c v) as [[s2 l2]|] eqn:E; [|discriminate]. injection H as <-.
    pose proof (known_some s c v Ec) as Hk.
    destruct (simplify_ev_quiet fuel s c v _ HM Hk E) as (HM2 & El & Q). cbn [snd] in El. subst l2.
    split; [exact HM2|]. split; [apply app_nil_r|exact Q].
  - injection H as <-. split; [exact HM|apply Quiet_refl].
Qed.

Lemma inject_ev_fold_silent fuel cols p p' : MI (fst p) ->
  fold_left (inject_ev sxor fuel) cols (Some p) = Some p' -> MI (fst p') /\ Quiet p p'.
Proof.
  exact (fold_opt_rel (fun p => MI (fst p)) Quiet _ Quiet_refl Quiet_trans (fun _ => eq_refl)
                      (inject_ev_silent fuel) cols p p').
Qed.

(* on the invariant: the whole log of the finish comes from the write-back of the solver *)
Theorem ml_finish_ev_silent_MI fuel perm (s : st) o l : MI (prepar s) ->
  ml_finish_ev sxor s0 fuel perm s = Some (o, l) ->
  l = (if o_solved o
       then filter (fun c => match nth c (tab s) None with None => true | Some _ => false end)
                   (map (fun i => r s + i) (seq 0 (n s - r s)))
       else []).
Proof.
  intros HM H. unfold ml_finish_ev in H. cbv zeta in H. rewrite <- fold_left_app in H.
  destruct (fold_left (inject_ev sxor fuel) _ (Some (prepar s, []))) as [[s1 l1]|] eqn:Hf; [|discriminate].
  destruct (ml_finish sxor s0 fuel perm s) as [o'|]; [|discriminate].
  injection H as <- <-.
  destruct (inject_ev_fold_silent fuel _ (prepar s, []) _ HM Hf) as (_ & El & Et & _).
  cbn [fst snd prepar tab] in El, Et. subst l1. rewrite Et. destruct (o_solved o'); reflexivity.
Qed.

Theorem ml_finish_injection_tab_MI fuel perm (s s1 : st) : MI (prepar s) ->
  fold_left (inject sxor fuel) perm
    (fold_left (inject sxor fuel) (map (fun i => r s + i) (seq 0 (n s - r s))) (Some (prepar s))) = Some s1 ->
  tab s1 = tab s /\ MI s1 /\ r s1 = r s /\ n s1 = n s.
Proof.
  intros HM H. rewrite <- fold_left_app in H.
  pose proof (inject_ev_fold_erase Sy sxor fuel (map (fun i => r s + i) (seq 0 (n s - r s)) ++ perm)
                (Some (prepar s, []))) as He.
  cbn [erase] in He. rewrite H in He. apply erase_some in He. destruct He as (l & Hl).
  destruct (inject_ev_fold_silent fuel _ (prepar s, []) _ HM Hl) as (HM1 & _ & A). exact (conj (proj1 A) (conj HM1 (proj2 A))).
Qed.
End Silent.

Section Session.
Variable Sy : Type. Variable sxor : Sy -> Sy -> Sy. Variable s0 : Sy.
Notation st := (st Sy).
Variable H0 : list (list nat).
Variable R0 N0 : nat.
Hypothesis H0_len : length H0 = R0.
Hypothesis H0_nodup : forall i, i < R0 -> NoDup (nth i H0 []).
Hypothesis H0_range : forall i c, i < R0 -> In c (nth i H0 []) -> c < N0.
Hypothesis H0_deg : forall i, i < R0 -> 2 <= length (nth i H0 []).
Hypothesis R_le_N : R0 <= N0.

Notation WF := (WF Sy R0 N0).
Notation Good := (Good Sy H0 R0 N0).
Notation iscomp := (iscomp Sy R0 N0).

Lemma good_row_shape (s : st) : Good s -> ~ iscomp s -> forall i,
  (i < R0 /\ nth i (rws s) [] = nth i H0 [] /\ 2 <= length (Urow H0 (known s) i)) \/ nth i (rws s) [] = [].
Proof.
  intros (W & HG) Hnc i. destruct HG as [Hc|(HI & HN)]; [contradiction|].
  destruct (Nat.lt_ge_cases i R0) as [Hi|Hi];
    [|right; apply nth_overflow; rewrite (wf_rws Sy R0 N0 s W); exact Hi].
  pose proof (HI i Hi) as Hrow. pose proof (HN i Hi) as Hnr. unfold rowinv in Hrow. unfold ready1 in Hnr.
  destruct (nth i (ct s) None) as [t|] eqn:Ect.
  - right. destruct Hrow as (A & B & _ & _).
    destruct (nth i (rws s) []) as [|x [|y rest]] eqn:Er; [reflexivity| |].
    + exfalso. apply Hnr. split; [discriminate|reflexivity].
    + exfalso. rewrite <- A in B. cbn [length] in B. lia.
  - destruct Hrow as [(A & _ & _ & D)|(A & _)]; [left; auto|right; exact A].
Qed.

Lemma good_nunk (s : st) : Good s -> ~ iscomp s -> forall i, nunk Sy s (nth i (rws s) []) <> 1.
Proof.
  intros HG Hnc i. unfold nunk. destruct (good_row_shape s HG Hnc i) as [(_ & A & D)|A]; rewrite A.
  - change (filter (fun c => negb (known s c)) (nth i H0 [])) with (Urow H0 (known s) i). lia.
  - cbn [filter length]. lia.
Qed.

(* the streaming decoder leaves no equation with exactly one unknown symbol *)
Theorem good_no_single (s : st) : Good s -> ~ iscomp s -> forall i, i < R0 ->
  length (filter (fun c => negb (known s c)) (nth i (rws s) [])) <> 1.
Proof. intros HG Hnc i _. exact (good_nunk s HG Hnc i). Qed.

Lemma not_complete_flag (s : st) : WF s -> fst (is_complete s) = false -> ~ iscomp s.
Proof.
  intros W Hf Hc. pose proof (is_complete_spec Sy H0 R0 N0 H0_len R_le_N s W) as Hs.
  destruct (is_complete s) as [b sx]. cbn [fst] in Hf. destruct Hs as (_ & _ & _ & _ & _ & _ & Hb).
  apply Hb in Hc. congruence.
Qed.

Lemma good_prepar_MI (s : st) : Good s -> ~ iscomp s -> MI Sy (prepar s).
Proof.
  intros HG Hnc. constructor.
  - cbn [prepar unk rws]. apply map_length.
  - intros i. cbn [prepar rws].
    destruct (good_row_shape s HG Hnc i) as [(Hi & A & _)|A]; rewrite A; [exact (H0_nodup i Hi)|constructor].
  - intros i _. cbn [prepar unk rws]. unfold getn. apply nth_map_length.
  - exact (good_nunk s HG Hnc).
Qed.

(* the callback log of of_finish_decoding consists only of the sources recovered by the Gaussian
   elimination, in increasing ESI order; the simplification contributes nothing.
   Any fuel, any perm. *)
Theorem ml_finish_ev_simplification_silent fuel perm (s : st) o l : Good s -> ~ iscomp s ->
  ml_finish_ev sxor s0 fuel perm s = Some (o, l) ->
  l = (if o_solved o
       then filter (fun c => match nth c (tab s) None with None => true | Some _ => false end)
                   (map (fun i => R0 + i) (seq 0 (N0 - R0)))
       else []).
Proof.
  intros HG Hnc H. pose proof (proj1 HG) as W.
  rewrite <- (wf_r Sy R0 N0 s W), <- (wf_n Sy R0 N0 s W).
  exact (ml_finish_ev_silent_MI Sy sxor s0 fuel perm s o l (good_prepar_MI s HG Hnc) H).
Qed.

Lemma run_good fuel0 (hist : list (nat * Sy)) (s : st) : (forall ev, In ev hist -> fst ev < N0) ->
  run Sy sxor s0 H0 R0 N0 fuel0 hist = Some s -> Good s.
Proof.
  intros Hr Hrun. destruct (init_good Sy sxor s0 H0 R0 N0 H0_len H0_deg R_le_N) as (G0 & K0).
  destruct (fold_good Sy sxor s0 H0 R0 N0 H0_len H0_nodup H0_range H0_deg R_le_N fuel0 (fun _ => True) hist
              (init Sy R0 N0 H0) s) as (G & _); auto.
  apply Sound_top.
Qed.

(* with the flag the C tests *)
Corollary run_no_single fuel0 (hist : list (nat * Sy)) (s : st) : (forall ev, In ev hist -> fst ev < N0) ->
  run Sy sxor s0 H0 R0 N0 fuel0 hist = Some s -> fst (is_complete s) = false -> forall i, i < R0 ->
  length (filter (fun c => negb (known s c)) (nth i (rws s) [])) <> 1.
Proof.
  intros Hr Hrun Hf. pose proof (run_good fuel0 hist s Hr Hrun) as HG.
  exact (good_no_single s HG (not_complete_flag s (proj1 HG) Hf)).
Qed.

Corollary ml_finish_ev_simplification_silent_run fuel0 (hist : list (nat * Sy)) (s : st) fuel perm o l :
  (forall ev, In ev hist -> fst ev < N0) ->
  run Sy sxor s0 H0 R0 N0 fuel0 hist = Some s -> fst (is_complete s) = false ->
  ml_finish_ev sxor s0 fuel perm s = Some (o, l) ->
  l = (if o_solved o
       then filter (fun c => match nth c (tab s) None with None => true | Some _ => false end)
                   (map (fun i => R0 + i) (seq 0 (N0 - R0)))
       else []).
Proof.
  intros Hr Hrun Hf. pose proof (run_good fuel0 hist s Hr Hrun) as HG.
  exact (ml_finish_ev_simplification_silent fuel perm s o l HG (not_complete_flag s (proj1 HG) Hf)).
Qed.

Theorem ml_finish_injection_tab fuel perm (s s1 : st) : Good s -> ~ iscomp s ->
  fold_left (inject sxor fuel) perm
    (fold_left (inject sxor fuel) (map (fun i => r s + i) (seq 0 (n s - r s))) (Some (prepar s))) = Some s1 ->
  tab s1 = tab s.
Proof.
  intros HG Hnc H.
  exact (proj1 (ml_finish_injection_tab_MI Sy sxor fuel perm s s1 (good_prepar_MI s HG Hnc) H)).
Qed.
End Session.

Print Assumptions good_no_single.
Print Assumptions simplify_ev_no_log.
Print Assumptions ml_finish_ev_simplification_silent.
Print Assumptions ml_finish_ev_simplification_silent_run.
Print Assumptions ml_finish_injection_tab.
