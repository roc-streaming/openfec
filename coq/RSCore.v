(* RSCore: a Gallina model of the Reed-Solomon erasure decoding core
   (finish_decoding -> decode: selection of k received symbols, construction of
   the decode matrix, in-place Gauss-Jordan inversion, product with the received
   symbols; three textually parallel copies in the library) at the level of one
   field element per symbol, and the proof that it returns the source elements
   for every code size k <= n <= 2^m and every set of at least k received
   symbols.

   The decode matrix D has row i = e_i when index[i] < k (then index[i] = i) and
   row index[i] of the canonical generator otherwise; uniformly, D[r][c] is the
   Lagrange basis polynomial number c on the k source points evaluated at the
   point of position index[r].  Its inverse is written down explicitly,
   E[i][l] = Lagrange basis polynomial number l on the k SELECTED points
   evaluated at source point i (both products are instances of the
   interpolation lemma rs_interp), so GaussJordan's uniqueness theorem
   identifies the result of the inversion, and the product E * pkt is again an
   instance of the interpolation lemma.  D depends on the positions only, hence
   the inversion succeeds whatever the received values are. *)
From Coq Require Import List Arith NArith Bool Lia.
From OFV Require Import ListAux GF2Poly RSSpec GFField RSCanon RSEnc GaussJordan RSApi RSApiProofs.
Import ListNotations.

Section Select.
  Variable A : Type.

  (* the received symbols of a table segment starting at position e, in
     increasing order of position *)
  Fixpoint somes_from (e : nat) (t : list (option A)) : list (nat * A) :=
    match t with
    | [] => []
    | Some v :: t' => (e, v) :: somes_from (S e) t'
    | None :: t' => somes_from (S e) t'
    end.

  (* for (i = ...; i < k; i++): a received source stays in place, a gap takes
     the next received repair symbol; None when the repair symbols run out *)
  Fixpoint fill_gaps (i : nat) (srcs : list (option A)) (reps : list (nat * A))
    : option (list (nat * A)) :=
    match srcs with
    | [] => Some []
    | Some v :: s' => option_map (cons (i, v)) (fill_gaps (S i) s' reps)
    | None :: s' =>
        match reps with
        | [] => None
        | r :: reps' => option_map (cons r) (fill_gaps (S i) s' reps')
        end
    end.

  (* the k pairs (index[i], pkt[i]); None if fewer than k symbols are available *)
  Definition select (k : nat) (t : list (option A)) : option (list (nat * A)) :=
    if length t <? k then None
    else fill_gaps 0 (firstn k t) (somes_from k (skipn k t)).

  Lemma count_some_le_length : forall t : list (option A), count_some t <= length t.
  Proof.
    intros t. unfold count_some. induction t as [|x t IH].
    - cbn. lia.
    - cbn [filter length]. destruct (is_some x); cbn [length]; lia.
  Qed.

  Lemma count_some_split : forall k (t : list (option A)),
    count_some (firstn k t) + count_some (skipn k t) = count_some t.
  Proof.
    intros k t. unfold count_some. rewrite <- app_length, <- filter_app, firstn_skipn. reflexivity.
  Qed.

  Lemma somes_from_spec : forall t e x, In x (somes_from e t) ->
    e <= fst x < e + length t /\ nth (fst x - e) t None = Some (snd x).
  Proof.
    intros t. induction t as [|o t IH]; intros e x Hin; [destruct Hin|].
    assert (Htl : In x (somes_from (S e) t) ->
                  e <= fst x < e + length (o :: t) /\ nth (fst x - e) (o :: t) None = Some (snd x)).
    { intros H. destruct (IH (S e) x H) as [H1 H2]. cbn [length]. split; [lia|].
      replace (fst x - e) with (S (fst x - S e)) by lia. exact H2. }
    destruct o as [v|]; [|exact (Htl Hin)].
    destruct Hin as [E|Hin]; [|exact (Htl Hin)].
    subst x. cbn [fst snd length]. rewrite Nat.sub_diag. split; [lia|reflexivity].
  Qed.

  Lemma somes_from_NoDup : forall t e, NoDup (map fst (somes_from e t)).
  Proof.
    intros t. induction t as [|[v|] t IH]; intros e; cbn [somes_from map].
    - constructor.
    - constructor; [|apply IH].
      cbn [fst]. intros Hin. apply in_map_iff in Hin. destruct Hin as [x [Ex Hx]].
      apply somes_from_spec in Hx. lia.
    - apply IH.
  Qed.

  Lemma somes_from_length : forall t e, length (somes_from e t) = count_some t.
  Proof.
    intros t. unfold count_some.
    induction t as [|[v|] t IH]; intros e; cbn [somes_from filter is_some length].
    - reflexivity.
    - rewrite IH. reflexivity.
    - apply IH.
  Qed.

  (* one step, read backwards: the head of the result is the source in place or
     the first repair symbol, which is then used up *)
  Lemma fill_gaps_cons : forall i x s reps sel, fill_gaps i (x :: s) reps = Some sel ->
    exists e sel' reps', sel = e :: sel' /\ fill_gaps (S i) s reps' = Some sel' /\
      (x = Some (snd e) /\ fst e = i /\ reps' = reps \/ x = None /\ reps = e :: reps').
  Proof.
    intros i x s reps sel H. cbn [fill_gaps] in H. destruct x as [v|].
    - destruct (fill_gaps (S i) s reps) as [sel'|] eqn:E; [|discriminate H].
      injection H as <-. exists (i, v), sel', reps.
      split; [reflexivity|]. split; [exact E|]. left. repeat split.
    - destruct reps as [|r reps']; [discriminate H|].
      destruct (fill_gaps (S i) s reps') as [sel'|] eqn:E; [|discriminate H].
      injection H as <-. exists r, sel', reps'.
      split; [reflexivity|]. split; [exact E|]. right. split; reflexivity.
  Qed.

  (* entry j of the result is source i + j in place or a repair symbol; the
     positions are distinct when those of the repair symbols are, and lie
     beyond the sources *)
  Lemma fill_gaps_spec : forall srcs i reps sel, fill_gaps i srcs reps = Some sel ->
    NoDup (map fst reps) -> (forall r, In r reps -> i + length srcs <= fst r) ->
    length sel = length srcs /\ NoDup (map fst sel) /\
    forall j d, j < length srcs ->
      (fst (nth j sel d) = i + j /\ nth j srcs None = Some (snd (nth j sel d)))
      \/ In (nth j sel d) reps.
  Proof.
    intros srcs. induction srcs as [|x s IH]; intros i reps sel H ND Hge.
    - injection H as <-. split; [reflexivity|]. split; [constructor|].
      intros j d Hj. cbn [length] in Hj. lia.
    - destruct (fill_gaps_cons _ _ _ _ _ H) as (e & sel' & reps' & -> & H' & Hx).
      cbn [length] in *.
      assert (Hsub : forall r, In r reps' -> In r reps).
      { intros r Hr. destruct Hx as [(_ & _ & ->)|(_ & ->)]; [exact Hr|right; exact Hr]. }
      destruct (IH (S i) reps' sel' H') as (HL & NDs & HP).
      { destruct Hx as [(_ & _ & ->)|(_ & ->)]; [exact ND|].
        cbn [map] in ND. apply NoDup_cons_iff in ND. exact (proj2 ND). }
      { intros r Hr. apply Hsub, Hge in Hr. lia. }
      split; [rewrite HL; reflexivity|]. split.
      + cbn [map]. constructor; [|exact NDs].
        intros Hin. apply in_map_iff in Hin. destruct Hin as (y & Ey & Hy).
        destruct (In_nth sel' y y Hy) as (j & Hj & Ej). rewrite HL in Hj.
        destruct (HP j y Hj) as [[H1 _]|H1]; rewrite Ej in H1.
        * destruct Hx as [(_ & Ei & _)|(_ & ->)]; [lia|].
          pose proof (Hge e (or_introl eq_refl)). lia.
        * destruct Hx as [(_ & Ei & ->)|(_ & ->)].
          -- apply Hge in H1. lia.
          -- cbn [map] in ND. apply NoDup_cons_iff in ND. apply (proj1 ND).
             rewrite <- Ey. apply in_map. exact H1.
      + intros [|j] d Hj; cbn [nth].
        * destruct Hx as [(Ex & Ei & _)|(_ & ->)]; [left|right; left; reflexivity].
          split; [lia|exact Ex].
        * destruct (HP j d) as [[H1 H2]|H1]; [lia|left|right; apply Hsub; exact H1].
          split; [lia|exact H2].
  Qed.

  Lemma fill_gaps_none_iff : forall srcs i reps,
    fill_gaps i srcs reps = None <-> count_some srcs + length reps < length srcs.
  Proof.
    assert (Hom : forall (X Y : Type) (f : X -> Y) o, option_map f o = None <-> o = None).
    { intros X Y f [y|]; cbn [option_map]; split; congruence. }
    intros srcs. unfold count_some.
    induction srcs as [|[v|] s IH]; intros i reps; cbn [fill_gaps filter is_some length].
    - split; [discriminate|lia].
    - rewrite Hom, IH. lia.
    - pose proof (count_some_le_length s) as Hle. unfold count_some in Hle.
      destruct reps as [|r reps']; cbn [length].
      + split; [lia|reflexivity].
      + rewrite Hom, IH. lia.
  Qed.

  Theorem select_none_iff : forall k t, select k t = None <-> count_some t < k.
  Proof.
    intros k t. unfold select.
    pose proof (count_some_le_length t) as Hle. pose proof (count_some_split k t) as Hs.
    destruct (Nat.ltb_spec (length t) k) as [Hlt|Hge].
    - split; [lia|reflexivity].
    - rewrite fill_gaps_none_iff, firstn_length_le, somes_from_length by exact Hge. lia.
  Qed.

  Theorem select_some : forall k t, k <= count_some t -> exists sel, select k t = Some sel.
  Proof.
    intros k t H. destruct (select k t) as [sel|] eqn:E; [exists sel; reflexivity|].
    apply select_none_iff in E. lia.
  Qed.

  (* the selected positions: k distinct positions of received symbols, position
     number j is j itself (a received source) or a repair position *)
  Theorem select_spec : forall k t sel, select k t = Some sel ->
    length sel = k /\ NoDup (map fst sel) /\
    forall j d, j < k ->
      fst (nth j sel d) < length t /\
      nth (fst (nth j sel d)) t None = Some (snd (nth j sel d)) /\
      (fst (nth j sel d) = j \/ k <= fst (nth j sel d)).
  Proof.
    intros k t sel H. unfold select in H.
    destruct (Nat.ltb_spec (length t) k) as [Hlt|Hge]; [discriminate H|].
    assert (HLf : length (firstn k t) = k) by (apply firstn_length_le; exact Hge).
    destruct (fill_gaps_spec _ _ _ _ H (somes_from_NoDup _ _)) as (HL & ND & HP).
    { intros r Hr. apply somes_from_spec in Hr. lia. }
    rewrite HLf in HL, HP. split; [exact HL|]. split; [exact ND|].
    intros j d Hj. destruct (HP j d Hj) as [[H1 H2]|H3].
    - cbn [Nat.add] in H1. rewrite H1. split; [lia|]. split; [|left; reflexivity].
      rewrite <- H2. symmetry. apply nth_firstn_lt. exact Hj.
    - apply somes_from_spec in H3. destruct H3 as [H3 H4].
      rewrite skipn_length in H3. split; [lia|]. split; [|right; lia].
      rewrite nth_skipn in H4.
      replace (k + (fst (nth j sel d) - k)) with (fst (nth j sel d)) in H4 by lia.
      exact H4.
  Qed.
End Select.
Arguments somes_from {A} e t.
Arguments fill_gaps {A} i srcs reps.
Arguments select {A} k t.

Section Model.
  Variables (m p : N) (mul : N -> N -> N) (inv : N -> N).

  (* row j of the generator: G[j][0..k-1] *)
  Definition gen_rowN (k j : nat) : list N :=
    map (fun c => coefN m p mul inv k c j) (seq 0 k).

  (* build_decode_matrix: row i := e_i if index[i] < k, else G[index[i]] *)
  Definition dmatrix (k : nat) (idx : list nat) : list (list N) :=
    map (fun i => let j := nth i idx 0 in
                  if j <? k then unit_row N 0%N 1%N k i else gen_rowN k j)
        (seq 0 k).

  Definition mvdot (k : nat) (row v : list N) : N :=
    xorl (map (fun c => mul (nth c row 0%N) (nth c v 0%N)) (seq 0 k)).

  (* the k source elements after decoding *)
  Definition rs_coreN (k n : nat) (t : list (option N)) : option (list N) :=
    match select k (firstn n t) with
    | None => None
    | Some sel =>
        let idx := map fst sel in
        let pkt := map snd sel in
        match invert_matN mul inv k (dmatrix k idx) with
        | None => None
        | Some M =>
            Some (map (fun i => if nth i idx 0 <? k then nth i pkt 0%N
                                else mvdot k (nth i M []) pkt)
                      (seq 0 k))
        end
    end.

  Lemma gen_rowN_gen_row : forall k j,
    gen_rowN k j = gen_row m p mul (invdens m p mul inv k) k j.
  Proof.
    intros k j. symmetry. apply gen_row_coefs.
  Qed.
End Model.

Section Interp.
  Variable F : Type.
  Variables (zero one : F) (add mul : F -> F -> F) (opp inv : F -> F).

  Hypothesis eq_dec : forall a b : F, {a = b} + {a <> b}.
  Hypothesis add_comm : forall a b, add a b = add b a.
  Hypothesis add_assoc : forall a b c, add a (add b c) = add (add a b) c.
  Hypothesis add_0_l : forall a, add zero a = a.
  Hypothesis add_opp_r : forall a, add a (opp a) = zero.
  Hypothesis mul_comm : forall a b, mul a b = mul b a.
  Hypothesis mul_assoc : forall a b c, mul a (mul b c) = mul (mul a b) c.
  Hypothesis mul_1_l : forall a, mul one a = a.
  Hypothesis mul_add_distr_l : forall a b c, mul a (add b c) = add (mul a b) (mul a c).
  Hypothesis mul_inv_r : forall a, a <> zero -> mul a (inv a) = one.

  Local Notation fsum := (sum F zero add).
  Local Notation pe := (peval F zero add mul).
  Local Notation flagr := (lagr F zero one add mul opp inv).
  Local Notation frs := (rs_sym F zero one add mul opp inv).
  Local Notation frs_poly := (rs_poly F zero one add mul opp inv).

  Theorem rs_interp : forall (xs P : list F) (x : F),
    NoDup xs -> length P = length xs ->
    fsum (map (fun l => mul (flagr xs l x) (pe P (nth l xs zero))) (seq 0 (length xs)))
    = pe P x.
  Proof.
    intros xs P x ND HL.
    pose proof (peval_rs_poly F zero one add mul opp inv add_comm add_assoc add_0_l
                  add_opp_r mul_comm mul_assoc mul_1_l mul_add_distr_l xs (map (pe P) xs)) as Hrs.
    transitivity (frs xs (map (pe P) xs) x).
    { unfold rs_sym. apply sum_map_ext_in. intros l Hl. apply in_seq in Hl.
      rewrite (nth_map_lt (pe P) xs l zero zero) by lia. apply mul_comm. }
    (* the interpolating polynomial and P have length k and agree on the k points *)
    rewrite <- Hrs. f_equal.
    apply (peval_inj F zero one add mul opp inv eq_dec add_comm add_assoc add_0_l
             add_opp_r mul_comm mul_assoc mul_1_l mul_add_distr_l mul_inv_r _ _ xs).
    - rewrite rs_poly_length. symmetry. exact HL.
    - exact ND.
    - rewrite rs_poly_length. lia.
    - intros y Hy. destruct (In_nth xs y zero Hy) as [j [Hj Ey]]. subst y.
      rewrite Hrs.
      rewrite (rs_systematic F zero one add mul opp inv add_comm add_assoc add_0_l
                 add_opp_r mul_comm mul_assoc mul_1_l mul_add_distr_l mul_inv_r
                 xs (map (pe P) xs) j ND (map_length _ _) Hj).
      apply (nth_map_lt (pe P) xs j zero zero). exact Hj.
  Qed.
End Interp.

Lemma wf_entries : forall k (a : nat -> nat -> N),
  wfN k (map (fun i => map (a i) (seq 0 k)) (seq 0 k)).
Proof.
  intros k a. apply wf_map_seq. intros i _. rewrite map_length, seq_length. reflexivity.
Qed.

Lemma below_entries : forall q k (a : nat -> nat -> N),
  (forall i j, i < k -> j < k -> (a i j < q)%N) ->
  belowN q (map (fun i => map (a i) (seq 0 k)) (seq 0 k)).
Proof.
  intros q k a H. unfold belowN. rewrite Forall_map. apply Forall_forall. intros i Hi.
  rewrite Forall_map. apply Forall_forall. intros j Hj. apply in_seq in Hi, Hj. apply H; lia.
Qed.

Lemma get_entries : forall k (a : nat -> nat -> N) i j, i < k -> j < k ->
  get N 0%N (map (fun i => map (a i) (seq 0 k)) (seq 0 k)) i j = a i j.
Proof. intros k a i j Hi Hj. unfold get. rewrite !nth_map_seq by assumption. reflexivity. Qed.

Lemma mmulN_entries : forall (mulN : N -> N -> N) k (a : nat -> nat -> N) (Dm : list (list N)),
  wfN k Dm ->
  mmulN mulN (map (fun i => map (a i) (seq 0 k)) (seq 0 k)) Dm
  = map (fun i => map (fun j => xorl (map (fun l => mulN (a i l) (get N 0%N Dm l j)) (seq 0 k)))
                      (seq 0 k))
        (seq 0 k).
Proof.
  intros mulN k a Dm [HL HF]. unfold mmulN, mmul. rewrite map_map.
  apply map_ext_in. intros i Hi. apply in_seq in Hi. rewrite HL.
  assert (H0 : length (nth 0 Dm []) = k).
  { rewrite Forall_forall in HF. apply HF. apply nth_In. lia. }
  rewrite H0. apply map_ext_in. intros j Hj.
  unfold dot, sum, xorl. f_equal. apply map_ext_in. intros l Hl. apply in_seq in Hl.
  rewrite nth_map_seq by lia. reflexivity.
Qed.

Theorem rs_coreN_none : forall m p mulN invN k n (t : list (option N)),
  length t = n -> count_some t < k -> rs_coreN m p mulN invN k n t = None.
Proof.
  intros m p mulN invN k n t HL Hc. unfold rs_coreN.
  rewrite firstn_all2 by lia. rewrite (proj2 (select_none_iff N k t) Hc). reflexivity.
Qed.

Section Core.
  Variables (m p : N) (mulN : N -> N -> N) (invN : N -> N).
  Variable q : N.
  Variable qn : nat.
  Variable G : Type.
  Variables (zero one : G) (add mul : G -> G -> G) (opp inv : G -> G).

  Hypothesis eq_dec : forall a b : G, {a = b} + {a <> b}.
  Hypothesis add_comm : forall a b, add a b = add b a.
  Hypothesis add_assoc : forall a b c, add a (add b c) = add (add a b) c.
  Hypothesis add_0_l : forall a, add zero a = a.
  Hypothesis add_opp_r : forall a, add a (opp a) = zero.
  Hypothesis mul_comm : forall a b, mul a b = mul b a.
  Hypothesis mul_assoc : forall a b c, mul a (mul b c) = mul (mul a b) c.
  Hypothesis mul_1_l : forall a, mul one a = a.
  Hypothesis mul_add_distr_l : forall a b c, mul a (add b c) = add (mul a b) (mul a c).
  Hypothesis mul_inv_r : forall a, a <> zero -> mul a (inv a) = one.
  Hypothesis one_neq_zero : one <> zero.

  Variable phi : G -> N.
  Variable psi : N -> G.
  Hypothesis phi_zero : phi zero = 0%N.
  Hypothesis phi_one : phi one = 1%N.
  Hypothesis phi_add : forall a b, phi (add a b) = N.lxor (phi a) (phi b).
  Hypothesis phi_mul : forall a b, phi (mul a b) = mulN (phi a) (phi b).
  Hypothesis phi_opp : forall a, phi (opp a) = phi a.
  Hypothesis phi_inv : forall a, phi (inv a) = invN (phi a).
  Hypothesis phi_inj : forall a b, phi a = phi b -> a = b.
  Hypothesis phi_lt : forall a, (phi a < q)%N.
  Hypothesis phi_psi : forall a, (a < q)%N -> phi (psi a) = a.
  Hypothesis pt_lt : forall j, j < qn -> (rs_point m p j < q)%N.
  Hypothesis pt_inj : forall i j, i < qn -> j < qn ->
    rs_point m p i = rs_point m p j -> i = j.

  Local Notation pt := (rs_point m p).
  Local Notation ltq := (fun a : N => (a < q)%N).
  Local Notation lagrG := (lagr G zero one add mul opp inv).
  Local Notation lagr_polyG := (lagr_poly G zero one add mul opp inv).
  Local Notation rsG := (rs_sym G zero one add mul opp inv).
  Local Notation rs_polyG := (rs_poly G zero one add mul opp inv).
  Local Notation sumG := (sum G zero add).
  Local Notation peG := (peval G zero add mul).
  Local Notation ptsK := (ptsG m p G psi).
  Local Notation coef := (coefN m p mulN invN).
  Local Notation elem := (elemN m p mulN invN).
  Local Notation dmat := (dmatrix m p mulN invN).
  Local Notation core := (rs_coreN m p mulN invN).

  Local Notation c_phi :=
    (coefN_phi m p mulN invN q qn G zero one add mul opp inv eq_dec add_comm add_assoc
       add_0_l add_opp_r mul_comm mul_assoc mul_1_l mul_add_distr_l mul_inv_r one_neq_zero
       phi psi phi_zero phi_one phi_add phi_mul phi_opp phi_inv phi_psi pt_lt pt_inj).
  Local Notation c_lt :=
    (coefN_lt m p mulN invN q qn G zero one add mul opp inv eq_dec add_comm add_assoc
       add_0_l add_opp_r mul_comm mul_assoc mul_1_l mul_add_distr_l mul_inv_r one_neq_zero
       phi psi phi_zero phi_one phi_add phi_mul phi_opp phi_inv phi_lt phi_psi pt_lt pt_inj).
  Local Notation c_sys :=
    (coefN_systematic m p mulN invN q qn G zero one add mul opp inv eq_dec add_comm add_assoc
       add_0_l add_opp_r mul_comm mul_assoc mul_1_l mul_add_distr_l mul_inv_r one_neq_zero
       phi psi phi_zero phi_one phi_add phi_mul phi_opp phi_inv phi_inj phi_lt phi_psi
       pt_lt pt_inj).
  Local Notation e_phi :=
    (elemN_phi m p mulN invN q qn G zero one add mul opp inv eq_dec add_comm add_assoc
       add_0_l add_opp_r mul_comm mul_assoc mul_1_l mul_add_distr_l mul_inv_r one_neq_zero
       phi psi phi_zero phi_one phi_add phi_mul phi_opp phi_inv phi_psi pt_lt pt_inj).
  Local Notation e_sys :=
    (elemN_systematic m p mulN invN q qn G zero one add mul opp inv eq_dec add_comm add_assoc
       add_0_l add_opp_r mul_comm mul_assoc mul_1_l mul_add_distr_l mul_inv_r one_neq_zero
       phi psi phi_zero phi_one phi_add phi_mul phi_opp phi_inv phi_inj phi_lt phi_psi
       pt_lt pt_inj).
  Local Notation interp :=
    (rs_interp G zero one add mul opp inv eq_dec add_comm add_assoc add_0_l add_opp_r
       mul_comm mul_assoc mul_1_l mul_add_distr_l mul_inv_r).
  Local Notation pe_lagr :=
    (peval_lagr_poly G zero one add mul opp inv add_comm add_assoc add_0_l add_opp_r
       mul_comm mul_assoc mul_1_l mul_add_distr_l).
  Local Notation pe_rs :=
    (peval_rs_poly G zero one add mul opp inv add_comm add_assoc add_0_l add_opp_r
       mul_comm mul_assoc mul_1_l mul_add_distr_l).

  Definition good_idx (k n : nat) (idx : list nat) : Prop :=
    length idx = k /\ NoDup idx /\
    forall j, j < k -> nth j idx 0 < n /\ (nth j idx 0 = j \/ k <= nth j idx 0).

  (* the selected evaluation points *)
  Definition xsG (idx : list nat) : list G := map (fun j => psi (pt j)) idx.

  (* the inverse of the decode matrix *)
  Definition einv (idx : list nat) (i l : nat) : N := phi (lagrG (xsG idx) l (psi (pt i))).
  Definition EN (k : nat) (idx : list nat) : list (list N) :=
    map (fun i => map (einv idx i) (seq 0 k)) (seq 0 k).

  Lemma xsG_length : forall idx, length (xsG idx) = length idx.
  Proof. intros idx. unfold xsG. apply map_length. Qed.

  Lemma nth_xsG : forall idx l, l < length idx ->
    nth l (xsG idx) zero = psi (pt (nth l idx 0)).
  Proof.
    intros idx l Hl. unfold xsG.
    exact (nth_map_lt (fun j => psi (pt j)) idx l 0 zero Hl).
  Qed.

  Lemma good_idx_lt : forall k n idx j, good_idx k n idx -> In j idx -> j < n.
  Proof.
    intros k n idx j [HL [_ HP]] Hin.
    destruct (In_nth idx j 0 Hin) as [i [Hi Ei]]. rewrite HL in Hi.
    rewrite <- Ei. apply (HP i Hi).
  Qed.

  Lemma good_idx_le : forall k n idx, good_idx k n idx -> k <= n.
  Proof.
    intros k n idx Hg. rewrite <- (proj1 Hg), <- (seq_length n 0).
    apply NoDup_incl_length; [exact (proj1 (proj2 Hg))|].
    intros j Hj. apply in_seq. pose proof (good_idx_lt k n idx j Hg Hj). lia.
  Qed.

  Lemma xsG_NoDup : forall k n idx, good_idx k n idx -> n <= qn -> NoDup (xsG idx).
  Proof.
    intros k n idx Hg Hn. unfold xsG.
    apply (NoDup_psi_pt m p q qn G phi psi phi_psi pt_lt pt_inj).
    - exact (proj1 (proj2 Hg)).
    - intros j Hj. pose proof (good_idx_lt k n idx j Hg Hj). lia.
  Qed.

  Lemma coef_phi_pe : forall k c j, k <= qn -> c < k -> j < qn ->
    coef k c j = phi (peG (lagr_polyG (ptsK k) c) (psi (pt j))).
  Proof.
    intros k c j Hk Hc Hj. rewrite pe_lagr. apply c_phi; assumption.
  Qed.

  (* row i of E applied to the values at the selected points of a polynomial
     of length k is the value of the polynomial at source point i *)
  Lemma EN_interp : forall k n idx (P : list G) (f : nat -> N) i,
    good_idx k n idx -> n <= qn -> length P = k ->
    (forall l, l < k -> f l = phi (peG P (psi (pt (nth l idx 0))))) ->
    xorl (map (fun l => mulN (einv idx i l) (f l)) (seq 0 k)) = phi (peG P (psi (pt i))).
  Proof.
    intros k n idx P f i Hg Hn HP Hf. pose proof (proj1 Hg) as HL.
    rewrite <- (interp (xsG idx) P (psi (pt i)) (xsG_NoDup k n idx Hg Hn))
      by (rewrite xsG_length; lia).
    rewrite (hom_sum G N zero add 0%N N.lxor phi phi_zero phi_add), map_map, xsG_length, HL.
    unfold xorl, sum. f_equal. apply map_ext_in. intros l Hl. apply in_seq in Hl.
    rewrite phi_mul, nth_xsG, Hf by lia. reflexivity.
  Qed.

  (* the decode matrix: uniformly in the two kinds of rows, entry (l, j)
     is generator coefficient j at position index[l] *)
  Lemma dmatrix_entries : forall k n idx, good_idx k n idx -> n <= qn ->
    dmat k idx = map (fun l => map (fun j => coef k j (nth l idx 0)) (seq 0 k)) (seq 0 k).
  Proof.
    intros k n idx Hg Hn. pose proof (good_idx_le k n idx Hg) as Hk.
    unfold dmatrix. apply map_ext_in. intros l Hl. apply in_seq in Hl. cbv zeta.
    destruct (proj2 (proj2 Hg) l) as [_ Hor]; [lia|].
    destruct (Nat.ltb_spec (nth l idx 0) k) as [Hlt|_]; [|reflexivity].
    replace (nth l idx 0) with l by lia.
    apply map_ext_in. intros j Hj. apply in_seq in Hj.
    rewrite (c_sys k j l) by lia. reflexivity.
  Qed.

  Lemma below_dmatrix : forall k n idx, good_idx k n idx -> n <= qn -> belowN q (dmat k idx).
  Proof.
    intros k n idx Hg Hn. pose proof (good_idx_le k n idx Hg) as Hk.
    rewrite (dmatrix_entries k n idx Hg Hn). apply below_entries. intros l j Hl Hj.
    destruct (proj2 (proj2 Hg) l Hl) as [Hlt _]. apply c_lt; lia.
  Qed.

  Lemma EN_dmatrix : forall k n idx, good_idx k n idx -> n <= qn ->
    mmulN mulN (EN k idx) (dmat k idx) = mIN k.
  Proof.
    intros k n idx Hg Hn. pose proof (good_idx_le k n idx Hg) as Hk.
    rewrite (dmatrix_entries k n idx Hg Hn). unfold EN. rewrite mmulN_entries by apply wf_entries.
    apply map_ext_in. intros i Hi. apply in_seq in Hi.
    apply map_ext_in. intros j Hj. apply in_seq in Hj.
    rewrite (EN_interp k n idx (lagr_polyG (ptsK k) j) _ i Hg Hn).
    - rewrite <- coef_phi_pe, (c_sys k j i) by lia. unfold delta. rewrite Nat.eqb_sym. reflexivity.
    - rewrite lagr_poly_length; rewrite ptsG_length; [reflexivity|lia].
    - intros l Hl. destruct (proj2 (proj2 Hg) l Hl) as [Hlt _].
      rewrite get_entries, coef_phi_pe by lia. reflexivity.
  Qed.

  (* what GaussJordan's transfer theorems ask of the field *)
  Local Notation eqbG := (fun a b : G => N.eqb (phi a) (phi b)).

  Lemma phi_eqb_eq : forall a b, eqbG a b = true <-> a = b.
  Proof.
    intros a b. rewrite N.eqb_eq. split; [apply phi_inj|intros E; rewrite E; reflexivity].
  Qed.

  Lemma phi_add_self : forall a, add a a = zero.
  Proof. intros a. apply phi_inj. rewrite phi_add, phi_zero. apply N.lxor_nilpotent. Qed.

  (* the inversion succeeds and returns E, whatever the received values *)
  Theorem invert_dmatrix : forall k n idx, good_idx k n idx -> n <= qn ->
    invert_matN mulN invN k (dmat k idx) = Some (EN k idx).
  Proof.
    intros k n idx Hg Hn.
    apply (invN_unique mulN invN q G zero one add mul inv eqbG phi_eqb_eq)
      with (phi := phi) (psi := psi); try assumption.
    - exact phi_add_self.
    - rewrite (dmatrix_entries k n idx Hg Hn). apply wf_entries.
    - exact (below_dmatrix k n idx Hg Hn).
    - apply wf_entries.
    - apply below_entries. intros i l _ _. apply phi_lt.
    - exact (EN_dmatrix k n idx Hg Hn).
  Qed.

  Lemma select_good : forall k (t : list (option N)) sel, select k t = Some sel ->
    good_idx k (length t) (map fst sel).
  Proof.
    intros k t sel H. destruct (select_spec N k t sel H) as [HL [ND HP]].
    split; [rewrite map_length; exact HL|]. split; [exact ND|].
    intros j Hj. destruct (HP j (0, 0%N) Hj) as [H1 [_ H3]].
    rewrite <- (map_nth fst) in H1, H3. split; assumption.
  Qed.

  Lemma select_value : forall k (t : list (option N)) sel j, select k t = Some sel -> j < k ->
    nth (nth j (map fst sel) 0) t None = Some (nth j (map snd sel) 0%N).
  Proof.
    intros k t sel j H Hj. destruct (select_spec N k t sel H) as [_ [_ HP]].
    destruct (HP j (0, 0%N) Hj) as [_ [H2 _]].
    rewrite <- (map_nth fst), <- (map_nth snd) in H2. exact H2.
  Qed.

  Theorem core_invertible : forall k n (t : list (option N)) sel,
    n <= qn -> length t = n -> select k t = Some sel ->
    exists M, invert_matN mulN invN k (dmat k (map fst sel)) = Some M /\
              mmulN mulN M (dmat k (map fst sel)) = mIN k /\
              mmulN mulN (dmat k (map fst sel)) M = mIN k.
  Proof.
    intros k n t sel Hn HL Hs.
    pose proof (select_good k t sel Hs) as Hg. rewrite HL in Hg.
    pose proof (invert_dmatrix k n _ Hg Hn) as E.
    exists (EN k (map fst sel)). split; [exact E|].
    apply (invN_sound mulN invN q G zero one add mul inv eqbG phi_eqb_eq)
      with (phi := phi) (psi := psi) in E; try assumption.
    - exact (proj2 (proj2 E)).
    - exact phi_add_self.
    - rewrite (dmatrix_entries k n _ Hg Hn). apply wf_entries.
    - exact (below_dmatrix k n _ Hg Hn).
  Qed.

  Theorem core_total : forall k n (t : list (option N)),
    n <= qn -> length t = n -> k <= count_some t ->
    exists vals, core k n t = Some vals /\ length vals = k.
  Proof.
    intros k n t Hn HL Hc. unfold rs_coreN.
    rewrite firstn_all2 by lia.
    destruct (select_some N k t Hc) as [sel Es]. rewrite Es. cbv zeta.
    pose proof (select_good k t sel Es) as Hg. rewrite HL in Hg.
    rewrite (invert_dmatrix k n (map fst sel) Hg Hn).
    eexists. split; [reflexivity|]. rewrite map_length, seq_length. reflexivity.
  Qed.

  Theorem core_correct : forall k n (src : list N) (t : list (option N)),
    n <= qn -> length src = k -> Forall ltq src -> length t = n ->
    (forall e, e < n -> nth e t None = None \/ nth e t None = Some (elem k src e)) ->
    k <= count_some t ->
    core k n t = Some src.
  Proof.
    intros k n src t Hn HLs HF HL Ht Hc. unfold rs_coreN.
    rewrite firstn_all2 by lia.
    destruct (select_some N k t Hc) as [sel Es]. rewrite Es. cbv zeta.
    pose proof (select_good k t sel Es) as Hg. rewrite HL in Hg.
    assert (Hk : k <= qn) by (pose proof (good_idx_le k n _ Hg); lia).
    rewrite (invert_dmatrix k n (map fst sel) Hg Hn). f_equal.
    set (idx := map fst sel) in *. set (pkt := map snd sel).
    (* the received values are the codeword elements at the selected positions *)
    assert (Hpkt : forall l, l < k -> nth l pkt 0%N = elem k src (nth l idx 0)).
    { intros l Hl. pose proof (select_value k t sel l Es Hl) as Hv.
      fold idx in Hv. fold pkt in Hv.
      destruct (proj2 (proj2 Hg) l Hl) as [Hlt _].
      destruct (Ht (nth l idx 0) Hlt) as [E|E]; rewrite E in Hv;
        [discriminate Hv|]. injection Hv as Hv. symmetry. exact Hv. }
    rewrite <- (map_nth_seq src 0%N), HLs.
    apply map_ext_in. intros i Hi. apply in_seq in Hi. destruct Hi as [_ Hi].
    rewrite <- (e_sys k src i Hk HLs HF Hi).
    destruct (proj2 (proj2 Hg) i Hi) as [_ Hor].
    destruct (Nat.ltb_spec (nth i idx 0) k) as [Hik|Hik].
    - (* a received source *)
      rewrite Hpkt by exact Hi. f_equal. lia.
    - (* a decoded source: row i of E times pkt *)
      unfold EN, mvdot. rewrite nth_map_seq by exact Hi.
      rewrite (e_phi k src i Hk HF), <- pe_rs by lia.
      rewrite <- (EN_interp k n idx _ (fun l => nth l pkt 0%N) i Hg Hn).
      + unfold xorl. f_equal. apply map_ext_in. intros l Hl. apply in_seq in Hl.
        rewrite nth_map_seq by lia. reflexivity.
      + rewrite rs_poly_length. apply ptsG_length.
      + intros l Hl. destruct (proj2 (proj2 Hg) l Hl) as [Hll _].
        rewrite Hpkt, (e_phi k src (nth l idx 0) Hk HF), pe_rs by lia. reflexivity.
  Qed.

  (* the three results together, so that a field is put in once *)
  Definition core_facts := conj core_correct (conj core_total core_invertible).
End Core.

Definition dmatrix256 (k : nat) (idx : list nat) : list (list N) :=
  dmatrix 8 P256 mul256 inv256 k idx.
Definition rs_core256 (k n : nat) (t : list (option N)) : option (list N) :=
  rs_coreN 8 P256 mul256 inv256 k n t.
Definition dmatrix16 (k : nat) (idx : list nat) : list (list N) :=
  dmatrix 4 P16 mul16 inv16 k idx.
Definition rs_core16 (k n : nat) (t : list (option N)) : option (list N) :=
  rs_coreN 4 P16 mul16 inv16 k n t.

(* Section Core at the field GF 256 (resp. GF 16) of GFField.v, represented in N by val, with
   the points rs_point *)
Definition core_facts256 :=
  core_facts 8%N P256 mul256 inv256 256%N 256 (GF 256) F256_zero F256_one F256_add F256_mul F256_opp
    F256_inv F256_eq_dec F256_add_comm F256_add_assoc F256_add_0_l F256_add_opp_r F256_mul_comm
    F256_mul_assoc F256_mul_1_l F256_mul_add_distr_l F256_mul_inv_r F256_one_neq_zero
    (@val 256) of_N256 F256_val_zero F256_val_one F256_val_add F256_val_mul F256_val_opp
    F256_val_inv (val_inj 256) F256_val_lt of_N256_val_lt rs_point256_lt rs_point256_inj.
Definition core_facts16 :=
  core_facts 4%N P16 mul16 inv16 16%N 16 (GF 16) F16_zero F16_one F16_add F16_mul F16_opp
    F16_inv F16_eq_dec F16_add_comm F16_add_assoc F16_add_0_l F16_add_opp_r F16_mul_comm
    F16_mul_assoc F16_mul_1_l F16_mul_add_distr_l F16_mul_inv_r F16_one_neq_zero
    (@val 16) of_N16 F16_val_zero F16_val_one F16_val_add F16_val_mul F16_val_opp
    F16_val_inv (val_inj 16) F16_val_lt of_N16_val_lt rs_point16_lt rs_point16_inj.

(* the table t holds, at a set of at least k positions, the codeword
   elements of src; the core returns src *)
Theorem rs_core256_correct : forall k n (src : list N) (t : list (option N)),
  1 <= k <= n -> n <= 256 -> length src = k -> Forall (fun a => (a < 256)%N) src ->
  length t = n ->
  (forall e, e < n -> nth e t None = None \/ nth e t None = Some (elem256 k src e)) ->
  k <= count_some t ->
  rs_core256 k n t = Some src.
Proof. intros k n src t _. destruct core_facts256 as (correct & _ & _). exact (correct k n src t). Qed.

(* the hypothesis core_ok of RSApiProofs / Properties_C02: the core succeeds
   on EVERY table with at least k entries (the decode matrix depends on the
   positions only) *)
Theorem rs_core256_core_ok : forall k n, n <= 256 ->
  forall t : list (option N), length t = n -> k <= count_some t ->
  exists vals, rs_core256 k n t = Some vals /\ length vals = k.
Proof. intros k n Hn t. destruct core_facts256 as (_ & total & _). exact (total k n t Hn). Qed.

Theorem rs_core256_none : forall k n (t : list (option N)),
  length t = n -> count_some t < k -> rs_core256 k n t = None.
Proof. intros k n. exact (rs_coreN_none 8%N P256 mul256 inv256 k n). Qed.

Theorem rs_core256_total : forall k n (t : list (option N)),
  n <= 256 -> length t = n ->
  (k <= count_some t -> exists vals, rs_core256 k n t = Some vals /\ length vals = k) /\
  (count_some t < k -> rs_core256 k n t = None).
Proof.
  intros k n t Hn HL. split.
  - exact (rs_core256_core_ok k n Hn t HL).
  - exact (rs_core256_none k n t HL).
Qed.

(* the inversion inside the core: the decode matrix of every selection is
   invertible *)
Theorem rs_core256_invertible : forall k n (t : list (option N)) sel,
  n <= 256 -> length t = n -> select k t = Some sel ->
  exists M, invert_mat256 k (dmatrix256 k (map fst sel)) = Some M /\
            mmul256 M (dmatrix256 k (map fst sel)) = mIN k /\
            mmul256 (dmatrix256 k (map fst sel)) M = mIN k.
Proof. destruct core_facts256 as (_ & _ & invertible). exact invertible. Qed.

Theorem rs_core16_correct : forall k n (src : list N) (t : list (option N)),
  1 <= k <= n -> n <= 16 -> length src = k -> Forall (fun a => (a < 16)%N) src ->
  length t = n ->
  (forall e, e < n -> nth e t None = None \/ nth e t None = Some (elem16 k src e)) ->
  k <= count_some t ->
  rs_core16 k n t = Some src.
Proof. intros k n src t _. destruct core_facts16 as (correct & _ & _). exact (correct k n src t). Qed.

Theorem rs_core16_core_ok : forall k n, n <= 16 ->
  forall t : list (option N), length t = n -> k <= count_some t ->
  exists vals, rs_core16 k n t = Some vals /\ length vals = k.
Proof. intros k n Hn t. destruct core_facts16 as (_ & total & _). exact (total k n t Hn). Qed.

Theorem rs_core16_none : forall k n (t : list (option N)),
  length t = n -> count_some t < k -> rs_core16 k n t = None.
Proof. intros k n. exact (rs_coreN_none 4%N P16 mul16 inv16 k n). Qed.

Theorem rs_core16_total : forall k n (t : list (option N)),
  n <= 16 -> length t = n ->
  (k <= count_some t -> exists vals, rs_core16 k n t = Some vals /\ length vals = k) /\
  (count_some t < k -> rs_core16 k n t = None).
Proof.
  intros k n t Hn HL. split.
  - exact (rs_core16_core_ok k n Hn t HL).
  - exact (rs_core16_none k n t HL).
Qed.

(* the API theorems of RSApiProofs with the hypothesis core_ok discharged *)
Theorem rs256_api_finish_truthful :
  forall (cb : bool) (mk : nat -> N -> N) (k n : nat), 1 <= k <= n -> n <= 256 ->
  forall h : list (nat * N), (forall ev, In ev h -> fst ev < n) ->
  let core := fun k' t => rs_core256 k' n t in
  let r := rs_finish core cb mk (run N core cb mk k n h) in
  ((snd r = OK) <-> (rs_is_complete (fst r) = true)) /\
  ((snd r = FAILURE) <-> (rs_is_complete (fst r) = false)) /\
  ((rs_is_complete (fst r) = true) <-> (k <= ndistinct n (map fst h))).
Proof.
  intros cb mk k n [Hk1 Hkn] Hn h Hr core.
  apply rs_finish_truthful_proof; try assumption.
  exact (rs_core256_core_ok k n Hn).
Qed.

Theorem rs16_api_complete_iff_k_distinct :
  forall (cb : bool) (mk : nat -> N -> N) (k n : nat), 1 <= k <= n -> n <= 16 ->
  forall h : list (nat * N), (forall ev, In ev h -> fst ev < n) ->
  (rs_is_complete (run N (fun k' t => rs_core16 k' n t) cb mk k n h) = true
   <-> k <= ndistinct n (map fst h)).
Proof.
  intros cb mk k n [Hk1 Hkn] Hn h Hr.
  apply rs_complete_iff_k_distinct_proof; try assumption.
  exact (rs_core16_core_ok k n Hn).
Qed.

(* k = 2, n = 4 over GF(256): the codeword of [5; 7] is [5; 7; 1; 13] *)
Example cw256_2_4 : map (elem256 2 [5; 7]%N) (seq 0 4) = [5; 7; 1; 13]%N.
Proof. vm_compute. reflexivity. Qed.
(* one source missing: the gap takes the first received repair symbol *)
Example select_2_4 :
  select 2 [None; Some 7; Some 1; Some 13]%N = Some [(2, 1%N); (1, 7%N)].
Proof. vm_compute. reflexivity. Qed.
Example dmatrix256_2_4 : dmatrix256 2 [2; 1] = [[3; 2]; [0; 1]]%N.
Proof. vm_compute. reflexivity. Qed.
Example inv_dmatrix256_2_4 :
  invert_mat256 2 (dmatrix256 2 [2; 1]) = Some [[244; 245]; [0; 1]]%N.
Proof. vm_compute. reflexivity. Qed.
Example core256_2_4_one : rs_core256 2 4 [None; Some 7; Some 1; Some 13]%N = Some [5; 7]%N.
Proof. vm_compute. reflexivity. Qed.
Example core256_2_4_one' : rs_core256 2 4 [Some 5; None; None; Some 13]%N = Some [5; 7]%N.
Proof. vm_compute. reflexivity. Qed.
(* both sources missing *)
Example core256_2_4_two : rs_core256 2 4 [None; None; Some 1; Some 13]%N = Some [5; 7]%N.
Proof. vm_compute. reflexivity. Qed.
(* nothing missing: no inversion result is used *)
Example core256_2_4_zero : rs_core256 2 4 [Some 5; Some 7; None; Some 13]%N = Some [5; 7]%N.
Proof. vm_compute. reflexivity. Qed.
(* fewer than k symbols *)
Example core256_2_4_short : rs_core256 2 4 [None; None; None; Some 13]%N = None.
Proof. vm_compute. reflexivity. Qed.

(* k = 3, n = 6 over GF(256): the codeword of [1; 2; 3] is [1; 2; 3; 21; 105; 204] *)
Example cw256_3_6 : map (elem256 3 [1; 2; 3]%N) (seq 0 6) = [1; 2; 3; 21; 105; 204]%N.
Proof. vm_compute. reflexivity. Qed.
Example core256_3_6_one :
  rs_core256 3 6 [Some 1; None; Some 3; Some 21; Some 105; Some 204]%N = Some [1; 2; 3]%N.
Proof. vm_compute. reflexivity. Qed.
(* two sources missing, the first repair symbol missing too *)
Example select_3_6 :
  select 3 [None; Some 2; None; None; Some 105; Some 204]%N
  = Some [(4, 105%N); (1, 2%N); (5, 204%N)].
Proof. vm_compute. reflexivity. Qed.
Example core256_3_6_two :
  rs_core256 3 6 [None; Some 2; None; None; Some 105; Some 204]%N = Some [1; 2; 3]%N.
Proof. vm_compute. reflexivity. Qed.
Example core256_3_6_two' :
  rs_core256 3 6 [None; None; Some 3; Some 21; None; Some 204]%N = Some [1; 2; 3]%N.
Proof. vm_compute. reflexivity. Qed.
Example core256_3_6_three :
  rs_core256 3 6 [None; None; None; Some 21; Some 105; Some 204]%N = Some [1; 2; 3]%N.
Proof. vm_compute. reflexivity. Qed.
Example dmatrix256_3_6 :
  dmatrix256 3 [3; 1; 5] = [[15; 8; 6]; [0; 1; 0]; [153; 224; 120]]%N /\
  invert_mat256 3 (dmatrix256 3 [3; 1; 5]) = Some [[213; 206; 26]; [0; 1; 0]; [41; 17; 57]]%N.
Proof. split; vm_compute; reflexivity. Qed.
Example core256_3_6_short :
  rs_core256 3 6 [None; Some 2; None; None; None; Some 204]%N = None.
Proof. vm_compute. reflexivity. Qed.

(* k = 3, n = 6 over GF(16): the codeword of [1; 2; 3] is [1; 2; 3; 6; 3; 0] *)
Example cw16_3_6 : map (elem16 3 [1; 2; 3]%N) (seq 0 6) = [1; 2; 3; 6; 3; 0]%N.
Proof. vm_compute. reflexivity. Qed.
Example core16_3_6_two :
  rs_core16 3 6 [None; Some 2; None; Some 6; None; Some 0]%N = Some [1; 2; 3]%N.
Proof. vm_compute. reflexivity. Qed.
Example core16_3_6_three :
  rs_core16 3 6 [None; None; None; Some 6; Some 3; Some 0]%N = Some [1; 2; 3]%N.
Proof. vm_compute. reflexivity. Qed.

Print Assumptions rs_interp.
Print Assumptions select_spec.
Print Assumptions rs_core256_correct.
Print Assumptions rs_core256_core_ok.
Print Assumptions rs_core256_total.
Print Assumptions rs_core256_invertible.
Print Assumptions rs_core16_correct.
Print Assumptions rs_core16_core_ok.
Print Assumptions rs_core16_total.
Print Assumptions rs256_api_finish_truthful.
Print Assumptions rs16_api_complete_iff_k_distinct.
