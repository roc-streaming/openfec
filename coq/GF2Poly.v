(* The specification of the two fields: arithmetic in GF(2)[x]/(p), elements as bit vectors in N (bit i = coefficient of x^i).
   p is given with its leading bit (0x13 = x^4+x+1, 0x11d = x^8+x^4+x^3+x^2+1). *)
From Coq Require Import NArith Arith List Bool Lia.
Import ListNotations.
Local Open Scope N_scope.

(* multiplication by x, reduced *)
Definition xtime (m p a : N) : N :=
  let a2 := N.shiftl a 1 in if N.testbit a2 m then N.lxor a2 p else a2.

(* shift-and-add product: acc + a*b, consuming the m low bits of b *)
Fixpoint gfmul_aux (n : nat) (m p a b acc : N) : N :=
  match n with
  | O => acc
  | S n' => gfmul_aux n' m p (xtime m p a) (N.shiftr b 1) (if N.odd b then N.lxor acc a else acc)
  end.
Definition gfmul (m p a b : N) : N := gfmul_aux (N.to_nat m) m p a b 0.

(* x^i *)
Fixpoint xpow (m p : N) (i : nat) : N :=
  match i with O => 1 | S j => xtime m p (xpow m p j) end.

Definition P16 : N := 19.    (* x^4+x+1 *)
Definition P256 : N := 285.  (* x^8+x^4+x^3+x^2+1 *)
Definition mul16 := gfmul 4 P16.
Definition mul256 := gfmul 8 P256.

(* an indexed sweep over a list, and the readers of the tables (index out of range reads 0) *)
Fixpoint forallbi {A} (f : nat -> A -> bool) (i : nat) (l : list A) : bool :=
  match l with [] => true | x :: t => f i x && forallbi f (S i) t end.

Lemma forallbi_nth {A} (f : nat -> A -> bool) (l : list A) (d : A) :
  forall i0, forallbi f i0 l = true -> forall j, (j < length l)%nat -> f (i0 + j)%nat (nth j l d) = true.
Proof.
  induction l as [|x t IH]; intros i0 H j Hj; simpl in *; [lia|].
  apply andb_true_iff in H as [H1 H2]. destruct j as [|j].
  - now rewrite Nat.add_0_r.
  - rewrite <- Nat.add_succ_comm. apply IH; [exact H2|lia].
Qed.

Definition getN (l : list N) (i : N) : N := nth (N.to_nat i) l 0.
Definition get2 (l : list (list N)) (i j : N) : N := getN (nth (N.to_nat i) l []) j.
