(* C17 — sparse GF(2) matrix = set of (row, column) pairs under any operation sequence.
   has m i j is membership in the abstract set; WF m packages: every row/column traversal is
   strictly increasing and in range, rows and columns agree, and the entry pool is exactly
   accounted for (blocks * block size = free entries + live entries). *)
From Coq Require Import Arith List Bool Lia.
From OFV Require Import ListAux Sparse SparseProofs SparseOpt SparseOptProofs SparseChk SparseId SparseIdProofs.
Import ListNotations.

Theorem sparse_allocate_empty : forall r c, WF (s_allocate r c) /\ forall i j, has (s_allocate r c) i j = false.
Proof. exact allocate_wf. Qed.

Theorem sparse_find_is_membership : forall m i j, WF m -> i < nr m -> j < nc m -> s_find m i j = Some (has m i j).
Proof. exact find_spec. Qed.

Theorem sparse_insert_adds_exactly_one : forall m i j, WF m -> i < nr m -> j < nc m ->
  let '(m', st) := s_insert m i j in
  WF m' /\ nr m' = nr m /\ nc m' = nc m /\
  (forall i' j', has m' i' j' = has m i' j' || ((i' =? i) && (j' =? j))) /\
  (st = if has m i j then Existed else Inserted).
Proof. exact insert_spec. Qed.

Theorem sparse_insert_idempotent : forall m i j, WF m -> i < nr m -> j < nc m -> has m i j = true -> s_insert m i j = (m, Existed).
Proof. intros m i j W Hi Hj Hh. now rewrite (s_insert_inrange m i j W Hi Hj), Hh. Qed.

Theorem sparse_delete_removes_exactly_one : forall m i j, WF m -> i < nr m -> j < nc m ->
  WF (s_delete m i j) /\ (forall i' j', has (s_delete m i j) i' j' = has m i' j' && negb ((i' =? i) && (j' =? j))).
Proof. exact delete_spec. Qed.

Theorem sparse_clear_empties : forall m, WF (s_clear m) /\ forall i j, has (s_clear m) i j = false.
Proof. exact clear_wf. Qed.

Theorem sparse_bulk_insert : forall es r, WF r -> (forall e, In e es -> fst e < nr r /\ snd e < nc r) ->
  WF (insert_all r es) /\ nr (insert_all r es) = nr r /\ nc (insert_all r es) = nc r /\
  forall i j, has (insert_all r es) i j = has r i j || existsb (fun e => (i =? fst e) && (j =? snd e)) es.
Proof. exact insert_all_spec. Qed.

Theorem sparse_copy_is_the_same_set : forall m r, WF m -> WF r -> nr m <= nr r -> nc m <= nc r ->
  WF (s_copy m r) /\ forall i j, has (s_copy m r) i j = (i <? nr m) && has m i j.
Proof. exact copy_spec. Qed.

(* copy-rows / copy-columns, with their error exit: the destination is cleared, then row i := row rows[i] of the source for the rows
   before the first out-of-range index (all of them when there is none) *)
Theorem sparse_copyrows_selects_rows : forall m r rows, WF m -> WF r -> nc m <= nc r ->
  WF (s_copyrows_chk m r rows) /\ nr (s_copyrows_chk m r rows) = nr r /\ nc (s_copyrows_chk m r rows) = nc r /\
  forall i j, has (s_copyrows_chk m r rows) i j = (i <? first_bad_row m rows (nr r)) && has m (nth i rows 0) j.
Proof.
  intros m r rows Wm Wr Hc. unfold s_copyrows_chk, first_bad_row. destruct (Nat.ltb_spec (nc r) (nc m)); [lia|].
  destruct (first_bad_spec (nr m) rows (nr r) 0) as (Hp & Hgood & _).
  apply adds_cleared, (insert_rows_spec m (s_clear r) rows _ Wm (proj1 (clear_wf r)) Hc); [apply Hp|].
  intros i Hi. apply Hgood. lia.
Qed.

Theorem sparse_copycols_selects_columns : forall m r cols, WF m -> WF r -> nr m <= nr r ->
  WF (s_copycols_chk m r cols) /\ nr (s_copycols_chk m r cols) = nr r /\ nc (s_copycols_chk m r cols) = nc r /\
  forall i j, has (s_copycols_chk m r cols) i j = (j <? first_bad_col m cols (nc r)) && (i <? nr m) && has m i (nth j cols 0).
Proof.
  intros m r cols Wm Wr Hr. unfold s_copycols_chk, first_bad_col. destruct (Nat.ltb_spec (nr r) (nr m)); [lia|].
  destruct (first_bad_spec (nc m) cols (nc r) 0) as (Hp & Hgood & _).
  apply adds_cleared, (insert_cols_spec m (s_clear r) cols _ Wm (proj1 (clear_wf r)) Hr); [apply Hp|].
  intros j Hj. apply Hgood. lia.
Qed.

(* the "optimised" copies do not clear the destination: the result is the union; their hinted column walk inserts exactly as
   of_mod2sparse_insert does whenever the hint is an entry of the column at or above the new row (hint_ok) *)
Theorem sparse_insert_opt_is_insert : forall m i j hint, WF m -> i < nr m -> j < nc m -> hint_ok m i j hint -> s_insert_opt m i j hint = s_insert m i j.
Proof. exact insert_opt_spec. Qed.

Theorem sparse_copyrows_opt_adds_rows : forall m r rows, WF m -> WF r -> nc m <= nc r ->
  WF (s_copyrows_opt m r rows) /\ nr (s_copyrows_opt m r rows) = nr r /\ nc (s_copyrows_opt m r rows) = nc r /\
  forall i j, has (s_copyrows_opt m r rows) i j = has r i j || ((i <? first_bad_row m rows (nr r)) && has m (nth i rows 0) j).
Proof. exact copyrows_opt_spec. Qed.

Theorem sparse_copycols_opt_adds_columns : forall m r cols, WF m -> WF r -> nr m <= nr r ->
  WF (s_copycols_opt m r cols) /\ nr (s_copycols_opt m r cols) = nr r /\ nc (s_copycols_opt m r cols) = nc r /\
  forall i j, has (s_copycols_opt m r cols) i j = has r i j || ((j <? first_bad_col m cols (nc r)) && (i <? nr m) && has m i (nth j cols 0)).
Proof. exact copycols_opt_spec. Qed.

(* copy_filled_matrix: the entries renumbered through the two index tables, added to what the destination holds *)
Theorem sparse_copy_filled_renumbers : forall m r irows icols, WF m -> WF r ->
  (forall e, In e (entries m) -> nth (fst e) irows 0 < nr r /\ nth (snd e) icols 0 < nc r) ->
  WF (s_copy_filled m r irows icols) /\ nr (s_copy_filled m r irows icols) = nr r /\ nc (s_copy_filled m r irows icols) = nc r /\
  forall i j, has (s_copy_filled m r irows icols) i j =
              has r i j || existsb (fun e => (i =? nth (fst e) irows 0) && (j =? nth (snd e) icols 0)) (entries m).
Proof.
  intros m r irows icols Wm Wr Hes. unfold s_copy_filled.
  pose proof (insert_all_spec (map (fun e => (nth (fst e) irows 0, nth (snd e) icols 0)) (entries m)) r Wr) as H.
  setoid_rewrite existsb_map in H. apply H.
  intros e He. apply in_map_iff in He as (e0 & <- & He0). apply Hes, He0.
Qed.

(* sparse -> dense -> sparse gives the same set back, whatever the destination held *)
Theorem sparse_dense_round_trip : forall m r, WF m -> WF r -> nr r = nr m -> nc r = nc m ->
  WF (s_from_dense (s_to_dense m (nr m) (nc m)) r) /\ nr (s_from_dense (s_to_dense m (nr m) (nc m)) r) = nr r /\
  nc (s_from_dense (s_to_dense m (nr m) (nc m)) r) = nc r /\
  forall i j, i < nr m -> j < nc m -> has (s_from_dense (s_to_dense m (nr m) (nc m)) r) i j = has m i j.
Proof. exact dense_roundtrip. Qed.

Theorem sparse_traversals_sorted : forall m, WF m ->
  (forall i, i < nr m -> ssorted (nth i (rws m) []) /\ forall j, In j (nth i (rws m) []) <-> has m i j = true) /\
  (forall j, j < nc m -> ssorted (nth j (cls m) []) /\ forall i, i < nr m -> (In i (nth j (cls m) []) <-> has m i j = true)).
Proof. exact traversals_sorted. Qed.

Theorem sparse_pool_accounting : forall m, WF m -> nblocks m * BLOCK = nfree m + total m.
Proof. exact pool_accounting. Qed.

(* The entry pool at the level of entry identities (SparseId.v): "no operation touches freed memory, and freeing
   the matrix releases everything".  Every entry of the matrix and of the free list is named by (block, slot) exactly as
   of_alloc_entry hands them out; the names the compiled C uses are compared with the model's after every operation.
   In every state reachable from of_mod2sparse_allocate by insert / delete / clear / copy / copy-rows / copy-columns /
   copy-filled-matrix: exactly the matrix's entries are named, no slot is in use twice or both in use and free, EVERY
   entry in use or on the free list lies in a block that has not been released, every slot of every live block is in use
   or free, and Sparse.v's two counters are the lengths of the block list and of the free list. *)
Theorem entry_pool_invariant_in_every_reachable_state : forall m, reach m -> WF (sm m) /\ PInv m.
Proof. exact reach_inv. Qed.
Theorem no_entry_in_a_released_block : forall m, PInv m -> forall k e, id_of (ids m) k = Some e -> In (fst e) (pblocks (pl m)).
Proof.
  intros m (_ & _ & _ & P4 & _) k e He. apply P4. apply in_or_app. left.
  apply id_of_In in He. apply in_map_iff. exists (k, e). auto.
Qed.
Theorem free_list_stays_inside_live_blocks : forall m, PInv m -> forall e, In e (pfree (pl m)) -> In (fst e) (pblocks (pl m)).
Proof. exact free_list_in_live_blocks. Qed.
Theorem an_entry_handed_out_is_not_in_use : forall m, PInv m -> let '(p', e) := p_take (pl m) in ~ In e (map snd (ids m)).
Proof.
  intros m P. apply PInv_iff in P as (_ & _ & P3 & _). pose proof (p_take_inv _ _ P3) as HT.
  destruct (p_take (pl m)) as [p' e]. apply HT.
Qed.
Theorem two_entries_never_share_a_slot : forall m, PInv m -> forall k1 k2 e, id_of (ids m) k1 = Some e -> id_of (ids m) k2 = Some e -> k1 = k2.
Proof.
  intros m (_ & _ & P3 & _) k1 k2 e H1 H2. apply id_of_In in H1, H2.
  apply NoDup_app_iff in P3 as (P3 & _). apply NoDup_map_iff in P3 as (_ & Hinj).
  exact (f_equal fst (Hinj _ _ H1 H2 eq_refl)).
Qed.
Theorem clear_releases_every_block : forall m, pblocks (pl (i_clear m)) = [] /\ pfree (pl (i_clear m)) = [] /\ ids (i_clear m) = [].
Proof. repeat split. Qed.
(* the defect repaired in commit 1d8dcbc of the library (clear released the blocks but kept the free list) is exactly a violation of this invariant *)
Theorem the_pre_fix_clear_left_a_dangling_free_list :
  exists m, reach m /\ PInv m /\ pfree (pl m) <> [] /\
            ~ (forall e, In e (pfree (p_clear_buggy (pl m))) -> In (fst e) (pblocks (p_clear_buggy (pl m)))).
Proof. exact buggy_clear_example. Qed.

Print Assumptions entry_pool_invariant_in_every_reachable_state.
Print Assumptions the_pre_fix_clear_left_a_dangling_free_list.
Print Assumptions sparse_insert_adds_exactly_one.
Print Assumptions sparse_find_is_membership.
Print Assumptions sparse_copy_is_the_same_set.
Print Assumptions sparse_copyrows_selects_rows.
Print Assumptions sparse_copyrows_opt_adds_rows.
Print Assumptions sparse_copycols_opt_adds_columns.
Print Assumptions sparse_copy_filled_renumbers.
Print Assumptions sparse_dense_round_trip.
