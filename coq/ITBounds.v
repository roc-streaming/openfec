(* C07 for the LDPC-Staircase / 2D streaming decoder model: every table access stays inside its table.

   ITModel.decode reads with [nth i l default] and writes with [upd l i x]; both are total (an out-of-range
   read returns the default, an out-of-range write is dropped), so an index bug in the model would be
   masked.  Here the decoder is copied with every read and write going through accessors that FAIL out of
   range ([nth_chk], [upd_chk]); the result of the checked decoder distinguishes
        Ok s | OutOfFuel | OutOfBounds | BadShape
   (BadShape: the plain model's "row chosen in step 3 is not a single entry with a partial sum" dead end,
   which the plain model also reports as None).
   [decode_chk_refines]: whatever the checked copy returns other than OutOfBounds is what the plain model
   returns (Ok s' -> Some s';  OutOfFuel / BadShape -> None).
   [decode_chk_safe]: on GoodB states (Good of ITProofs + every row entry is a column) and for a column
   < N0 the checked copy equals the plain model, hence is never OutOfBounds (any fuel), and is Ok with
   a GoodB result when N0 < fuel; [run_chk_eq], [run_chk_ok], [run_chk_every_call] for histories.
   The closed examples at the end: the checked copy is OutOfBounds where the plain model returns Some.
   The accessors serve the other bounds-checked copies as well (GJBounds, SolveBounds, PchkBounds, ApiBounds).
   Each of those has a result type with failures of its own and states its own relation to the plain model;
   they share [chk] for option-valued pieces, and [chk_nth] / [chk_upd], which each reads into its relation. *)
From Coq Require Import List Arith Bool Lia. Import ListNotations.
From OFV Require Import ListAux ITModel ITLemmas ITProofs.

Notation "'do' x <- o ; k" := (match o with Some x => k | None => None end)
  (at level 200, x name, o at level 100, k at level 200, right associativity).
Notation "'do' ' p <- o ; k" := (match o with Some p => k | None => None end)
  (at level 200, p pattern, o at level 100, k at level 200, right associativity).

Fixpoint nth_chk {A} (l : list A) (i : nat) : option A :=
  match l, i with
  | [], _ => None
  | h :: _, O => Some h
  | _ :: t, S j => nth_chk t j
  end.

Fixpoint upd_chk {A} (l : list A) (i : nat) (x : A) : option (list A) :=
  match l, i with
  | [], _ => None
  | _ :: t, O => Some (x :: t)
  | h :: t, S j => do t' <- upd_chk t j x; Some (h :: t')
  end.

Lemma nth_chk_error {A} (l : list A) i : nth_chk l i = nth_error l i.
Proof. revert i. induction l as [|h t IH]; intros [|j]; try reflexivity. apply IH. Qed.

Lemma nth_chk_none {A} (l : list A) i : nth_chk l i = None <-> length l <= i.
Proof. rewrite nth_chk_error. apply nth_error_None. Qed.

Lemma nth_chk_in {A} (l : list A) i d : i < length l -> nth_chk l i = Some (nth i l d).
Proof. rewrite nth_chk_error. apply nth_error_nth'. Qed.

Lemma nth_chk_sound {A} (l : list A) i x d : nth_chk l i = Some x -> i < length l /\ nth i l d = x.
Proof.
  rewrite nth_chk_error. intros H. split; [apply nth_error_Some; congruence|apply nth_error_nth, H].
Qed.

Lemma upd_chk_eq {A} (l : list A) i x : upd_chk l i x = if i <? length l then Some (upd l i x) else None.
Proof.
  revert i. induction l as [|h t IH]; intros [|j]; try reflexivity.
  cbn [upd_chk upd length]. rewrite IH. change (S j <? S (length t)) with (j <? length t).
  destruct (j <? length t); reflexivity.
Qed.

Lemma upd_chk_none {A} (l : list A) i x : upd_chk l i x = None <-> length l <= i.
Proof. rewrite upd_chk_eq. destruct (Nat.ltb_spec i (length l)); split; intros; try discriminate; try lia; reflexivity. Qed.

Lemma upd_chk_in {A} (l : list A) i x : i < length l -> upd_chk l i x = Some (upd l i x).
Proof. intros H. rewrite upd_chk_eq. apply Nat.ltb_lt in H. now rewrite H. Qed.

Lemma upd_chk_sound {A} (l : list A) i x l' : upd_chk l i x = Some l' -> i < length l /\ upd l i x = l'.
Proof. rewrite upd_chk_eq. destruct (Nat.ltb_spec i (length l)); [now intros [= <-]|discriminate]. Qed.

(* [chk ok c a]: the checked computation [c] (None: some access was out of range) can only return what its
   total counterpart [a] returns, and does return it when [ok] holds.  With ok := False this is refinement,
   with ok := True equality; a checked function is walked through once, its range conditions guarded by ok. *)
Definition chk {A} (ok : Prop) (c : option A) (a : A) : Prop :=
  match c with Some x => a = x | None => ~ ok end.

Lemma chk_ret {A} (ok : Prop) (a : A) : chk ok (Some a) a.
Proof. reflexivity. Qed.

Lemma chk_bind {A B} (ok : Prop) (c : option A) a (k : A -> option B) b :
  chk ok c a -> chk ok (k a) b -> chk ok (do x <- c; k x) b.
Proof. destruct c as [x|]; cbn; [now intros <-|auto]. Qed.

Lemma chk_sound {A} (ok : Prop) (c : option A) a x : chk ok c a -> c = Some x -> a = x.
Proof. now intros H ->. Qed.

Lemma chk_in {A} (ok : Prop) (c : option A) a : chk ok c a -> ok -> c = Some a.
Proof. destruct c; cbn; [now intros <-|contradiction]. Qed.

Lemma chk_nth {A} (ok : Prop) (l : list A) i d : (ok -> i < length l) -> chk ok (nth_chk l i) (nth i l d).
Proof.
  intros H. destruct (nth_chk l i) as [x|] eqn:E; cbn.
  - apply (nth_chk_sound l i x d E).
  - apply nth_chk_none in E. intros K. specialize (H K). lia.
Qed.

Lemma chk_upd {A} (ok : Prop) (l : list A) i x : (ok -> i < length l) -> chk ok (upd_chk l i x) (upd l i x).
Proof.
  intros H. rewrite upd_chk_eq. destruct (Nat.ltb_spec i (length l)); cbn; [reflexivity|].
  intros K. specialize (H K). lia.
Qed.

Fixpoint filterM {A} (p : A -> option bool) (l : list A) : option (list A) :=
  match l with
  | [] => Some []
  | x :: t => do b <- p x; do t' <- filterM p t; Some (if b then x :: t' else t')
  end.

Fixpoint foldM {A B} (f : A -> B -> option A) (l : list B) (a : A) : option A :=
  match l with
  | [] => Some a
  | x :: t => do a' <- f a x; foldM f t a'
  end.

Lemma chk_filterM {A} (ok : Prop) (p : A -> option bool) (q : A -> bool) l :
  (forall x, In x l -> chk ok (p x) (q x)) -> chk ok (filterM p l) (filter q l).
Proof.
  induction l as [|x t IH]; intros H; cbn [filterM filter]; [reflexivity|].
  eapply chk_bind; [apply H; now left|]. eapply chk_bind; [apply IH; intros y Hy; apply H; now right|].
  destruct (q x); reflexivity.
Qed.

(* [I] is what the steps keep true of the accumulator (their range conditions may depend on it) *)
Lemma chk_foldM {A B} (ok : Prop) (I : A -> Prop) (f : A -> B -> option A) (g : A -> B -> A) l :
  (forall a x, In x l -> I a -> chk ok (f a x) (g a x) /\ I (g a x)) ->
  forall a, I a -> chk ok (foldM f l a) (fold_left g l a).
Proof.
  induction l as [|x t IH]; intros H a Ha; cbn [foldM fold_left]; [reflexivity|].
  destruct (H a x (or_introl eq_refl) Ha) as (Hc & Ha').
  eapply chk_bind; [exact Hc|]. apply IH; [|exact Ha']. intros a' y Hy. apply H. now right.
Qed.

Set Implicit Arguments.
Section CHK.
Variable Sy : Type. Variable sxor : Sy -> Sy -> Sy. Variable s0 : Sy.
Notation st := (st Sy).

Definition known_chk (s : st) (c : nat) : option bool :=
  do o <- nth_chk (tab s) c; Some (match o with Some _ => true | None => false end).

(* the C tests the cursor against n BEFORE it looks at the table *)
Fixpoint adv_chk (fuel : nat) (s : st) (i : nat) : option nat :=
  match fuel with
  | O => Some i
  | S f => if r s + i <? n s
           then do k <- known_chk s (r s + i); if k then adv_chk f s (S i) else Some i
           else Some i
  end.

Definition is_complete_chk (s : st) : option (bool * st) :=
  do i <- adv_chk (n s - r s) s (fnd s); Some (n s - r s <=? i, set_fnd s i).

Definition set_tab_chk (s : st) (c : nat) (v : Sy) : option st :=
  do t <- upd_chk (tab s) c (Some v); Some (mk (r s) (n s) (rws s) (unk s) (enc s) (ct s) t (fnd s)).

Definition step2_row_chk (s : st) (c : nat) (v : Sy) (row : nat) : option (st * bool) :=
  do u0 <- nth_chk (unk s) row;
  let u := u0 - 1 in
  do c0 <- nth_chk (ct s) row;
  do e0 <- nth_chk (enc s) row;
  let ct1 := match c0 with
             | None => if u =? 1 then Some s0 else None | Some t => Some t end in
  match ct1 with
  | None => do unk' <- upd_chk (unk s) row u;
            Some (mk (r s) (n s) (rws s) unk' (enc s) (ct s) (tab s) (fnd s), e0 =? 1)
  | Some t =>
      let t1 := if 1 <? e0 then sxor t v else t in
      do rw <- nth_chk (rws s) row;
      let ents := filter (fun c' => negb (c' =? c)) rw in
      do kn <- filterM (known_chk s) ents;
      do t2 <- foldM (fun acc c' => do w <- nth_chk (tab s) c';
                                    Some (match w with Some w => sxor acc w | None => acc end)) kn t1;
      do ents' <- filterM (fun c' => do k <- known_chk s c'; Some (negb k)) ents;
      let e' := e0 - 1 - length kn in
      do rws' <- upd_chk (rws s) row ents';
      do unk' <- upd_chk (unk s) row u;
      do enc' <- upd_chk (enc s) row e';
      do ct' <- upd_chk (ct s) row (Some t2);
      Some (mk (r s) (n s) rws' unk' enc' ct' (tab s) (fnd s), e' =? 1)
  end.

Definition rows_with_chk (s : st) (c : nat) : option (list nat) :=
  filterM (fun row => do rw <- nth_chk (rws s) row; Some (existsb (Nat.eqb c) rw)) (seq 0 (r s)).

Definition f2_chk (c : nat) (v : Sy) (a : st * list nat) (row : nat) : option (st * list nat) :=
  do ' (s', rdy) <- step2_row_chk (fst a) c v row; Some (s', if rdy then snd a ++ [row] else snd a).

Definition step2_chk (s : st) (c : nat) (v : Sy) : option (st * list nat) :=
  do rows <- rows_with_chk s c; foldM (f2_chk c v) rows (s, []).

Definition consume_chk (s : st) (row : nat) : option st :=
  do rws' <- upd_chk (rws s) row [];
  do enc' <- upd_chk (enc s) row 0;
  do ct' <- upd_chk (ct s) row None;
  Some (mk (r s) (n s) rws' (unk s) enc' ct' (tab s) (fnd s)).

Inductive res : Type := Ok (s : st) | OutOfFuel | OutOfBounds | BadShape.

Fixpoint step3_chk (dec : st -> nat -> Sy -> res) (L : list nat) (s : st) : res :=
  match L with
  | [] => Ok s
  | row :: L' =>
      match is_complete_chk s with
      | None => OutOfBounds
      | Some (c', s) =>
          if c' then Ok s else
          match nth_chk (enc s) row with
          | None => OutOfBounds
          | Some e =>
              if e =? 1 then
                match nth_chk (rws s) row, nth_chk (ct s) row with
                | None, _ | _, None => OutOfBounds
                | Some [cc], Some (Some t) =>
                    match consume_chk s row with
                    | None => OutOfBounds
                    | Some sc => match dec sc cc t with Ok s2 => step3_chk dec L' s2 | x => x end
                    end
                | Some _, Some _ => BadShape
                end
              else step3_chk dec L' s
          end
      end
  end.

Fixpoint decode_chk (fuel : nat) (s : st) (c : nat) (v : Sy) : res :=
  match fuel with
  | O => OutOfFuel
  | S f =>
      match known_chk s c with
      | None => OutOfBounds
      | Some true => Ok s
      | Some false =>
          match set_tab_chk s c v with
          | None => OutOfBounds
          | Some s1 =>
              match (if r s1 <=? c then is_complete_chk s1 else Some (false, s1)) with
              | None => OutOfBounds
              | Some early =>
                  if fst early then Ok (snd early) else
                  match step2_chk (snd early) c v with
                  | None => OutOfBounds
                  | Some (s2, L) => step3_chk (decode_chk f) (rev L) s2
                  end
              end
          end
      end
  end.

End CHK.
Arguments OutOfFuel {Sy}.
Arguments OutOfBounds {Sy}.
Arguments BadShape {Sy}.
Unset Implicit Arguments.


(* the non-recursive pieces against the plain model: one walk each, the range conditions stated on the
   table lengths and guarded by ok *)
Section PIECES.
Variable Sy : Type. Variable sxor : Sy -> Sy -> Sy. Variable s0 : Sy.
Notation st := (st Sy).

Lemma known_chk_spec (ok : Prop) (s : st) c : (ok -> c < length (tab s)) -> chk ok (known_chk s c) (known s c).
Proof. intros H. unfold known_chk, known. eapply chk_bind; [apply chk_nth with (d := None), H|apply chk_ret]. Qed.

Lemma adv_chk_spec (ok : Prop) fuel (s : st) : (ok -> n s <= length (tab s)) ->
  forall i, chk ok (adv_chk fuel s i) (adv fuel s i).
Proof.
  intros H. induction fuel as [|f IH]; intros i; simpl; [reflexivity|].
  destruct (r s + i <? n s) eqn:E; simpl; [|reflexivity]. apply Nat.ltb_lt in E.
  eapply chk_bind; [apply known_chk_spec; intros K; specialize (H K); lia|].
  destruct (known s (r s + i)); [apply IH|reflexivity].
Qed.

Lemma is_complete_chk_spec (ok : Prop) (s : st) : (ok -> n s <= length (tab s)) ->
  chk ok (is_complete_chk s) (is_complete s).
Proof. intros H. unfold is_complete_chk, is_complete. eapply chk_bind; [apply adv_chk_spec, H|apply chk_ret]. Qed.

Lemma set_tab_chk_spec (ok : Prop) (s : st) c v : (ok -> c < length (tab s)) ->
  chk ok (set_tab_chk s c v) (set_tab s c v).
Proof. intros H. unfold set_tab_chk, set_tab. eapply chk_bind; [apply chk_upd, H|apply chk_ret]. Qed.

Lemma step2_row_chk_spec (ok : Prop) (s : st) c v row :
  (ok -> row < length (unk s)) -> (ok -> row < length (ct s)) -> (ok -> row < length (enc s)) ->
  (ok -> row < length (rws s)) -> (ok -> forall c', In c' (nth row (rws s) []) -> c' < length (tab s)) ->
  chk ok (step2_row_chk sxor s0 s c v row) (step2_row sxor s0 s c v row).
Proof.
  intros Hu Hc He Hr Hents. unfold step2_row_chk, step2_row, getn. cbv zeta.
  eapply chk_bind; [apply chk_nth with (d := 0), Hu|].
  eapply chk_bind; [apply chk_nth with (d := None), Hc|].
  eapply chk_bind; [apply chk_nth with (d := 0), He|]. cbv beta.
  (* both sides branch on the same partial sum *)
  destruct (match nth row (ct s) None with Some t => Some t | None => _ end) as [t|].
  2:{ eapply chk_bind; [apply chk_upd, Hu|apply chk_ret]. }
  eapply chk_bind; [apply chk_nth with (d := []), Hr|].
  set (ents := filter (fun c' => negb (c' =? c)) (nth row (rws s) [])).
  assert (Hb : ok -> forall x, In x ents -> x < length (tab s)).
  { intros K x Hx. apply (Hents K). apply filter_In in Hx. apply Hx. }
  assert (Hk : forall x, In x ents -> chk ok (known_chk s x) (known s x)).
  { intros x Hx. apply known_chk_spec. intros K. apply (Hb K x Hx). }
  eapply chk_bind; [apply (chk_filterM ok _ (known s)), Hk|].
  eapply chk_bind.
  { apply (chk_foldM ok (fun _ => True) _
             (fun acc c' => match nth c' (tab s) None with Some w => sxor acc w | None => acc end)); [|exact I].
    intros a x Hx _. split; [|exact I]. apply filter_In in Hx.
    eapply chk_bind; [apply chk_nth with (d := None); intros K; apply (Hb K), Hx|apply chk_ret]. }
  eapply chk_bind.
  { apply (chk_filterM ok _ (fun c' => negb (known s c'))). intros x Hx.
    eapply chk_bind; [apply Hk, Hx|apply chk_ret]. }
  eapply chk_bind; [apply chk_upd, Hr|]. eapply chk_bind; [apply chk_upd, Hu|].
  eapply chk_bind; [apply chk_upd, He|]. eapply chk_bind; [apply chk_upd, Hc|]. apply chk_ret.
Qed.

Lemma rows_with_chk_spec (ok : Prop) (s : st) c : (ok -> r s <= length (rws s)) ->
  chk ok (rows_with_chk s c) (rows_with s c).
Proof.
  intros H. apply chk_filterM. intros row Hrow. apply in_seq in Hrow.
  eapply chk_bind; [apply chk_nth with (d := []); intros K; specialize (H K); lia|apply chk_ret].
Qed.

Lemma step2_chk_spec (ok : Prop) (I : st -> Prop) (s : st) c v : (ok -> r s <= length (rws s)) ->
  (forall s1 row, In row (rows_with s c) -> I s1 ->
     chk ok (step2_row_chk sxor s0 s1 c v row) (step2_row sxor s0 s1 c v row) /\ I (fst (step2_row sxor s0 s1 c v row))) ->
  I s -> chk ok (step2_chk sxor s0 s c v) (step2 sxor s0 s c v).
Proof.
  intros H HS HI. unfold step2_chk, step2. eapply chk_bind; [apply rows_with_chk_spec, H|].
  apply (chk_foldM ok (fun a => I (fst a))); [|exact HI].
  intros [s1 L] row Hrow H1. destruct (HS s1 row Hrow H1) as (Hc & H1'). unfold f2_chk. cbn [fst snd].
  split; [eapply chk_bind; [exact Hc|]|]; destruct (step2_row sxor s0 s1 c v row); [apply chk_ret|exact H1'].
Qed.

Lemma consume_chk_spec (ok : Prop) (s : st) row :
  (ok -> row < length (rws s)) -> (ok -> row < length (enc s)) -> (ok -> row < length (ct s)) ->
  chk ok (consume_chk s row) (consume s row).
Proof.
  intros Hr He Hc. unfold consume_chk, consume.
  eapply chk_bind; [apply chk_upd, Hr|]. eapply chk_bind; [apply chk_upd, He|]. eapply chk_bind; [apply chk_upd, Hc|].
  apply chk_ret.
Qed.

End PIECES.

Section REF.
Variable Sy : Type. Variable sxor : Sy -> Sy -> Sy. Variable s0 : Sy.
Notation st := (st Sy).
Notation res := (res Sy).

Definition refines (x : res) (o : option st) : Prop :=
  match x with
  | Ok s => o = Some s
  | OutOfFuel => o = None
  | BadShape => o = None
  | OutOfBounds => True
  end.

Lemma refines_bind {A} (ok : Prop) (o : option A) a (k : A -> res) b :
  chk ok o a -> refines (k a) b -> refines (match o with Some x => k x | None => OutOfBounds end) b.
Proof. intros Ho Hk. destruct o as [x|]; [now rewrite <- Ho|exact I]. Qed.

Lemma step3_chk_cons (decc : st -> nat -> Sy -> res) row L' (s : st) : step3_chk decc (row :: L') s =
  match is_complete_chk s with
  | None => OutOfBounds
  | Some (c', s1) =>
      if c' then Ok s1 else
      match nth_chk (enc s1) row with
      | None => OutOfBounds
      | Some e =>
          if e =? 1 then
            match nth_chk (rws s1) row, nth_chk (ct s1) row with
            | None, _ | _, None => OutOfBounds
            | Some [cc], Some (Some t) =>
                match consume_chk s1 row with
                | None => OutOfBounds
                | Some sc => match decc sc cc t with Ok s2 => step3_chk decc L' s2 | x => x end
                end
            | Some _, Some _ => BadShape
            end
          else step3_chk decc L' s1
      end
  end.
Proof. reflexivity. Qed.

Lemma decode_chk_unfold fuel (s : st) c v : decode_chk sxor s0 (S fuel) s c v =
  match known_chk s c with
  | None => OutOfBounds
  | Some true => Ok s
  | Some false =>
      match set_tab_chk s c v with
      | None => OutOfBounds
      | Some s1 =>
          match (if r s1 <=? c then is_complete_chk s1 else Some (false, s1)) with
          | None => OutOfBounds
          | Some early =>
              if fst early then Ok (snd early) else
              match step2_chk sxor s0 (snd early) c v with
              | None => OutOfBounds
              | Some (s2, L) => step3_chk (decode_chk sxor s0 fuel) (rev L) s2
              end
          end
      end
  end.
Proof. reflexivity. Qed.

Lemma step3_chk_refines (decc : st -> nat -> Sy -> res) (dec : st -> nat -> Sy -> option st) :
  (forall s c v, refines (decc s c v) (dec s c v)) ->
  forall L s, refines (step3_chk decc L s) (step3 dec L s).
Proof.
  intros HD. induction L as [|row L' IH]; intros s; [reflexivity|].
  rewrite step3_chk_cons, step3_cons.
  eapply refines_bind; [apply (is_complete_chk_spec Sy False); intros []|].
  destruct (is_complete s) as [b s1]. destruct b; [reflexivity|]. unfold getn.
  eapply refines_bind; [apply (chk_nth False) with (d := 0); intros []|].
  destruct (nth row (enc s1) 0 =? 1); [|apply IH].
  eapply refines_bind; [apply (chk_nth False) with (d := []); intros []|].
  (* ct[row] is read whatever the row looks like *)
  destruct (nth row (rws s1) []) as [|cc [|x rw]];
    (eapply refines_bind; [apply (chk_nth False) with (d := None); intros []|]).
  1, 3: destruct (nth row (ct s1) None); reflexivity.  (* not a single entry: BadShape against None *)
  destruct (nth row (ct s1) None) as [t|]; [|reflexivity].
  (* the single entry cc with the partial sum t: the recursive call *)
  eapply refines_bind; [apply (consume_chk_spec Sy False); intros []|].
  specialize (HD (consume s1 row) cc t). destruct (decc (consume s1 row) cc t); simpl in HD.
  - rewrite HD. apply IH.
  - rewrite HD. reflexivity.
  - exact I.
  - rewrite HD. reflexivity.
Qed.

Theorem decode_chk_refines fuel : forall (s : st) c v,
  refines (decode_chk sxor s0 fuel s c v) (decode sxor s0 fuel s c v).
Proof.
  induction fuel as [|f IH]; intros s c v; [reflexivity|].
  rewrite decode_chk_unfold, decode_unfold.
  eapply refines_bind; [apply (known_chk_spec Sy False); intros []|].
  destruct (known s c); [reflexivity|].
  eapply refines_bind; [apply (set_tab_chk_spec Sy False); intros []|]. cbv zeta.
  eapply refines_bind with (a := if r (set_tab s c v) <=? c then is_complete (set_tab s c v) else (false, set_tab s c v)).
  { destruct (r (set_tab s c v) <=? c); [apply (is_complete_chk_spec Sy False); intros []|apply chk_ret]. }
  destruct (fst _); [reflexivity|].
  eapply refines_bind.
  { apply (step2_chk_spec Sy sxor s0 False (fun _ => True)); [intros []| |exact I].
    intros s1 row _ _. split; [apply step2_row_chk_spec; intros []|exact I]. }
  destruct (step2 sxor s0 _ c v) as [s2 L]. apply step3_chk_refines, IH.
Qed.

Corollary decode_chk_ok fuel (s s' : st) c v :
  decode_chk sxor s0 fuel s c v = Ok s' -> decode sxor s0 fuel s c v = Some s'.
Proof. intros H. pose proof (decode_chk_refines fuel s c v) as R. rewrite H in R. exact R. Qed.

Corollary decode_chk_fuel fuel (s : st) c v :
  decode_chk sxor s0 fuel s c v = OutOfFuel -> decode sxor s0 fuel s c v = None.
Proof. intros H. pose proof (decode_chk_refines fuel s c v) as R. rewrite H in R. exact R. Qed.

Corollary decode_chk_shape fuel (s : st) c v :
  decode_chk sxor s0 fuel s c v = BadShape -> decode sxor s0 fuel s c v = None.
Proof. intros H. pose proof (decode_chk_refines fuel s c v) as R. rewrite H in R. exact R. Qed.

End REF.



Section SAFE.
Variable Sy : Type. Variable sxor : Sy -> Sy -> Sy. Variable s0 : Sy.
Notation st := (st Sy).
Notation res := (res Sy).

Variable H0 : list (list nat).
Variable R0 N0 : nat.
Hypothesis H0_len : length H0 = R0.
Hypothesis H0_nodup : forall i, i < R0 -> NoDup (nth i H0 []).
Hypothesis H0_range : forall i c, i < R0 -> In c (nth i H0 []) -> c < N0.
Hypothesis H0_deg : forall i, i < R0 -> 2 <= length (nth i H0 []).
Hypothesis R_le_N : R0 <= N0.

Notation WF := (WF Sy R0 N0).
Notation Inv := (Inv Sy H0 R0).
Notation PInv := (PInv Sy H0 R0).
Notation Good := (Good Sy H0 R0 N0).
Notation iscomp := (iscomp Sy R0 N0).
Notation f2 := (f2 Sy sxor s0).
Notation set_tab_wf := (set_tab_wf Sy H0 R0 N0 H0_len R_le_N).

(* the plain model's None read as OutOfFuel: on the states below it is never the dead end of step 3, whose chosen
   row is a single entry with a partial sum (ITProofs.step3_row_spec), so BadShape has no counterpart *)
Definition lift (o : option st) : res := match o with Some s => Ok s | None => OutOfFuel end.

(* every entry of every row is a column: the extra invariant needed once decoding is complete
   (Good then says nothing about the rows, and a late parity symbol still runs step 2) *)
Definition RowsB (s : st) : Prop := forall i c, In c (nth i (rws s) []) -> c < N0.
Definition GoodB (s : st) : Prop := Good s /\ RowsB s.

Lemma step2_row_rowsb (s : st) e v i : RowsB s -> RowsB (fst (step2_row sxor s0 s e v i)).
Proof.
  intros HB j c. unfold step2_row. cbv zeta.
  destruct (match nth i (ct s) None with
            | Some t => Some t
            | None => if getn (unk s) i - 1 =? 1 then Some s0 else None end) as [t|];
    cbn [fst rws]; [|apply HB].
  intros Hin. rewrite upd_same, nth_upd in Hin. destruct ((j =? i) && (i <? length (rws s))).
  - apply filter_In in Hin. destruct Hin as (Hin & _). apply filter_In in Hin. destruct Hin as (Hin & _).
    apply (HB i c Hin).
  - apply (HB j c Hin).
Qed.

Lemma consume_rowsb (s : st) row : RowsB s -> RowsB (consume s row).
Proof.
  intros HB j c Hin. unfold consume in Hin. cbn [rws] in Hin.
  rewrite upd_same, nth_upd in Hin. destruct ((j =? row) && (row <? length (rws s))); [inversion Hin|apply (HB j c Hin)].
Qed.

Definition DecB (dec : st -> nat -> Sy -> option st) : Prop :=
  forall s e v s', RowsB s -> dec s e v = Some s' -> RowsB s'.

(* RowsB only speaks of the rows, which set_tab and is_complete leave alone *)
Lemma decode_rowsb fuel : DecB (decode sxor s0 fuel).
Proof.
  intros s e v s'. apply (decode_P Sy sxor s0 RowsB (fun _ _ => RowsB)); auto.
  - intros s1 c v1 row HB _ _. now apply step2_row_rowsb.
  - intros s1 row cc t HB _ _. now apply consume_rowsb.
Qed.

Lemma rowinv_rowsb (s : st) kn pend : WF s -> (forall i, i < R0 -> rowinv Sy H0 kn pend s i) -> RowsB s.
Proof.
  intros W HP i c Hin. destruct (Nat.lt_ge_cases i R0) as [Hi|Hi].
  - specialize (HP i Hi). unfold rowinv, lazy, consumed, ready in HP.
    destruct (nth i (ct s) None).
    + destruct HP as (A & _). rewrite A in Hin. apply (Urow_In H0) in Hin. apply (H0_range i c Hi (proj1 Hin)).
    + destruct HP as [(A & _)|(A & _)]; rewrite A in Hin; [apply (H0_range i c Hi Hin)|inversion Hin].
  - rewrite nth_overflow in Hin by (rewrite (wf_rws Sy R0 N0 s W); exact Hi). inversion Hin.
Qed.

Lemma is_complete_chk_wf (s : st) : WF s -> is_complete_chk s = Some (is_complete s).
Proof.
  intros W. apply (chk_in True); [|exact I]. apply is_complete_chk_spec. intros _.
  rewrite (wf_n Sy R0 N0 s W), (wf_tab Sy R0 N0 s W). apply le_n.
Qed.

Lemma is_complete_iscomp (s : st) : WF s -> iscomp s -> is_complete s = (true, snd (is_complete s)).
Proof.
  intros W Hc. pose proof (is_complete_spec Sy H0 R0 N0 H0_len R_le_N s W) as Hs. destruct (is_complete s) as [b s1].
  destruct Hs as (_ & _ & _ & _ & _ & _ & Hb). now rewrite (proj2 Hb Hc).
Qed.

Lemma consume_chk_wf (s : st) row : WF s -> row < R0 -> consume_chk s row = Some (consume s row).
Proof.
  intros W Hrow. destruct W as [Wr Wn Wrws Wunk Wenc Wct Wtab Wfnd Wcur].
  apply (chk_in True); [|exact I]. apply consume_chk_spec; intros _; lia.
Qed.

(* the rows step 2 visits are rows of the matrix, and a row step keeps WF and RowsB *)
Lemma step2_chk_wf (s : st) e v : WF s -> RowsB s -> step2_chk sxor s0 s e v = Some (step2 sxor s0 s e v).
Proof.
  intros W HB. apply (chk_in True); [|exact I].
  apply (step2_chk_spec Sy sxor s0 True (fun s1 => WF s1 /\ RowsB s1)); [| |split; assumption].
  - intros _. rewrite (wf_r Sy R0 N0 s W), (wf_rws Sy R0 N0 s W). apply le_n.
  - intros s1 row Hrow (W1 & HB1).
    apply (rows_with_spec Sy H0 R0 N0 H0_len H0_nodup H0_range H0_deg R_le_N s e row (wf_r Sy R0 N0 s W)) in Hrow.
    destruct Hrow as (Hrow & _).
    split; [|split; [apply (step2_row_wf Sy sxor s0 R0 N0 s1 e v row W1 Hrow)|apply (step2_row_rowsb s1 e v row HB1)]].
    destruct W1 as [Wr Wn Wrws Wunk Wenc Wct Wtab Wfnd Wcur].
    apply step2_row_chk_spec; intros _; try lia. intros c' Hc'. rewrite Wtab. apply (HB1 row c' Hc').
Qed.

Lemma known_chk_wf (s : st) c : WF s -> c < N0 -> known_chk s c = Some (known s c).
Proof.
  intros W Hc. apply (chk_in True); [|exact I]. apply known_chk_spec. now rewrite (wf_tab Sy R0 N0 s W).
Qed.

Lemma set_tab_chk_wf (s : st) c v : WF s -> c < N0 -> set_tab_chk s c v = Some (set_tab s c v).
Proof.
  intros W Hc. apply (chk_in True); [|exact I]. apply set_tab_chk_spec. now rewrite (wf_tab Sy R0 N0 s W).
Qed.

Lemma step3_chk_complete (decc : st -> nat -> Sy -> res) dec L (s : st) : WF s -> iscomp s ->
  step3_chk decc L s = lift (step3 dec L s).
Proof.
  intros W Hc. destruct L as [|row L']; [reflexivity|].
  rewrite step3_chk_cons, step3_cons, (is_complete_chk_wf s W), (is_complete_iscomp s W Hc). reflexivity.
Qed.

Definition DecEq (f : nat) : Prop := forall (s : st) e v,
  WF s -> PInv s e -> e < N0 ->
  decode_chk sxor s0 f s e v = lift (decode sxor s0 f s e v).

Lemma step3_chk_eq f : DecEq f -> forall L (s : st), WF s -> (iscomp s \/ Inv s) -> (forall i, In i L -> i < R0) ->
  step3_chk (decode_chk sxor s0 f) L s = lift (step3 (decode sxor s0 f) L s).
Proof.
  intros HD. induction L as [|row L' IH]; intros s W HG HL; [reflexivity|].
  destruct HG as [Hc|HI]; [apply step3_chk_complete; assumption|].
  assert (Hrow : row < R0) by (apply HL; now left).
  assert (HL' : forall i, In i L' -> i < R0) by (intros i Hi; apply HL; now right).
  rewrite step3_chk_cons, step3_cons, (is_complete_chk_wf s W).
  pose proof (step3_row_spec Sy sxor s0 H0 R0 N0 H0_len H0_range H0_deg R_le_N s row W HI Hrow) as Hs.
  destruct (is_complete s) as [b s1]. destruct Hs as (W1 & HI1 & _ & _ & _ & _ & Hcase).
  destruct b; [reflexivity|].
  rewrite (nth_chk_in (enc s1) row 0) by (rewrite (wf_enc Sy R0 N0 s1 W1); exact Hrow).
  unfold getn in *. destruct (nth row (enc s1) 0 =? 1); [|apply IH; auto].
  destruct Hcase as (cc & t & Hr & Hct & Wc & Pc & _ & Kc & Cc & _).
  rewrite (nth_chk_in (rws s1) row []) by (rewrite (wf_rws Sy R0 N0 s1 W1); exact Hrow).
  rewrite (nth_chk_in (ct s1) row None) by (rewrite (wf_ct Sy R0 N0 s1 W1); exact Hrow).
  rewrite Hr, Hct, (consume_chk_wf s1 row W1 Hrow), (HD (consume s1 row) cc t Wc Pc Cc).
  destruct (decode sxor s0 f (consume s1 row) cc t) as [s2|] eqn:Ed; [|reflexivity].
  cbn [lift].
  destruct (decode_contract Sy sxor s0 H0 R0 N0 H0_len H0_nodup H0_range H0_deg R_le_N f
              (consume s1 row) cc t s2 Wc Pc Kc Cc Ed) as (W2 & _ & _ & _ & Post2).
  apply IH; auto. destruct Post2 as [Hc2|(HI2 & _)]; auto.
Qed.

Lemma decode_chk_eq : forall f, DecEq f.
Proof.
  induction f as [|f IH]; intros s e v W HP He; [reflexivity|].
  rewrite decode_chk_unfold, decode_unfold, (known_chk_wf s e W He).
  destruct (known s e) eqn:Hke; [reflexivity|]. rewrite (set_tab_chk_wf s e v W He). cbv zeta.
  destruct (decode_front Sy H0 R0 N0 H0_len R_le_N s e v W HP Hke He) as (Wx & _ & Hkx & _ & _ & _ & Hrows).
  replace (if r (set_tab s e v) <=? e then is_complete_chk (set_tab s e v) else Some (false, set_tab s e v))
    with (Some (if r (set_tab s e v) <=? e then is_complete (set_tab s e v) else (false, set_tab s e v)))
    by (destruct (r (set_tab s e v) <=? e); [symmetry; apply is_complete_chk_wf, set_tab_wf; assumption|reflexivity]).
  set (p := if r (set_tab s e v) <=? e then _ else _) in *.
  destruct (fst p); [reflexivity|].
  assert (Hkex : known (snd p) e = true) by (rewrite Hkx, Nat.eqb_refl; apply orb_true_r).
  rewrite (step2_chk_wf (snd p) e v Wx (rowinv_rowsb (snd p) _ (Some e) Wx Hrows)).
  pose proof (step2_spec Sy sxor s0 H0 R0 N0 H0_len H0_nodup H0_range H0_deg R_le_N (snd p) e v Wx He Hkex Hrows) as H2.
  destruct (step2 sxor s0 (snd p) e v) as [s2 L].
  destruct H2 as (W2 & _ & _ & I2 & _ & L2).
  apply (step3_chk_eq f IH); auto.
  intros i Hi. apply L2. now apply in_rev.
Qed.

Lemma decode_chk_eq_complete f (s : st) e v : WF s -> RowsB s -> iscomp s -> e < N0 ->
  decode_chk sxor s0 f s e v = lift (decode sxor s0 f s e v).
Proof.
  intros W HB Hc He. destruct f as [|f]; [reflexivity|].
  rewrite decode_chk_unfold, decode_unfold, (known_chk_wf s e W He).
  destruct (known s e) eqn:Hke; [reflexivity|].
  rewrite (set_tab_chk_wf s e v W He). cbv zeta.
  destruct (set_tab_wf s e v W He) as (W1 & Hk1).
  assert (HB1 : RowsB (set_tab s e v)) by exact HB.
  set (s1 := set_tab s e v) in *.
  assert (Hc1 : iscomp s1) by (intros c Hcc; rewrite Hk1, Hc; auto).
  destruct (r s1 <=? e).
  - rewrite (is_complete_chk_wf s1 W1), (is_complete_iscomp s1 W1 Hc1). reflexivity.
  - cbn [fst snd]. rewrite (step2_chk_wf s1 e v W1 HB1).
    destruct (step2_wf Sy sxor s0 H0 R0 N0 H0_len H0_nodup H0_range H0_deg R_le_N s1 e v W1) as (W2 & T2).
    destruct (step2 sxor s0 s1 e v) as [s2 L]. cbn [fst] in W2, T2.
    apply step3_chk_complete; [exact W2|]. apply (iscomp_tab_eq Sy R0 N0 s1 s2 T2 Hc1).
Qed.

Theorem decode_chk_safe fuel (s : st) c v : GoodB s -> c < N0 ->
  decode_chk sxor s0 fuel s c v = lift (decode sxor s0 fuel s c v).
Proof.
  intros ((W & HG) & HB) Hc. destruct HG as [Hcomp|(HI & _)].
  - apply decode_chk_eq_complete; auto.
  - apply decode_chk_eq; auto. apply Inv_PInv. exact HI.
Qed.

Corollary decode_chk_never_oob fuel (s : st) c v : GoodB s -> c < N0 ->
  decode_chk sxor s0 fuel s c v <> OutOfBounds /\ decode_chk sxor s0 fuel s c v <> BadShape.
Proof.
  intros HG Hc. rewrite (decode_chk_safe fuel s c v HG Hc).
  destruct (decode sxor s0 fuel s c v); split; discriminate.
Qed.

Lemma decode_goodb fuel (s s' : st) c v : GoodB s -> c < N0 -> decode sxor s0 fuel s c v = Some s' -> GoodB s'.
Proof.
  intros (HG & HB) Hc Hd. split; [|apply (decode_rowsb fuel s c v s' HB Hd)].
  exact (proj1 (decode_keeps_good Sy sxor s0 H0 R0 N0 H0_len H0_nodup H0_range H0_deg R_le_N fuel s s' c v HG Hc Hd)).
Qed.

Corollary decode_chk_ok_good fuel (s : st) c v : GoodB s -> c < N0 -> N0 < fuel ->
  exists s', decode_chk sxor s0 fuel s c v = Ok s' /\ decode sxor s0 fuel s c v = Some s' /\ GoodB s'.
Proof.
  intros HG Hc Hf.
  destruct (decode_total_good Sy sxor s0 H0 R0 N0 H0_len H0_nodup H0_range H0_deg R_le_N fuel s c v (proj1 HG) Hc Hf)
    as (s' & Hd).
  exists s'. rewrite (decode_chk_safe fuel s c v HG Hc), Hd. split; [reflexivity|]. split; [reflexivity|].
  apply (decode_goodb fuel s s' c v HG Hc Hd).
Qed.

Definition stepf fuel (os : option st) (ev : nat * Sy) : option st :=
  match os with Some s => decode sxor s0 fuel s (fst ev) (snd ev) | None => None end.
Definition stepf_chk fuel (x : res) (ev : nat * Sy) : res :=
  match x with Ok s => decode_chk sxor s0 fuel s (fst ev) (snd ev) | y => y end.
Definition run_chk fuel (hist : list (nat * Sy)) : res :=
  fold_left (stepf_chk fuel) hist (Ok (init Sy R0 N0 H0)).

Lemma init_goodb : GoodB (init Sy R0 N0 H0).
Proof.
  destruct (init_good Sy sxor s0 H0 R0 N0 H0_len H0_deg R_le_N) as (G0 & _). split; [exact G0|].
  intros i c Hin. cbn [init rws] in Hin.
  destruct (Nat.lt_ge_cases i R0) as [Hi|Hi]; [apply (H0_range i c Hi Hin)|].
  rewrite nth_overflow in Hin by (rewrite H0_len; exact Hi). inversion Hin.
Qed.

Lemma fold_fuel fuel hist : fold_left (stepf_chk fuel) hist OutOfFuel = OutOfFuel.
Proof. induction hist as [|ev h IH]; [reflexivity|exact IH]. Qed.

Lemma fold_chk_eq fuel : forall hist (sA : st), GoodB sA -> (forall ev, In ev hist -> fst ev < N0) ->
  fold_left (stepf_chk fuel) hist (Ok sA) = lift (fold_left (stepf fuel) hist (Some sA)).
Proof.
  induction hist as [|ev h IH]; intros sA HG Hr; [reflexivity|].
  cbn [fold_left stepf stepf_chk].
  assert (Hev : fst ev < N0) by (apply Hr; now left).
  rewrite (decode_chk_safe fuel sA (fst ev) (snd ev) HG Hev).
  destruct (decode sxor s0 fuel sA (fst ev) (snd ev)) as [sB|] eqn:Ed; cbn [lift].
  - apply IH; [apply (decode_goodb fuel sA sB (fst ev) (snd ev) HG Hev Ed)|]. intros e He. apply Hr. now right.
  - rewrite fold_left_None, fold_fuel; reflexivity.
Qed.

Theorem run_chk_eq fuel hist : (forall ev, In ev hist -> fst ev < N0) ->
  run_chk fuel hist = lift (run Sy sxor s0 H0 R0 N0 fuel hist).
Proof. intros Hr. apply (fold_chk_eq fuel hist _ init_goodb Hr). Qed.

Corollary run_chk_never_oob fuel hist : (forall ev, In ev hist -> fst ev < N0) ->
  run_chk fuel hist <> OutOfBounds /\ run_chk fuel hist <> BadShape.
Proof.
  intros Hr. rewrite (run_chk_eq fuel hist Hr). destruct (run Sy sxor s0 H0 R0 N0 fuel hist); split; discriminate.
Qed.

Lemma fold_chk_ok fuel : N0 < fuel -> forall hist (sA : st), GoodB sA -> (forall ev, In ev hist -> fst ev < N0) ->
  exists s, fold_left (stepf_chk fuel) hist (Ok sA) = Ok s /\ fold_left (stepf fuel) hist (Some sA) = Some s /\ GoodB s.
Proof.
  intros Hf. induction hist as [|ev h IH]; intros sA HG Hr; [exists sA; auto|].
  cbn [fold_left stepf stepf_chk].
  assert (Hev : fst ev < N0) by (apply Hr; now left).
  destruct (decode_chk_ok_good fuel sA (fst ev) (snd ev) HG Hev Hf) as (sB & E1 & E2 & GB).
  rewrite E1, E2. apply IH; [exact GB|]. intros e He. apply Hr. now right.
Qed.

Theorem run_chk_ok fuel hist : N0 < fuel -> (forall ev, In ev hist -> fst ev < N0) ->
  exists s, run_chk fuel hist = Ok s /\ run Sy sxor s0 H0 R0 N0 fuel hist = Some s /\ GoodB s.
Proof. intros Hf Hr. apply (fold_chk_ok fuel Hf hist _ init_goodb Hr). Qed.

Theorem run_chk_every_call fuel hist : N0 < fuel -> (forall ev, In ev hist -> fst ev < N0) ->
  forall h1 ev h2, hist = h1 ++ ev :: h2 ->
  exists s s', run_chk fuel h1 = Ok s /\ GoodB s /\ decode_chk sxor s0 fuel s (fst ev) (snd ev) = Ok s' /\ GoodB s'.
Proof.
  intros Hf Hr h1 ev h2 E.
  assert (Hr1 : forall e, In e h1 -> fst e < N0) by (intros e He; apply Hr; rewrite E; apply in_or_app; now left).
  assert (Hev : fst ev < N0) by (apply Hr; rewrite E; apply in_or_app; right; now left).
  destruct (run_chk_ok fuel h1 Hf Hr1) as (s & E1 & _ & G1).
  destruct (decode_chk_ok_good fuel s (fst ev) (snd ev) G1 Hev Hf) as (s' & E2 & _ & G2).
  exists s, s'. auto.
Qed.

End SAFE.

(* the premises are needed: the checked copy really is stricter *)
(* a column outside the code: the plain model silently drops the write and returns Some *)
Example oob_column :
  let s := init nat 1 3 [[0; 1; 2]] in
  decode_chk Nat.add 0 10 s 5 7 = OutOfBounds /\ decode Nat.add 0 10 s 5 7 = Some s.
Proof. vm_compute. split; reflexivity. Qed.

(* a state that is not well formed (n = 3 but the symbol table has 2 entries): the completion cursor
   walks to column 2 *)
Example oob_short_table :
  let s := mk 1 3 [[0; 1; 2]] [3] [3] [@None nat] [@None nat; None] 0 in
  decode_chk Nat.add 0 10 s 1 7 = OutOfBounds /\ decode Nat.add 0 10 s 1 7 <> None.
Proof. vm_compute. split; [reflexivity|discriminate]. Qed.

(* Good alone is not enough: a complete state (Good says nothing about its rows) whose row 0 mentions
   "column" 7; a late parity symbol makes step 2 look at tab[7] *)
Example good_is_not_enough :
  let s := mk 1 2 [[0; 7]] [2] [2] [@None nat] [None; Some 5] 0 in
  Good nat [[0; 1]] 1 2 s /\ 0 < 2 /\
  decode_chk Nat.add 0 10 s 0 9 = OutOfBounds /\ decode Nat.add 0 10 s 0 9 <> None.
Proof.
  cbv zeta. split; [|split; [lia|vm_compute; split; [reflexivity|discriminate]]].
  split.
  - constructor; cbn; try reflexivity; try lia.
  - left. intros c Hc. assert (c = 1) by lia. subst c. reflexivity.
Qed.

Print Assumptions decode_chk_refines.
Print Assumptions decode_chk_safe.
Print Assumptions decode_chk_never_oob.
Print Assumptions decode_chk_ok_good.
Print Assumptions run_chk_eq.
Print Assumptions run_chk_never_oob.
Print Assumptions run_chk_ok.
Print Assumptions run_chk_every_call.
Print Assumptions good_is_not_enough.
