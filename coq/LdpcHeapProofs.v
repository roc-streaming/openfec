(* The ownership ledger of LdpcHeap.v (C08: a released session leaves nothing behind).
   The ledger never changes the control flow.  The ledger invariant HInv (a block per partial sum, a table entry
   per stored symbol, repair entries are library copies, no block referenced twice, live = referenced, fresh names
   are fresh) holds initially and is kept by every submission, from the states of a session (ITProofs.Good) over a
   well-formed parity-check matrix, and by sync_ct / sync_tab of the finish; the ledger gets stuck only if the
   control model does (no invalid free, the block of a ready row always exists); the release never frees a block
   that is not live, and what stays live is exactly the library blocks in source entries.
   The well-formedness of the matrix is necessary: see hdecode_inv_needs_wf at the end of the file. *)
From Coq Require Import List Arith Bool Lia Permutation Morphisms.
From OFV Require Import ListAux ITModel ITLemmas ITProofs DenseSolve MLModel StableTables LdpcHeap.
From OFV Require MLFinish.
Import ListNotations.

Lemma Forall2_nth_iff {A B : Type} (R : A -> B -> Prop) da db : R da db -> forall l1 l2,
  Forall2 R l1 l2 <-> length l1 = length l2 /\ forall i, R (nth i l1 da) (nth i l2 db).
Proof.
  intros Hd l1 l2. split.
  - induction 1 as [|a b l1 l2 Hab _ [Hl Hn]].
    + split; [reflexivity|]. intros [|i]; exact Hd.
    + split; [cbn [length]; rewrite Hl; reflexivity|]. intros [|i]; [exact Hab|apply Hn].
  - revert l2. induction l1 as [|a l1 IH]; intros [|b l2] [Hl Hn]; try discriminate Hl; constructor.
    + exact (Hn 0).
    + apply IH. split; [injection Hl as Hl; exact Hl|]. intros i. exact (Hn (S i)).
Qed.

Lemma Forall2_upd {A B : Type} (R : A -> B -> Prop) l1 l2 i x y :
  Forall2 R l1 l2 -> R x y -> Forall2 R (upd l1 i x) (upd l2 i y).
Proof. intros H Hxy. revert i. induction H as [|a b l1 l2 Hab H IH]; intros [|i]; cbn [upd]; constructor; auto. Qed.

(* two partial tables are defined at the same places: Forall2 sd; the second wherever the first is: Forall2 ld *)
Definition sd {A B : Type} (a : option A) (b : option B) : Prop := a <> None <-> b <> None.
Definition ld {A B : Type} (a : option A) (b : option B) : Prop := a <> None -> b <> None.

Lemma ld_None {A B : Type} : ld (@None A) (@None B).
Proof. intros H. exfalso. apply H. reflexivity. Qed.

Lemma sd_None {A B : Type} : sd (@None A) (@None B).
Proof. split; intros H; exfalso; apply H; reflexivity. Qed.
Lemma sd_nth_iff {A B : Type} (l1 : list (option A)) (l2 : list (option B)) :
  Forall2 sd l1 l2 <-> length l1 = length l2 /\ forall i, nth i l1 None <> None <-> nth i l2 None <> None.
Proof. exact (Forall2_nth_iff sd None None sd_None l1 l2). Qed.
Lemma sd_Some {A B : Type} (x : A) (y : B) : sd (Some x) (Some y).
Proof. split; intros _; discriminate. Qed.
Lemma sd_None_inv {A B : Type} (a : option A) : sd a (@None B) -> a = None.
Proof. destruct a; [|reflexivity]. intros [H _]. exfalso. apply H; [discriminate|reflexivity]. Qed.
(* an entry is kept by a walk that fills only entries that are empty and wanted *)
Lemma sd_keep {A B C : Type} (c : option A) (o : option B) (n : option C) :
  sd c o -> ld o n -> o <> None \/ n = None -> sd c n.
Proof. unfold sd, ld. intros H M [Ho| ->]; [tauto|]. split; [tauto|]. intros Hx. exfalso. apply Hx. reflexivity. Qed.

Lemma keep_or_new {A B : Type} (o : option A) (n : option B) : (o <> None \/ n = None) \/ (o = None /\ n <> None).
Proof. destruct o, n; [left; left|left; left|right; split|left; right]; (discriminate || reflexivity). Qed.

(* the heap h holds exactly the blocks m *)
Definition Led (h : heap) (m : list nat) : Prop :=
  Permutation (live h) m /\ NoDup (live h) /\ forall b, In b (live h) -> b < nxt h.

#[export] Instance Led_perm : Proper (eq ==> @Permutation nat ==> iff) Led.
Proof. intros h ? <- m m' P. unfold Led. rewrite P. reflexivity. Qed.

(* the element-wise reading, as HInv and RSHeapProofs.RInv state it *)
Lemma Led_iff h m : Led h m <->
  NoDup m /\ (forall b, In b (live h) <-> In b m) /\ NoDup (live h) /\ (forall b, In b (live h) -> b < nxt h).
Proof.
  unfold Led. split.
  - intros (P & N & F). split; [rewrite <- P; exact N|]. split; [intros b; rewrite P; reflexivity|]. split; assumption.
  - intros (Nm & I & N & F). split; [apply NoDup_Permutation; assumption|]. split; assumption.
Qed.

Lemma Led_alloc h m h1 b : halloc h = (h1, b) -> Led h m -> Led h1 (b :: m).
Proof.
  intros E (P & N & F). injection E as <- <-. unfold Led. cbn [live nxt]. split; [constructor; exact P|]. split.
  - constructor; [intros Hin; apply F in Hin; lia|exact N].
  - intros x [<-|Hx]; [lia|apply F in Hx; lia].
Qed.

Lemma hmem_In b h : hmem b h = true <-> In b (live h).
Proof. apply existsb_eqb_In. Qed.

Lemma hfree_dead h b : ~ In b (live h) -> hfree h b = None.
Proof. intros H. unfold hfree. destruct (hmem b h) eqn:E; [|reflexivity]. apply hmem_In in E. contradiction. Qed.

Lemma Led_free h t m : Led h (t :: m) -> exists h', hfree h t = Some h' /\ Led h' m.
Proof.
  intros (P & N & F). unfold hfree.
  assert (Hin : In t (live h)) by (rewrite P; left; reflexivity).
  rewrite (proj2 (hmem_In t h) Hin). eexists. split; [reflexivity|]. unfold Led. cbn [live nxt].
  assert (Nm : NoDup (t :: m)) by (rewrite <- P; exact N). inversion Nm as [|? ? Ht Nm']; subst.
  split; [|split; [apply NoDup_filter; exact N|]].
  - apply NoDup_Permutation; [apply NoDup_filter; exact N|exact Nm'|].
    intros x. rewrite filter_In, negb_true_iff, Nat.eqb_neq, P. cbn [In]. split.
    + intros [[<-|Hx] Hne]; [congruence|exact Hx].
    + intros Hx. split; [right; exact Hx|intros ->; exact (Ht Hx)].
  - intros x Hx. apply filter_In in Hx. apply F, Hx.
Qed.

Lemma free_all_none bs : fold_left (fun oh b => match oh with None => None | Some h => hfree h b end) bs None = None.
Proof. apply fold_left_None. reflexivity. Qed.

Lemma Led_free_all : forall bs h m, Led h (bs ++ m) -> exists h', free_all bs h = Some h' /\ Led h' m.
Proof.
  induction bs as [|b bs IH]; intros h m L; [exists h; split; [reflexivity|exact L]|].
  destruct (Led_free h b _ L) as (h1 & E1 & L1). destruct (IH h1 m L1) as (h2 & E2 & L2).
  exists h2. split; [|exact L2]. unfold free_all in *. cbn [fold_left]. rewrite E1. exact E2.
Qed.

Lemma somes_cons o l : somes (o :: l) = match o with Some b => [b] | None => [] end ++ somes l.
Proof. reflexivity. Qed.
Lemma lib_blocks_cons o l : lib_blocks (o :: l) = match o with Some (Lib b) => [b] | _ => [] end ++ lib_blocks l.
Proof. reflexivity. Qed.
Lemma lib_blocks_app l1 l2 : lib_blocks (l1 ++ l2) = lib_blocks l1 ++ lib_blocks l2.
Proof. unfold lib_blocks. apply flat_map_app. Qed.

Lemma somes_repeat_none k : somes (repeat None k) = [].
Proof. induction k as [|k IH]; [reflexivity|]. cbn [repeat]. rewrite somes_cons, IH. reflexivity. Qed.
Lemma lib_blocks_repeat_none k : lib_blocks (repeat None k) = [].
Proof. induction k as [|k IH]; [reflexivity|]. cbn [repeat]. rewrite lib_blocks_cons, IH. reflexivity. Qed.

(* detaching the block of an equation *)
Lemma somes_detach : forall (l : list (option nat)) row t, nth row l None = Some t ->
  Permutation (somes l) (t :: somes (upd l row None)).
Proof.
  induction l as [|o l IH]; intros [|row] t H; try discriminate H; cbn [nth] in H; cbn [upd]; rewrite !somes_cons.
  - subst o. reflexivity.
  - rewrite (IH row t H). symmetry. apply Permutation_middle.
Qed.

(* storing a buffer in an empty table entry *)
Lemma lib_blocks_store : forall (l : list (option own)) c b, nth c l None = None -> c < length l ->
  Permutation (lib_blocks (upd l c (Some (Lib b)))) (b :: lib_blocks l).
Proof.
  induction l as [|o l IH]; intros [|c] b H Hc; cbn [length] in Hc; try lia; cbn [nth] in H; cbn [upd];
    rewrite !lib_blocks_cons.
  - subst o. reflexivity.
  - rewrite (IH c b H) by lia. symmetry. apply Permutation_middle.
Qed.

Lemma lib_blocks_store_app : forall (l : list (option own)) c, nth c l None = None ->
  lib_blocks (upd l c (Some App)) = lib_blocks l.
Proof.
  induction l as [|o l IH]; intros [|c] H; try reflexivity; cbn [nth] in H; cbn [upd]; rewrite !lib_blocks_cons.
  - subst o. reflexivity.
  - rewrite (IH c H). reflexivity.
Qed.

Section SIM.
Variable cbf : nat -> bool.

(* one unfolding of hstep3, as an equation to rewrite with (cbn would inline the lets) *)
Lemma hstep3_cons (dec : hst -> nat -> own -> option hst) row L' (s : hst) :
  hstep3 cbf dec (row :: L') s =
  (let '(c', cs) := is_complete (core s) in
   if c' then Some (with_core s cs) else
   if getn (enc cs) row =? 1 then
     match nth row (rws cs) [], nth row (ct cs) None, nth row (hct s) None with
     | [cc], Some _, Some t =>
         let s1 := {| core := consume cs row; hct := upd (hct s) row None; htab := htab s; hp := hp s;
                      ncb := ncb s; idx := idx s; mat := mat s |} in
         if r cs <=? cc then
           let s1' := {| core := core s1; hct := hct s1; htab := htab s1; hp := hp s1; ncb := S (ncb s1); idx := idx s1; mat := mat s1 |} in
           if cbf (ncb s1) then
             match hfree (hp s1') t with
             | None => None
             | Some h' => match dec (with_heap s1' h') cc App with None => None | Some s2 => hstep3 cbf dec L' s2 end
             end
           else match dec s1' cc (Lib t) with None => None | Some s2 => hstep3 cbf dec L' s2 end
         else
           match dec {| core := core s1; hct := hct s1; htab := htab s1; hp := hp s1; ncb := S (ncb s1); idx := idx s1; mat := mat s1 |} cc App with
           | None => None
           | Some s2 => match hfree (hp s2) t with None => None | Some h' => hstep3 cbf dec L' (with_heap s2 h') end
           end
     | _, _, _ => None
     end
   else hstep3 cbf dec L' (with_core s cs)).
Proof. reflexivity. Qed.

(* dec rides on cdec *)
Definition SimD (dec : hst -> nat -> own -> option hst) (cdec : cst -> nat -> unit -> option cst) : Prop :=
  forall s c p s', dec s c p = Some s' -> cdec (core s) c tt = Some (core s').

Lemma hstep3_sim dec cdec : SimD dec cdec ->
  forall L s s', hstep3 cbf dec L s = Some s' -> step3 cdec L (core s) = Some (core s').
Proof.
  intros Hd. induction L as [|row L IH]; intros s s' H.
  - injection H as <-. reflexivity.
  - rewrite hstep3_cons in H. rewrite step3_cons. destruct (is_complete (core s)) as [b cs]. destruct b.
    + injection H as <-. reflexivity.
    + destruct (getn (enc cs) row =? 1); [|exact (IH _ _ H)].
      destruct (nth row (rws cs) []) as [|cc [|c2 rest]]; try discriminate H.
      destruct (nth row (ct cs) None) as [[]|]; [|discriminate H].
      destruct (nth row (hct s) None) as [t|]; [|discriminate H].
      cbn [core hct htab hp ncb idx mat] in H.
      destruct (r cs <=? cc); [destruct (cbf (ncb s))|].
      * destruct (hfree (hp s) t) as [h'|]; [|discriminate H].
        destruct (dec _ cc App) as [s2|] eqn:Ed; [|discriminate H]. apply Hd in Ed. cbn [core with_heap] in Ed.
        rewrite Ed. exact (IH _ _ H).
      * destruct (dec _ cc (Lib t)) as [s2|] eqn:Ed; [|discriminate H]. apply Hd in Ed. cbn [core] in Ed.
        rewrite Ed. exact (IH _ _ H).
      * destruct (dec _ cc App) as [s2|] eqn:Ed; [|discriminate H]. apply Hd in Ed. cbn [core] in Ed.
        rewrite Ed. destruct (hfree (hp s2) t) as [h'|]; [|discriminate H]. exact (IH _ _ H).
Qed.

Lemma hdecode_simD : forall fuel, SimD (hdecode cbf fuel) (decode ux tt fuel).
Proof.
  induction fuel as [|f IH]; intros s c p s' H; [discriminate H|].
  cbn [hdecode] in H. rewrite decode_unfold. destruct (known (core s) c).
  - injection H as <-. reflexivity.
  - destruct (if c <? r (core s) then let '(h1, b) := halloc (hp s) in (Lib b, h1) else (p, hp s)) as [p' h1].
    cbv zeta.
    destruct (if r (set_tab (core s) c tt) <=? c then is_complete (set_tab (core s) c tt) else (false, set_tab (core s) c tt))
      as [b sx]. cbn [fst snd] in H |- *. destruct b.
    + injection H as <-. reflexivity.
    + destruct (step2 ux tt sx c tt) as [cs2 L].
      destruct (alloc_new (ct sx) (ct cs2) (hct s) h1) as [hct2 h2].
      exact (hstep3_sim _ _ IH _ _ _ H).
Qed.

Theorem hdecode_sim : forall fuel s c p,
  match hdecode cbf fuel s c p with Some s' => decode ux tt fuel (core s) c tt = Some (core s') | None => True end.
Proof.
  intros fuel s c p. destruct (hdecode cbf fuel s c p) as [s'|] eqn:E; [|exact I]. exact (hdecode_simD fuel s c p s' E).
Qed.

(* a history of submissions (every buffer is the application's) *)
Definition hrun (fuel : nat) (s : hst) (esis : list nat) : option hst :=
  fold_left (fun os c => match os with Some s => hdecode cbf fuel s c App | None => None end) esis (Some s).
Definition crun (fuel : nat) (s : cst) (esis : list nat) : option cst :=
  fold_left (fun os c => match os with Some s => decode ux tt fuel s c tt | None => None end) esis (Some s).

Lemma hrun_cons fuel s c esis : hrun fuel s (c :: esis) =
  match hdecode cbf fuel s c App with Some s1 => hrun fuel s1 esis | None => None end.
Proof.
  unfold hrun. cbn [fold_left]. destruct (hdecode cbf fuel s c App); [reflexivity|]. apply fold_left_None. reflexivity.
Qed.

Lemma crun_cons fuel s c esis : crun fuel s (c :: esis) =
  match decode ux tt fuel s c tt with Some s1 => crun fuel s1 esis | None => None end.
Proof.
  unfold crun. cbn [fold_left]. destruct (decode ux tt fuel s c tt); [reflexivity|]. apply fold_left_None. reflexivity.
Qed.

Theorem hrun_sim fuel : forall esis s s', hrun fuel s esis = Some s' -> crun fuel (core s) esis = Some (core s').
Proof.
  induction esis as [|c l IH]; intros s s' H.
  - injection H as <-. reflexivity.
  - rewrite hrun_cons in H. rewrite crun_cons. destruct (hdecode cbf fuel s c App) as [s1|] eqn:E; [|discriminate H].
    rewrite (hdecode_simD fuel s c App s1 E). exact (IH s1 s' H).
Qed.

Theorem hfinish_sim fuel perm s s' ok : hfinish cbf fuel perm s = Some (s', ok) ->
  exists o, ml_finish ux tt fuel perm (core s) = Some o /\ core s' = o_st o /\ ok = o_ok o.
Proof.
  unfold hfinish. intros H. destruct (ml_finish ux tt fuel perm (core s)) as [o|]; [|discriminate H].
  exists o. split; [reflexivity|]. cbv zeta in H.
  destruct (sync_ct (ct (o_st o)) (hct s) (hp s)) as [[hct' h1]|]; [|discriminate H].
  destruct (sync_tab cbf (r (o_st o)) 0 (tab (o_st o)) (htab s) h1 (ncb s)) as [[htab' h2] nc'].
  injection H as <- <-. split; reflexivity.
Qed.
End SIM.

Definition HInv (s : hst) : Prop :=
  (length (hct s) = length (ct (core s))
   /\ forall row, nth row (hct s) None <> None <-> nth row (ct (core s)) None <> None)
  /\ (length (htab s) = length (tab (core s))
      /\ forall c, nth c (htab s) None <> None <-> nth c (tab (core s)) None <> None)
  /\ (forall c, c < r (core s) -> forall o, nth c (htab s) None = Some o -> exists b, o = Lib b)
  /\ NoDup (somes (hct s) ++ lib_blocks (htab s))
  /\ ((forall b, In b (live (hp s)) <-> In b (somes (hct s) ++ lib_blocks (htab s))) /\ NoDup (live (hp s)))
  /\ (forall b, In b (live (hp s)) -> b < nxt (hp s)).

(* the same on components, with a list X of detached blocks (live, referenced by no table): the blocks that the
   enclosing step-3 frames hold while the recursive call runs *)
Definition Shape (ctl tabl : list (option unit)) (rr : nat) (hc : list (option nat)) (ht : list (option own)) : Prop :=
  Forall2 sd hc ctl /\ Forall2 sd ht tabl
  /\ (forall c, c < rr -> forall o, nth c ht None = Some o -> exists b, o = Lib b).
Definition LIc X ctl tabl rr hc ht h : Prop := Shape ctl tabl rr hc ht /\ Led h (X ++ somes hc ++ lib_blocks ht).
Definition LInv (X : list nat) (s : hst) : Prop :=
  LIc X (ct (core s)) (tab (core s)) (r (core s)) (hct s) (htab s) (hp s).

Lemma HInv_LInv s : HInv s <-> LInv [] s.
Proof.
  unfold HInv, LInv, LIc, Shape. cbn [app]. split.
  - intros (A & B & C & D & (E1 & E2) & F).
    split; [split; [apply sd_nth_iff, A|split; [apply sd_nth_iff, B|exact C]]|apply Led_iff; auto].
  - intros ((A & B & C) & L). apply sd_nth_iff in A, B. apply Led_iff in L. destruct L as (D & E1 & E2 & F).
    exact (conj A (conj B (conj C (conj D (conj (conj E1 E2) F))))).
Qed.

(* step 3 detaches the block of the row *)
Lemma LIc_detach X ctl tabl rr hc ht h row t : nth row hc None = Some t -> LIc X ctl tabl rr hc ht h ->
  LIc (t :: X) (upd ctl row None) tabl rr (upd hc row None) ht h.
Proof.
  intros Hr ((A & B) & L). split; [split; [apply Forall2_upd; [exact A|exact sd_None]|exact B]|].
  rewrite (somes_detach hc row t Hr) in L. cbn [app] in L |- *. rewrite <- Permutation_middle in L. exact L.
Qed.

(* step 1: the symbol is stored in its (empty) table entry *)
Lemma Shape_store ctl tabl rr hc ht c o : Shape ctl tabl rr hc ht -> (c < rr -> exists b, o = Lib b) ->
  Shape ctl (upd tabl c (Some tt)) rr hc (upd ht c (Some o)).
Proof.
  intros (A & B & C) Ho. split; [exact A|]. split; [apply Forall2_upd; [exact B|apply sd_Some]|].
  intros c' Hc' o' Hn. rewrite upd_same, ListAux.nth_upd in Hn. destruct ((c' =? c) && (c <? length ht)) eqn:E.
  - injection Hn as <-. apply andb_true_iff in E. destruct E as [E _]. apply Nat.eqb_eq in E. subst c'. exact (Ho Hc').
  - exact (C c' Hc' o' Hn).
Qed.

(* a block that is live and detached (freshly allocated, or handed over by step 3) becomes the stored buffer *)
Lemma Led_store_lib X hc ht h c b : nth c ht None = None -> c < length ht ->
  Led h ((b :: X) ++ somes hc ++ lib_blocks ht) -> Led h (X ++ somes hc ++ lib_blocks (upd ht c (Some (Lib b)))).
Proof. intros Hn Hc L. rewrite (lib_blocks_store ht c b Hn Hc), <- !Permutation_middle. exact L. Qed.

(* partial sums: Z is everything else that is live *)
Lemma sync_ct_spec : forall (new : list (option unit)) hc h Z, length hc = length new -> Led h (somes hc ++ Z) ->
  exists hc2 h2, sync_ct new hc h = Some (hc2, h2) /\ Forall2 sd hc2 new /\ Led h2 (somes hc2 ++ Z).
Proof.
  induction new as [|nw new IH]; intros [|c hc] h Z Hl L; try discriminate Hl.
  - exists [], h. split; [reflexivity|]. split; [constructor|exact L].
  - injection Hl as Hl. cbn [sync_ct]. rewrite somes_cons in L.
    destruct nw as [[]|], c as [b|]; cbn [app] in L.
    + (* kept *)
      rewrite Permutation_middle in L. destruct (IH hc h _ Hl L) as (rr & h2 & E & F2 & L2). rewrite E.
      exists (Some b :: rr), h2. split; [reflexivity|]. split; [constructor; [apply sd_Some|exact F2]|].
      rewrite <- Permutation_middle in L2. exact L2.
    + (* created by the simplification *)
      destruct (halloc h) as [h1 b] eqn:Eh. apply (Led_alloc _ _ _ _ Eh) in L. rewrite Permutation_middle in L.
      destruct (IH hc h1 _ Hl L) as (rr & h2 & E & F2 & L2). rewrite E.
      exists (Some b :: rr), h2. split; [reflexivity|]. split; [constructor; [apply sd_Some|exact F2]|].
      rewrite <- Permutation_middle in L2. exact L2.
    + (* taken by the solver *)
      destruct (Led_free _ _ _ L) as (h1 & E1 & L1). rewrite E1.
      destruct (IH hc h1 _ Hl L1) as (rr & h2 & E & F2 & L2). rewrite E.
      exists (None :: rr), h2. split; [reflexivity|]. split; [constructor; [apply sd_None|exact F2]|exact L2].
    + destruct (IH hc h _ Hl L) as (rr & h2 & E & F2 & L2). rewrite E.
      exists (None :: rr), h2. split; [reflexivity|]. split; [constructor; [apply sd_None|exact F2]|exact L2].
Qed.

(* step 2 creates partial sums and removes none: its alloc_new is sync_ct, which then frees nothing *)
Lemma alloc_new_sync_ct : forall hc (old : list (option unit)), Forall2 sd hc old ->
  forall new, Forall2 ld old new -> forall h, sync_ct new hc h = Some (alloc_new old new hc h).
Proof.
  induction 1 as [|c o hc old Hco _ IH]; intros new Hm h; inversion Hm as [|? nw ? new' Hon Hm']; subst; [reflexivity|].
  cbn [sync_ct alloc_new]. destruct o as [[]|]; [|rewrite (sd_None_inv c Hco)].
  - destruct nw as [[]|]; [|exfalso; apply Hon; [discriminate|reflexivity]].
    destruct c as [b|]; [|exfalso; apply (proj2 Hco); [discriminate|reflexivity]].
    rewrite (IH _ Hm' h). destruct (alloc_new old new' hc h). reflexivity.
  - destruct nw as [[]|].
    + destruct (halloc h) as [h1 b]. rewrite (IH _ Hm' h1). destruct (alloc_new old new' hc h1). reflexivity.
    + rewrite (IH _ Hm' h). destruct (alloc_new old new' hc h). reflexivity.
Qed.

Lemma LIc_alloc_new X ctl ctl2 tabl rr hc ht h : LIc X ctl tabl rr hc ht h ->
  length ctl2 = length ctl -> (forall row, nth row ctl None <> None -> nth row ctl2 None <> None) ->
  let '(hc2, h2) := alloc_new ctl ctl2 hc h in LIc X ctl2 tabl rr hc2 ht h2.
Proof.
  intros ((A & B) & L) Hl M. rewrite Permutation_app_comm, <- app_assoc in L.
  assert (Hm : Forall2 ld ctl ctl2).
  { apply (Forall2_nth_iff _ None None ld_None). split; [symmetry; exact Hl|exact M]. }
  assert (Hlen : length hc = length ctl2) by (rewrite Hl; apply (sd_nth_iff hc ctl), A).
  destruct (sync_ct_spec ctl2 hc h _ Hlen L) as (hc2 & h2 & E & A2 & L2).
  rewrite (alloc_new_sync_ct hc ctl A ctl2 Hm h) in E. injection E as ->.
  split; [split; assumption|]. rewrite Permutation_app_comm, <- app_assoc. exact L2.
Qed.

(* step 2 never removes a partial sum *)
Lemma step2_row_ct_mono (s : cst) c i row : nth row (ct s) None <> None ->
  nth row (ct (fst (step2_row ux tt s c tt i))) None <> None.
Proof.
  intros H. unfold step2_row.
  destruct (match nth i (ct s) None with
            | Some t => Some t
            | None => if getn (unk s) i - 1 =? 1 then Some tt else None end); cbn [fst ct]; [|exact H].
  rewrite upd_same, ListAux.nth_upd. destruct ((row =? i) && (i <? length (ct s))); [discriminate|exact H].
Qed.

Lemma step2_ct_mono (s : cst) c row : nth row (ct s) None <> None ->
  nth row (ct (fst (step2 ux tt s c tt))) None <> None.
Proof.
  intros H. unfold step2. apply (fold_left_inv (fun p : cst * list nat => nth row (ct (fst p)) None <> None)); [|exact H].
  intros [s1 L] a H1. pose proof (step2_row_ct_mono s1 c a row H1) as Hr.
  destruct (step2_row ux tt s1 c tt a) as [s2 rdy]. exact Hr.
Qed.

(* the decoder on the states of a session (ITProofs: WF, Inv / PInv, Good) over a well-formed matrix *)
Section INV.
Variable cbf : nat -> bool.
Variable H0 : list (list nat).
Variable R0 N0 : nat.
Hypothesis H0_len : length H0 = R0.
Hypothesis H0_nodup : forall i, i < R0 -> NoDup (nth i H0 []).
Hypothesis H0_range : forall i c, i < R0 -> In c (nth i H0 []) -> c < N0.
Hypothesis H0_deg : forall i, i < R0 -> 2 <= length (nth i H0 []).
Hypothesis R_le_N : R0 <= N0.

Notation WF := (WF unit R0 N0).
Notation Inv := (Inv unit H0 R0).
Notation PInv := (PInv unit H0 R0).
Notation Good := (Good unit H0 R0 N0).
Notation iscomp := (iscomp unit R0 N0).
Notation Contract := (Contract unit H0 R0 N0).

(* the buffer handed to a (recursive) call: the application's, or a detached block, and then for a source column *)
Definition pext (p : own) (X : list nat) : list nat := match p with App => X | Lib b => b :: X end.
Definition pok (p : own) (c : nat) : Prop := match p with App => True | Lib _ => R0 <= c end.

(* states that differ in the completion cursor only *)
Lemma LInv_with_core X s c' : WF (core s) -> WF c' -> ct c' = ct (core s) -> tab c' = tab (core s) ->
  LInv X s -> LInv X (with_core s c').
Proof.
  intros W W' D T H. unfold LInv in *. cbn [with_core core hct htab hp].
  rewrite D, T, (wf_r unit R0 N0 c' W'), <- (wf_r unit R0 N0 (core s) W). exact H.
Qed.

Lemma hstore X s c p p' h1 : WF (core s) -> known (core s) c = false -> c < N0 -> pok p c -> LInv (pext p X) s ->
  (if c <? r (core s) then let '(h1, b) := halloc (hp s) in (Lib b, h1) else (p, hp s)) = (p', h1) ->
  LIc X (ct (core s)) (upd (tab (core s)) c (Some tt)) (r (core s)) (hct s) (upd (htab s) c (Some p')) h1.
Proof.
  intros W Hk Hc Hp (Sh & Ld) E.
  destruct (proj1 (sd_nth_iff _ _) (proj1 (proj2 Sh))) as [Bl Bn].
  assert (Hnh : nth c (htab s) None = None).
  { apply (sd_None_inv (B := unit)). rewrite <- (known_false_nth _ _ Hk). apply Bn. }
  assert (Hlen : c < length (htab s)) by (rewrite Bl, (wf_tab unit R0 N0 (core s) W); exact Hc).
  rewrite (wf_r unit R0 N0 (core s) W) in E, Sh |- *.
  destruct (c <? R0) eqn:Ecr.
  - apply Nat.ltb_lt in Ecr. destruct (halloc (hp s)) as [h' b] eqn:Eh. injection E as <- <-.
    destruct p as [|b']; cbn [pok pext] in Hp, Ld; [|lia].
    split; [apply Shape_store; [exact Sh|intros _; eexists; reflexivity]|].
    apply Led_store_lib; [exact Hnh|exact Hlen|]. exact (Led_alloc _ _ _ _ Eh Ld).
  - apply Nat.ltb_ge in Ecr. injection E as <- <-.
    split; [apply Shape_store; [exact Sh|intros Hlt; lia]|]. destruct p as [|b]; cbn [pext] in Ld.
    + rewrite (lib_blocks_store_app _ _ Hnh). exact Ld.
    + apply Led_store_lib; assumption.
Qed.

(* what a (recursive) call of the decoder owes to step 3: if the control model returns, so does the ledger model,
   on the same control state, and the blocks in X are still detached *)
Definition DecMain (dec : hst -> nat -> own -> option hst) (cdec : cst -> nat -> unit -> option cst) : Prop :=
  forall X s c p cs', WF (core s) -> iscomp (core s) \/ PInv (core s) c -> known (core s) c = false -> c < N0 ->
    pok p c -> LInv (pext p X) s -> cdec (core s) c tt = Some cs' ->
    exists s', dec s c p = Some s' /\ core s' = cs' /\ LInv X s'.

Lemma hstep3_main dec cdec : Contract cdec -> DecMain dec cdec ->
  forall L X s cs', WF (core s) -> iscomp (core s) \/ Inv (core s) -> LInv X s -> step3 cdec L (core s) = Some cs' ->
    exists s', hstep3 cbf dec L s = Some s' /\ core s' = cs' /\ LInv X s'.
Proof.
  intros HC HD. induction L as [|row L IH]; intros X s cs' W HG HLI H.
  - injection H as <-. exists s. auto.
  - rewrite step3_cons in H. rewrite hstep3_cons.
    pose proof (step3_iter unit ux tt H0 R0 N0 H0_len H0_range H0_deg R_le_N cdec (core s) row HC W HG) as Hs.
    destruct (is_complete (core s)) as [b s1]. destruct Hs as (W1 & T1 & D1 & Hb).
    pose proof (LInv_with_core X s s1 W W1 D1 T1 HLI) as HLI1.
    destruct b; [injection H as <-; exists (with_core s s1); auto|].
    destruct (Hb eq_refl) as (HI1 & Hready).
    destruct (getn (enc s1) row =? 1) eqn:E1; [|exact (IH X (with_core s s1) cs' W1 (or_intror HI1) HLI1 H)].
    destruct (Hready (proj1 (Nat.eqb_eq _ _) E1)) as (cc & [] & Hr & Hct & Wc & Pc & Kc & Cc & Hnest).
    rewrite Hr, Hct in H |- *.
    (* the row has a partial sum, hence a block *)
    destruct (nth row (hct s) None) as [tb|] eqn:Ehct.
    2:{ exfalso. destruct HLI1 as ((A & _) & _). apply sd_nth_iff in A.
        cbn [with_core core hct] in A. apply (proj2 (proj2 A row)); [rewrite Hct; discriminate|exact Ehct]. }
    destruct (cdec (consume s1 row) cc tt) as [cs2|] eqn:Ed; [|discriminate H].
    destruct (Hnest cs2 eq_refl) as (W2 & HG2).
    pose proof (LIc_detach _ _ _ _ _ _ _ row tb Ehct HLI1) as HD1. cbn [with_core core hct htab hp] in HD1.
    cbn [core hct htab hp ncb idx mat].
    destruct (r s1 <=? cc) eqn:Ercc; [destruct (cbf (ncb s))|].
    + (* source, the callback gave a buffer: the block is freed first *)
      destruct HD1 as (ShD & LdD). destruct (Led_free _ _ _ LdD) as (h' & Ef & Ld'). rewrite Ef.
      match goal with |- context [dec ?a cc App] =>
        destruct (HD X a cc App cs2 Wc (or_intror Pc) Kc Cc I (conj ShD Ld') Ed) as (s2 & E2 & <- & L2) end.
      rewrite E2. exact (IH X s2 cs' W2 HG2 L2 H).
    + (* source, no buffer: the block is handed to the call *)
      assert (Hpk : pok (Lib tb) cc).
      { cbn [pok]. apply Nat.leb_le in Ercc. rewrite (wf_r unit R0 N0 s1 W1) in Ercc. exact Ercc. }
      match goal with |- context [dec ?a cc (Lib tb)] =>
        destruct (HD X a cc (Lib tb) cs2 Wc (or_intror Pc) Kc Cc Hpk HD1 Ed) as (s2 & E2 & <- & L2) end.
      rewrite E2. exact (IH X s2 cs' W2 HG2 L2 H).
    + (* repair: the block stays detached during the call and is freed after it *)
      match goal with |- context [dec ?a cc App] =>
        destruct (HD (tb :: X) a cc App cs2 Wc (or_intror Pc) Kc Cc I HD1 Ed) as (s2 & E2 & <- & Sh2 & Ld2) end.
      rewrite E2. destruct (Led_free _ _ _ Ld2) as (h' & Ef & Ld'). rewrite Ef.
      exact (IH X (with_heap s2 h') cs' W2 HG2 (conj Sh2 Ld') H).
Qed.

Lemma hdecode_main : forall fuel, DecMain (hdecode cbf fuel) (decode ux tt fuel).
Proof.
  induction fuel as [|f IH]; intros X s c p cs' W HG Hk Hc Hpok HLI Hdec; [discriminate Hdec|].
  rewrite decode_unfold, Hk in Hdec. cbn [hdecode]. rewrite Hk.
  destruct (if c <? r (core s) then let '(h1, b) := halloc (hp s) in (Lib b, h1) else (p, hp s)) as [p' h1] eqn:Eph.
  pose proof (hstore X s c p p' h1 W Hk Hc Hpok HLI Eph) as HS.
  destruct (decode_steps12 unit ux tt H0 R0 N0 H0_len H0_nodup H0_range H0_deg R_le_N (core s) c tt W HG Hk Hc)
    as (b & i & Ee & Wx & H2).
  cbv zeta in Hdec |- *. rewrite Ee in Hdec |- *. cbn [fst snd] in Hdec |- *.
  (* sx has the partial sums and the r of core s: HS is the ledger invariant of the state {core := sx; ...} *)
  set (sx := set_fnd (set_tab (core s) c tt) i) in *.
  destruct b; [injection Hdec as <-; eexists; split; [reflexivity|]; split; [reflexivity|exact HS]|].
  pose proof (fun row => step2_ct_mono sx c row) as Hmono.
  destruct (step2 ux tt sx c tt) as [s2 L]. destruct H2 as (W2 & T2 & HG2). cbn [fst] in Hmono.
  assert (Hl2 : length (ct s2) = length (ct sx))
    by (rewrite (wf_ct unit R0 N0 s2 W2), (wf_ct unit R0 N0 sx Wx); reflexivity).
  pose proof (LIc_alloc_new X (ct sx) (ct s2) _ _ _ _ _ HS Hl2 Hmono) as HA.
  destruct (alloc_new (ct sx) (ct s2) (hct s) h1) as [hct2 h2].
  assert (Er2 : r s2 = r (core s)) by (rewrite (wf_r unit R0 N0 s2 W2), (wf_r unit R0 N0 (core s) W); reflexivity).
  rewrite <- T2, <- Er2 in HA.
  match goal with |- exists s', hstep3 _ _ _ ?a = Some s' /\ _ =>
    exact (hstep3_main _ _ (decode_contract unit ux tt H0 R0 N0 H0_len H0_nodup H0_range H0_deg R_le_N f) IH
             (rev L) X a cs' W2 HG2 HA Hdec) end.
Qed.

Lemma hdecode_top fuel s c cs' : Good (core s) -> c < N0 -> LInv [] s ->
  decode ux tt fuel (core s) c tt = Some cs' ->
  exists s', hdecode cbf fuel s c App = Some s' /\ core s' = cs' /\ LInv [] s'.
Proof.
  intros (W & HG) Hc HLI Hdec. destruct (known (core s) c) eqn:Hk.
  - destruct fuel as [|f]; [discriminate Hdec|]. rewrite decode_unfold, Hk in Hdec. injection Hdec as <-.
    cbn [hdecode]. rewrite Hk. exists s. auto.
  - exact (hdecode_main fuel [] s c App cs' W (Good_PInv unit H0 R0 N0 (core s) c (conj W HG)) Hk Hc I HLI Hdec).
Qed.

(* the ledger gets stuck only if the control model does (no invalid free, and the block
   of a ready row is always there) *)
Theorem hdecode_no_stuck fuel s c cs' : Good (core s) -> HInv s -> c < N0 ->
  decode ux tt fuel (core s) c tt = Some cs' ->
  exists s', hdecode cbf fuel s c App = Some s' /\ core s' = cs'.
Proof.
  intros HG HI Hc Hd. apply HInv_LInv in HI.
  destruct (hdecode_top fuel s c cs' HG Hc HI Hd) as (s' & E & Ec & _). exists s'. auto.
Qed.

Theorem hdecode_total fuel s c : Good (core s) -> HInv s -> c < N0 -> N0 < fuel ->
  exists s', hdecode cbf fuel s c App = Some s'.
Proof.
  intros HG HI Hc Hf.
  destruct (decode_total_good unit ux tt H0 R0 N0 H0_len H0_nodup H0_range H0_deg R_le_N fuel (core s) c tt HG Hc Hf)
    as (cs' & Hd).
  destruct (hdecode_no_stuck fuel s c cs' HG HI Hc Hd) as (s' & E & _). exists s'. exact E.
Qed.

Theorem hdecode_inv fuel s c p s' : Good (core s) -> c < N0 -> HInv s ->
  (p = App \/ exists b, p = Lib b /\ In b (live (hp s)) /\ ~ In b (somes (hct s) ++ lib_blocks (htab s))) ->
  hdecode cbf fuel s c p = Some s' -> HInv s' /\ Good (core s').
Proof.
  intros HG Hc HI Hp H.
  assert (Ep : p = App).
  { destruct Hp as [Hp|(b & _ & Hl & Hn)]; [exact Hp|]. exfalso. apply Hn.
    destruct HI as (_ & _ & _ & _ & (E1 & _) & _). apply E1. exact Hl. }
  subst p. pose proof (hdecode_simD cbf fuel s c App s' H) as Hd.
  split; [|exact (proj1 (decode_keeps_good unit ux tt H0 R0 N0 H0_len H0_nodup H0_range H0_deg R_le_N fuel _ _ c tt HG Hc Hd))].
  apply HInv_LInv in HI. destruct (hdecode_top fuel s c (core s') HG Hc HI Hd) as (s2 & E & _ & L2).
  rewrite H in E. injection E as <-. apply HInv_LInv. exact L2.
Qed.

Theorem hrun_inv fuel : forall esis s s', Good (core s) -> (forall c, In c esis -> c < N0) -> HInv s ->
  hrun cbf fuel s esis = Some s' -> HInv s' /\ Good (core s').
Proof.
  induction esis as [|c l IH]; intros s s' HG Hr HI H.
  - injection H as <-. auto.
  - rewrite hrun_cons in H. destruct (hdecode cbf fuel s c App) as [s1|] eqn:E; [|discriminate H].
    destruct (hdecode_inv fuel s c App s1 HG (Hr c (or_introl eq_refl)) HI (or_introl eq_refl) E) as (HI1 & HG1).
    exact (IH s1 s' HG1 (fun e He => Hr e (or_intror He)) HI1 H).
Qed.

Theorem hrun_no_stuck fuel : forall esis s cs', Good (core s) -> (forall c, In c esis -> c < N0) -> HInv s ->
  crun fuel (core s) esis = Some cs' -> exists s', hrun cbf fuel s esis = Some s' /\ core s' = cs'.
Proof.
  induction esis as [|c l IH]; intros s cs' HG Hr HI H.
  - injection H as <-. exists s. auto.
  - rewrite crun_cons in H. destruct (decode ux tt fuel (core s) c tt) as [cs1|] eqn:E; [|discriminate H].
    destruct (hdecode_no_stuck fuel s c cs1 HG HI (Hr c (or_introl eq_refl)) E) as (s1 & E1 & <-).
    destruct (hdecode_inv fuel s c App s1 HG (Hr c (or_introl eq_refl)) HI (or_introl eq_refl) E1) as (HI1 & HG1).
    rewrite hrun_cons, E1. exact (IH s1 cs' HG1 (fun e He => Hr e (or_intror He)) HI1 H).
Qed.

Theorem hrun_total fuel : forall esis s, Good (core s) -> (forall c, In c esis -> c < N0) -> HInv s -> N0 < fuel ->
  exists s', hrun cbf fuel s esis = Some s'.
Proof.
  induction esis as [|c l IH]; intros s HG Hr HI Hf.
  - exists s. reflexivity.
  - destruct (hdecode_total fuel s c HG HI (Hr c (or_introl eq_refl)) Hf) as (s1 & E1).
    destruct (hdecode_inv fuel s c App s1 HG (Hr c (or_introl eq_refl)) HI (or_introl eq_refl) E1) as (HI1 & HG1).
    rewrite hrun_cons, E1. exact (IH s1 HG1 (fun e He => Hr e (or_intror He)) HI1 Hf).
Qed.

Lemma hinit_good : Good (core (hinit R0 N0 H0)).
Proof. exact (proj1 (init_good unit ux tt H0 R0 N0 H0_len H0_deg R_le_N)). Qed.
End INV.

Theorem hinit_inv r n H : HInv (hinit r n H).
Proof.
  apply HInv_LInv. unfold LInv, LIc, Shape, hinit. cbn [core hct htab hp init ct tab ITModel.r].
  rewrite somes_repeat_none, lib_blocks_repeat_none.
  assert (Hrep : forall A B k, Forall2 sd (repeat (@None A) k) (repeat (@None B) k))
    by (induction k; constructor; [apply sd_None|assumption]).
  split; [split; [apply Hrep|split; [apply Hrep|]]|].
  - intros c _ o Ho. rewrite nth_repeat_none in Ho. discriminate Ho.
  - split; [constructor|]. split; [constructor|intros b []].
Qed.

Theorem hrelease_spec s : HInv s ->
  exists h, hrelease s = Some h
    /\ (forall b, In b (live h) <-> In b (lib_blocks (skipn (r (core s)) (htab s))))
    /\ NoDup (live h).
Proof.
  intros HI. apply HInv_LInv in HI. destruct HI as (_ & L). cbn [app] in L.
  rewrite <- (firstn_skipn (r (core s)) (htab s)), lib_blocks_app, Permutation_app_swap_app, app_assoc in L.
  destruct (Led_free_all _ _ _ L) as (h & E & L2).
  exists h. split; [exact E|]. apply Led_iff in L2. tauto.
Qed.

Lemma sync_tab_keep cbf rr i nw new o ht h nc : o <> None \/ nw = None ->
  sync_tab cbf rr i (nw :: new) (o :: ht) h nc =
  let '(t2, h2, nc2) := sync_tab cbf rr (S i) new ht h nc in (o :: t2, h2, nc2).
Proof. intros [H|H]; destruct o, nw; try reflexivity; [contradiction H; reflexivity|discriminate H]. Qed.

(* the two allocating cases of sync_tab are one *)
Lemma sync_tab_new cbf rr i u new ht h nc :
  sync_tab cbf rr i (Some u :: new) (None :: ht) h nc =
  let nc' := if rr <=? i then S nc else nc in
  if (rr <=? i) && cbf nc
  then let '(t2, h2, nc2) := sync_tab cbf rr (S i) new ht h nc' in (Some App :: t2, h2, nc2)
  else let '(h1, b) := halloc h in
       let '(t2, h2, nc2) := sync_tab cbf rr (S i) new ht h1 nc' in (Some (Lib b) :: t2, h2, nc2).
Proof. cbn [sync_tab]. destruct (rr <=? i), (cbf nc); reflexivity. Qed.

(* table: Z is everything else that is live; i is the column of the head of the lists *)
Lemma sync_tab_spec cbf rr : forall ht (new : list (option unit)),
  Forall2 ld ht new ->
  forall i h nc Z, (forall c, i + c < rr -> forall o, nth c ht None = Some o -> exists b, o = Lib b) ->
  Led h (lib_blocks ht ++ Z) ->
  let '(t2, h2, _) := sync_tab cbf rr i new ht h nc in
  Forall2 sd t2 new /\ (forall c, i + c < rr -> forall o, nth c t2 None = Some o -> exists b, o = Lib b)
  /\ Led h2 (lib_blocks t2 ++ Z).
Proof.
  induction 1 as [|o nw ht new Hon Hm IH]; intros i h nc Z R L; [split; [constructor|split; assumption]|].
  assert (R' : forall c, S i + c < rr -> forall o', nth c ht None = Some o' -> exists b, o' = Lib b)
    by (intros c Hc; apply (R (S c)); lia).
  destruct (keep_or_new o nw) as [Hk|[-> Hn]].
  - (* the entry is kept, with its block if it has one *)
    rewrite (sync_tab_keep _ _ _ _ _ _ _ _ _ Hk). rewrite lib_blocks_cons, <- app_assoc, Permutation_app_swap_app in L.
    specialize (IH (S i) h nc _ R' L). destruct (sync_tab cbf rr (S i) new ht h nc) as [[t2 h2] nc2].
    destruct IH as (F2 & C2 & L2). split; [constructor; [exact (sd_keep o _ _ (iff_refl _) Hon Hk)|exact F2]|]. split.
    + intros [|c] Hc o' Ho; cbn [nth] in Ho; [exact (R 0 Hc o' Ho)|apply (C2 c); [lia|exact Ho]].
    + rewrite lib_blocks_cons, <- app_assoc, Permutation_app_swap_app. exact L2.
  - (* a symbol the finish produced *)
    destruct nw as [[]|]; [|contradiction Hn; reflexivity].
    rewrite sync_tab_new. cbv zeta. generalize (if rr <=? i then S nc else nc). intros nc'.
    destruct ((rr <=? i) && cbf nc) eqn:Eapp.
    + (* a source, in the callback's buffer *)
      specialize (IH (S i) h nc' Z R' L). destruct (sync_tab cbf rr (S i) new ht h nc') as [[t2 h2] nc2].
      destruct IH as (F2 & C2 & L2). split; [constructor; [apply sd_Some|exact F2]|]. split; [|exact L2].
      apply andb_true_iff, proj1, Nat.leb_le in Eapp.
      intros [|c] Hc o' Ho; cbn [nth] in Ho; [lia|apply (C2 c); [lia|exact Ho]].
    + (* in a fresh block *)
      destruct (halloc h) as [h1 b] eqn:Eh. apply (Led_alloc _ _ _ _ Eh) in L. rewrite Permutation_middle in L.
      specialize (IH (S i) h1 nc' (b :: Z) R' L). destruct (sync_tab cbf rr (S i) new ht h1 nc') as [[t2 h2] nc2].
      destruct IH as (F2 & C2 & L2). split; [constructor; [apply sd_Some|exact F2]|]. split.
      * intros [|c] Hc o' Ho; cbn [nth] in Ho; [injection Ho as <-; eexists; reflexivity|apply (C2 c); [lia|exact Ho]].
      * rewrite <- Permutation_middle in L2. exact L2.
Qed.

(* the ML finish keeps the dimensions of the control state (no hypothesis on the state) *)
Section MLPRES.
Variable Sy : Type. Variable sxor : Sy -> Sy -> Sy. Variable s0 : Sy.
Notation st := (st Sy).

Definition dims (s : st) : nat * nat * nat := (r s, length (ct s), length (tab s)).

Lemma Moves_dims (s s' : st) : Moves Sy s s' -> dims s' = dims s.
Proof.
  induction 1 as [s|s1 s2 s3 _ H12 _ H23|s i|s row rw u t|s c v _].
  - reflexivity.
  - congruence.
  - reflexivity.
  - unfold dims. cbn [set_row r ct tab]. rewrite upd_length. reflexivity.
  - unfold dims. cbn [set_tab r ct tab]. rewrite upd_length. reflexivity.
Qed.

Theorem ml_finish_pres fuel perm (s : st) o : ml_finish sxor s0 fuel perm s = Some o -> dims (o_st o) = dims s.
Proof.
  intros H. destruct (ml_finish_moves Sy sxor s0 fuel perm s o H) as (sb & Hm & Pr & Pc & Pt).
  apply Moves_dims in Hm. change (dims (prepar s)) with (dims s) in Hm. rewrite <- Hm. unfold dims. rewrite Pr, Pc.
  destruct Pt as [->|(srcs & x & pos & ->)]; [reflexivity|]. rewrite MLFinish.write_back_length. reflexivity.
Qed.
End MLPRES.

Section FIN.
Variable cbf : nat -> bool.

(* the finish never gets stuck on the ledger (no invalid free) and keeps the invariant *)
Lemma hfinish_main fuel perm s o : HInv s -> ml_finish ux tt fuel perm (core s) = Some o ->
  exists s', hfinish cbf fuel perm s = Some (s', o_ok o) /\ core s' = o_st o /\ HInv s'.
Proof.
  intros HI Ho. pose proof (ml_finish_pres unit ux tt fuel perm (core s) o Ho) as Hd. injection Hd as Pr Pc Pt.
  pose proof (ml_finish_tab_stable unit ux tt fuel perm (core s) o Ho) as Hst.
  apply HInv_LInv in HI. destruct HI as ((A & B & C) & L). cbn [app] in L.
  destruct (proj1 (sd_nth_iff _ _) A) as [Al _].
  destruct (proj1 (sd_nth_iff _ _) B) as [Bl Bn].
  unfold hfinish. rewrite Ho. cbv zeta.
  destruct (sync_ct_spec (ct (o_st o)) (hct s) (hp s) _ ltac:(congruence) L) as (hct' & h1 & E & A' & L1).
  rewrite E. rewrite Permutation_app_comm in L1.
  (* a held entry of the table stays held *)
  assert (M : Forall2 ld (htab s) (tab (o_st o))).
  { apply (Forall2_nth_iff _ None None ld_None). split; [congruence|]. intros c Hc. apply Bn in Hc.
    destruct (nth c (tab (core s)) None) as [x|] eqn:Ex; [|exfalso; apply Hc; reflexivity].
    rewrite (Hst c x Ex). discriminate. }
  rewrite <- Pr in C.
  pose proof (sync_tab_spec cbf (r (o_st o)) (htab s) (tab (o_st o)) M 0 h1 (ncb s) _ C L1) as H.
  destruct (sync_tab cbf (r (o_st o)) 0 (tab (o_st o)) (htab s) h1 (ncb s)) as [[htab' h2] nc'].
  destruct H as (B' & C' & L2). eexists. split; [reflexivity|]. split; [reflexivity|]. apply HInv_LInv.
  split; [split; [exact A'|split; [exact B'|exact C']]|]. cbn [hct htab hp app]. rewrite Permutation_app_comm. exact L2.
Qed.

Theorem hfinish_inv fuel perm s s' ok : HInv s -> hfinish cbf fuel perm s = Some (s', ok) -> HInv s'.
Proof.
  intros HI H. destruct (hfinish_sim cbf fuel perm s s' ok H) as (o & Ho & _ & _).
  destruct (hfinish_main fuel perm s o HI Ho) as (s2 & E & _ & HI2). rewrite H in E. injection E as <- _. exact HI2.
Qed.

Theorem hfinish_no_stuck fuel perm s o : HInv s -> ml_finish ux tt fuel perm (core s) = Some o ->
  exists s', hfinish cbf fuel perm s = Some (s', o_ok o) /\ core s' = o_st o.
Proof. intros HI Ho. destruct (hfinish_main fuel perm s o HI Ho) as (s' & E & Ec & _). exists s'. auto. Qed.

Lemma hfinish_r fuel perm s s' ok : hfinish cbf fuel perm s = Some (s', ok) -> r (core s') = r (core s).
Proof.
  intros H. destruct (hfinish_sim cbf fuel perm s s' ok H) as (o & Ho & -> & _).
  pose proof (ml_finish_pres unit ux tt fuel perm (core s) o Ho) as Hd. injection Hd as Pr _ _. exact Pr.
Qed.
End FIN.

Section SESSION.
Variable cbf : nat -> bool.
Variable H0 : list (list nat).
Variable R0 N0 : nat.
Hypothesis H0_len : length H0 = R0.
Hypothesis H0_nodup : forall i, i < R0 -> NoDup (nth i H0 []).
Hypothesis H0_range : forall i c, i < R0 -> In c (nth i H0 []) -> c < N0.
Hypothesis H0_deg : forall i, i < R0 -> 2 <= length (nth i H0 []).
Hypothesis R_le_N : R0 <= N0.

(* set-up, the submissions esis (every buffer is the application's), optionally of_finish_decoding *)
Definition session (fuel : nat) (esis : list nat) (fin : option (nat * list nat)) : option hst :=
  match hrun cbf fuel (hinit R0 N0 H0) esis with
  | None => None
  | Some s1 =>
      match fin with
      | None => Some s1
      | Some (fuel2, perm) => match hfinish cbf fuel2 perm s1 with Some (s2, _) => Some s2 | None => None end
      end
  end.

Lemma hrun_init_inv fuel esis s1 : (forall c, In c esis -> c < N0) -> hrun cbf fuel (hinit R0 N0 H0) esis = Some s1 ->
  HInv s1 /\ Good unit H0 R0 N0 (core s1).
Proof.
  intros Hr. exact (hrun_inv cbf H0 R0 N0 H0_len H0_nodup H0_range H0_deg R_le_N fuel esis (hinit R0 N0 H0) s1
                     (hinit_good H0 R0 N0 H0_len H0_deg R_le_N) Hr (hinit_inv R0 N0 H0)).
Qed.

Lemma session_inv fuel esis fin s : (forall c, In c esis -> c < N0) -> session fuel esis fin = Some s ->
  HInv s /\ r (core s) = R0.
Proof.
  intros Hr H. unfold session in H.
  destruct (hrun cbf fuel (hinit R0 N0 H0) esis) as [s1|] eqn:E1; [|discriminate H].
  destruct (hrun_init_inv fuel esis s1 Hr E1) as (HI1 & (W1 & _)).
  pose proof (wf_r unit R0 N0 (core s1) W1) as Er1.
  destruct fin as [[fuel2 perm]|].
  - destruct (hfinish cbf fuel2 perm s1) as [[s2 ok]|] eqn:E2; [|discriminate H]. injection H as <-.
    split; [exact (hfinish_inv cbf fuel2 perm s1 s2 ok HI1 E2)|].
    rewrite (hfinish_r cbf fuel2 perm s1 s2 ok E2). exact Er1.
  - injection H as <-. auto.
Qed.

(* C08 on the ledger: whatever was submitted, with or without finish, the release frees only live blocks, each
   once, and what stays live is exactly the library blocks stored in source entries (the decoded source symbols,
   which the application owns) *)
Theorem session_leaves_nothing_behind fuel esis fin s :
  (forall c, In c esis -> c < N0) -> session fuel esis fin = Some s ->
  exists h, hrelease s = Some h
    /\ (forall b, In b (live h) <-> In b (lib_blocks (skipn R0 (htab s))))
    /\ NoDup (live h).
Proof.
  intros Hr H. destruct (session_inv fuel esis fin s Hr H) as (HI & Er).
  destruct (hrelease_spec s HI) as (h & E & A & B). rewrite Er in A. exists h. auto.
Qed.

(* the session itself never gets stuck on the ledger: with enough fuel the submissions all return, and the finish
   returns whenever the control model's does *)
Theorem session_never_stuck fuel esis : (forall c, In c esis -> c < N0) -> N0 < fuel ->
  exists s1, session fuel esis None = Some s1
    /\ forall fuel2 perm o, ml_finish ux tt fuel2 perm (core s1) = Some o ->
         exists s2, session fuel esis (Some (fuel2, perm)) = Some s2 /\ core s2 = o_st o.
Proof.
  intros Hr Hf.
  destruct (hrun_total cbf H0 R0 N0 H0_len H0_nodup H0_range H0_deg R_le_N fuel esis (hinit R0 N0 H0)
              (hinit_good H0 R0 N0 H0_len H0_deg R_le_N) Hr (hinit_inv R0 N0 H0) Hf) as (s1 & E1).
  exists s1. unfold session. rewrite E1. split; [reflexivity|].
  intros fuel2 perm o Ho.
  destruct (hrun_init_inv fuel esis s1 Hr E1) as (HI1 & _).
  destruct (hfinish_no_stuck cbf fuel2 perm s1 o HI1 Ho) as (s2 & E2 & Ec2).
  exists s2. rewrite E2. auto.
Qed.
End SESSION.

(* hdecode_inv without Good (core s) is false: over a matrix whose row names a column outside the table
   (here column 5 of 3) the decoded "source symbol" 5 is written nowhere and its block 0 stays live with no owner;
   after the release it is still there *)
Example hdecode_inv_needs_wf :
  let s := hinit 1 3 [[1; 5]] in
  HInv s /\
  exists s', hdecode (fun _ => false) 3 s 1 App = Some s'
    /\ live (hp s') = [0] /\ somes (hct s') ++ lib_blocks (htab s') = []
    /\ ~ HInv s'
    /\ hrelease s' = Some {| live := [0]; nxt := 1 |} /\ lib_blocks (skipn 1 (htab s')) = [].
Proof.
  cbv zeta. split; [apply hinit_inv|]. eexists. split; [vm_compute; reflexivity|].
  split; [reflexivity|]. split; [reflexivity|]. split; [|split; reflexivity].
  intros (_ & _ & _ & _ & (E1 & _) & _). cbn [hp live hct htab somes lib_blocks flat_map app] in E1.
  exact (proj1 (E1 0) (or_introl eq_refl)).
Qed.

(* the theorems are not vacuous: a 2 x 5 staircase-like matrix (repair columns 0 1, source columns 2 3 4), no callback.
   Sources 2 3 and repair 1 submitted: repair 0 and source 4 are decoded; the partial sums are freed on the way, the
   release frees the two stored repair copies (blocks 1 2) and leaves block 3, the decoded source 4 *)
Example session_example :
  let H := [[0; 2; 3]; [0; 1; 3; 4]] in
  exists s, session (fun _ => false) H 2 5 7 [2; 3; 1] None = Some s
    /\ htab s = [Some (Lib 1); Some (Lib 2); Some App; Some App; Some (Lib 3)]
    /\ live (hp s) = [3; 2; 1]
    /\ hrelease s = Some {| live := [3]; nxt := 4 |}.
Proof. cbv zeta. eexists. split; [vm_compute; reflexivity|]. repeat split. Qed.

Print Assumptions hdecode_sim.
Print Assumptions hrun_sim.
Print Assumptions hfinish_sim.
Print Assumptions hdecode_no_stuck.
Print Assumptions hdecode_total.
Print Assumptions hinit_inv.
Print Assumptions hdecode_inv.
Print Assumptions hrun_inv.
Print Assumptions hrun_no_stuck.
Print Assumptions hrun_total.
Print Assumptions hrelease_spec.
Print Assumptions hfinish_inv.
Print Assumptions hfinish_no_stuck.
Print Assumptions ml_finish_pres.
Print Assumptions session_leaves_nothing_behind.
Print Assumptions session_never_stuck.
Print Assumptions hdecode_inv_needs_wf.
