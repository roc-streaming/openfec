(* GaussJordan: a Gallina model of of_invert_mat (in-place Gauss-Jordan matrix
   inversion with full pivoting over a finite field, adapted from Numerical
   Recipes by L. Rizzo; three textually identical copies in the library, two for
   GF(2^8) and one for GF(2^4)) and the proof that it computes the two-sided
   inverse of every invertible matrix and reports failure exactly on the
   singular ones.

   The theory is over an arbitrary field of characteristic 2; the instances over
   N for GF(256) and GF(16) get soundness and uniqueness by transfer along
   val : GF q -> N, and the rest from these two.

   On the field.  The C code eliminates with addmul (dst[i] ^= c * src[i]),
   i.e. it ADDS c times the pivot row where the textbook algorithm subtracts.
   The model keeps the addition (abstract [add]); the theory therefore assumes
   characteristic 2 ([add_self : add a a = zero]), which is what makes the
   addition an elimination (the pivot-column case of [Inv_step]) and lets the
   identity serve as the opposite in the ring structure [GJ_ring].
   On the shortcut.  With addmul read as an addition, the "pivot row equals the
   unit row" test skips a loop that is a no-op on every well-formed matrix, in
   any characteristic (lemma [elim_unit_noop]): the skipped loop would write
   p[icol] = 0 and then add c * 1 = c back, and add c * 0 to the other entries.
   (With a subtracting elimination the skipped loop would store -c, so the
   shortcut is tied to characteristic 2 as well.)  The test is kept in the
   model.
   On the marks.  ipiv[ix] > 1 never happens (the marks stay 0/1, part of the
   loop invariant [SInv]); the test and its [goto fail] are kept in the model
   (result [PFail]) and shown unreachable (the PFail case of [gj_step_spec],
   by [find_pivot_spec]).  Likewise the second "c == 0" failure is kept
   ([eliminate] returns None) and unreachable ([eliminate_spec]). *)
From Coq Require Import List Arith NArith Bool Lia Ring Permutation.
From OFV Require Import ListAux GF2Poly RSSpec GFField.
Import ListNotations.

Section ListUtil.
  Variable X : Type.

  (* l[i] = v, in place; no effect when i is out of range *)
  Fixpoint set_nth (i : nat) (v : X) (l : list X) {struct l} : list X :=
    match l with
    | [] => []
    | x :: t => match i with O => v :: t | S i' => x :: set_nth i' v t end
    end.

  Lemma set_nth_length : forall i v l, length (set_nth i v l) = length l.
  Proof.
    intros i v l. revert i. induction l as [|x t IH]; intros i.
    - reflexivity.
    - destruct i as [|i]; cbn [set_nth length]; [reflexivity|].
      rewrite IH. reflexivity.
  Qed.

  Lemma nth_set_nth_eq : forall i v l d, i < length l -> nth i (set_nth i v l) d = v.
  Proof.
    intros i v l d. revert i. induction l as [|x t IH]; intros i Hi.
    - cbn [length] in Hi. lia.
    - destruct i as [|i]; cbn [set_nth nth]; [reflexivity|].
      apply IH. cbn [length] in Hi. lia.
  Qed.

  Lemma nth_set_nth_neq : forall i j v l d, j <> i -> nth j (set_nth i v l) d = nth j l d.
  Proof.
    intros i j v l d. revert i j. induction l as [|x t IH]; intros i j Hne.
    - reflexivity.
    - destruct i as [|i]; destruct j as [|j]; cbn [set_nth nth]; try reflexivity.
      + lia.
      + apply IH. lia.
  Qed.

  Lemma nth_set_nth : forall i j v l d, i < length l ->
    nth j (set_nth i v l) d = if Nat.eqb j i then v else nth j l d.
  Proof.
    intros i j v l d Hi. destruct (Nat.eqb_spec j i) as [E|NE].
    - subst j. apply nth_set_nth_eq. exact Hi.
    - apply nth_set_nth_neq. exact NE.
  Qed.

  Lemma set_nth_same : forall i l d, set_nth i (nth i l d) l = l.
  Proof.
    intros i l d. revert i. induction l as [|x t IH]; intros i.
    - reflexivity.
    - destruct i as [|i]; cbn [set_nth nth]; [reflexivity|].
      rewrite IH. reflexivity.
  Qed.
End ListUtil.
Arguments set_nth {X} i v l.

Lemma map_set_nth : forall (X Y : Type) (f : X -> Y) i v l,
  map f (set_nth i v l) = set_nth i (f v) (map f l).
Proof.
  intros X Y f i v l. revert i. induction l as [|x t IH]; intros i.
  - reflexivity.
  - destruct i as [|i]; cbn [set_nth map]; [reflexivity|].
    rewrite IH. reflexivity.
Qed.

Lemma Forall_set_nth : forall (X : Type) (Q : X -> Prop) i v l,
  Forall Q l -> Q v -> Forall Q (set_nth i v l).
Proof.
  intros X Q i v l HF Hv. revert i. induction HF as [|x t Hx HF IH]; intros i.
  - constructor.
  - destruct i as [|i]; cbn [set_nth]; constructor; try assumption. apply IH.
Qed.

Lemma none_iff : forall (X : Type) (o : option X) (P : Prop),
  (P -> exists x, o = Some x) -> (forall x, o = Some x -> P) -> (o = None <-> ~ P).
Proof.
  intros X o P Hc Hs. destruct o as [x|]; split; intros H; try discriminate H; try reflexivity.
  - destruct (H (Hs x eq_refl)).
  - intros HP. destruct (Hc HP) as [x E]. discriminate E.
Qed.

Definition swapi (r c i : nat) : nat :=
  if Nat.eqb i r then c else if Nat.eqb i c then r else i.

Lemma swapi_spec : forall r c i,
  (i = r /\ swapi r c i = c) \/ (i <> r /\ i = c /\ swapi r c i = r) \/
  (i <> r /\ i <> c /\ swapi r c i = i).
Proof.
  intros r c i. unfold swapi.
  destruct (Nat.eqb_spec i r); [|destruct (Nat.eqb_spec i c)]; lia.
Qed.

Lemma swapi_invol : forall r c i, swapi r c (swapi r c i) = i.
Proof.
  intros r c i. pose proof (swapi_spec r c i). pose proof (swapi_spec r c (swapi r c i)). lia.
Qed.

Lemma swapi_lt : forall k r c i, r < k -> c < k -> i < k -> swapi r c i < k.
Proof. intros k r c i Hr Hc Hi. pose proof (swapi_spec r c i). lia. Qed.

Lemma swapi_inj : forall r c i j, swapi r c i = swapi r c j -> i = j.
Proof.
  intros r c i j E. rewrite <- (swapi_invol r c i), <- (swapi_invol r c j), E.
  reflexivity.
Qed.

Lemma swapi_r : forall r c, swapi r c c = r.
Proof. intros r c. pose proof (swapi_spec r c c). lia. Qed.

Lemma swapi_other : forall r c i, i <> r -> i <> c -> swapi r c i = i.
Proof. intros r c i H1 H2. pose proof (swapi_spec r c i). lia. Qed.

(* exchanging two entries of a list, as SWAP does with rows and within rows *)
Lemma nth_swap : forall (X : Type) (d : X) l r c i, r < length l -> c < length l ->
  nth i (set_nth r (nth c l d) (set_nth c (nth r l d) l)) d = nth (swapi r c i) l d.
Proof.
  intros X d l r c i Hr Hc. unfold swapi.
  rewrite nth_set_nth by (rewrite set_nth_length; exact Hr).
  destruct (Nat.eqb i r); [reflexivity|].
  rewrite nth_set_nth by exact Hc. destruct (Nat.eqb i c); reflexivity.
Qed.

(* pivot marks: ipiv[i] counts how often column i was chosen *)
Lemma list_sum_set_nth_S : forall l i, i < length l ->
  list_sum (set_nth i (S (nth i l 0)) l) = S (list_sum l).
Proof.
  intros l. induction l as [|x t IH]; intros i Hi.
  - cbn [length] in Hi. lia.
  - destruct i as [|i]; cbn [set_nth nth list_sum fold_right].
    + reflexivity.
    + cbn [length] in Hi. fold (list_sum (set_nth i (S (nth i t 0)) t)).
      rewrite IH by lia. fold (list_sum t). lia.
Qed.

Lemma exists_unmarked : forall l, list_sum l < length l ->
  exists i, i < length l /\ nth i l 0 = 0.
Proof.
  intros l. induction l as [|x t IH]; intros H.
  - cbn in H. lia.
  - cbn [list_sum fold_right length] in H. fold (list_sum t) in H.
    destruct x as [|x].
    + exists 0. split; [cbn [length]; lia|reflexivity].
    + destruct IH as [i [Hi Ei]]; [lia|].
      exists (S i). split; [cbn [length]; lia|exact Ei].
Qed.

Lemma all_marked : forall l, (forall i, nth i l 0 <= 1) -> list_sum l = length l ->
  forall i, i < length l -> nth i l 0 = 1.
Proof.
  intros l H.
  assert (Hl : list_sum l <= length l /\
               (list_sum l = length l -> forall i, i < length l -> nth i l 0 = 1)).
  { induction l as [|x t IH].
    - split; [reflexivity|]. intros _ i Hi. cbn [length] in Hi. lia.
    - destruct (IH (fun i => H (S i))) as [Hle Hall]. pose proof (H 0) as H0.
      cbn [nth list_sum fold_right length] in *. fold (list_sum t) in *.
      split; [lia|]. intros E [|i] Hi; [lia|apply Hall; lia]. }
  exact (proj2 Hl).
Qed.

Inductive pres : Type :=
| PFound (irow icol : nat)   (* goto found_piv *)
| PNone                      (* loops exhausted, icol == -1 *)
| PFail.                     (* ipiv[ix] > 1: goto fail *)

Section Defs.
  Variable F : Type.
  Variables (zero one : F) (add mul : F -> F -> F) (inv : F -> F).
  Variable eqb : F -> F -> bool.

  (* a k x k matrix is a list of k rows of length k (row-major, as src[]) *)
  Definition matrix := list (list F).
  Definition get (A : matrix) (i j : nat) : F := nth j (nth i A []) zero.
  Definition wf (k : nat) (A : matrix) : Prop :=
    length A = k /\ Forall (fun r => length r = k) A.

  Definition delta (i j : nat) : F := if Nat.eqb i j then one else zero.

  Definition dot (k : nat) (f g : nat -> F) : F :=
    sum F zero add (map (fun l => mul (f l) (g l)) (seq 0 k)).

  Definition mmul (A B : matrix) : matrix :=
    map (fun ra =>
           map (fun j => dot (length B) (fun l => nth l ra zero) (fun l => get B l j))
               (seq 0 (length (nth 0 B []))))
        A.

  Definition mI (k : nat) : matrix :=
    map (fun i => map (fun j => delta i j) (seq 0 k)) (seq 0 k).

  (* for (ix = 0; ix < k; ix++) of one row *)
  Fixpoint scan_row (ipiv : list nat) (A : matrix) (row : nat) (cols : list nat) : pres :=
    match cols with
    | [] => PNone
    | ix :: cols' =>
        if Nat.eqb (nth ix ipiv 0) 0 then
          if negb (eqb (get A row ix) zero) then PFound row ix
          else scan_row ipiv A row cols'
        else if Nat.ltb 1 (nth ix ipiv 0) then PFail
        else scan_row ipiv A row cols'
    end.

  (* for (row = 0; row < k; row++) *)
  Fixpoint scan_rows (k : nat) (ipiv : list nat) (A : matrix) (rows : list nat) : pres :=
    match rows with
    | [] => PNone
    | row :: rows' =>
        if negb (Nat.eqb (nth row ipiv 0) 1) then
          match scan_row ipiv A row (seq 0 k) with
          | PNone => scan_rows k ipiv A rows'
          | r => r
          end
        else scan_rows k ipiv A rows'
    end.

  (* first the diagonal, then everywhere *)
  Definition find_pivot (k : nat) (ipiv : list nat) (A : matrix) (col : nat) : pres :=
    if negb (Nat.eqb (nth col ipiv 0) 1) && negb (eqb (get A col col) zero)
    then PFound col col
    else scan_rows k ipiv A (seq 0 k).

  (* SWAP of the rows irow and icol *)
  Definition swap_rows (r c : nat) (A : matrix) : matrix :=
    set_nth r (nth c A []) (set_nth c (nth r A []) A).

  (* SWAP of the columns a and b in every row *)
  Definition swap_cols (a b : nat) (A : matrix) : matrix :=
    map (fun row => set_nth a (nth b row zero) (set_nth b (nth a row zero) row)) A.

  (* if (c != 1) { c = inverse[c]; pivot_row[icol] = 1; pivot_row[ix] = c * pivot_row[ix] } *)
  Definition scale_row (icol : nat) (prow : list F) : list F :=
    let c := nth icol prow zero in
    if eqb c one then prow
    else map (mul (inv c)) (set_nth icol one prow).

  (* addmul(dst, src, c, k): dst[i] += c * src[i] *)
  Definition addmul (dst src : list F) (c : F) : list F :=
    map (fun ds => add (fst ds) (mul c (snd ds))) (combine dst src).

  (* for every row ix != icol: c = p[icol]; p[icol] = 0; addmul(p, pivot_row, c, k) *)
  Definition elim_rows (k icol : nat) (prow : list F) (A : matrix) : matrix :=
    map (fun ix => let p := nth ix A [] in
                   if Nat.eqb ix icol then p
                   else addmul (set_nth icol zero p) prow (nth icol p zero))
        (seq 0 k).

  (* id_row with id_row[icol] = 1 *)
  Definition unit_row (k icol : nat) : list F :=
    map (fun j => if Nat.eqb j icol then one else zero) (seq 0 k).

  (* bcmp *)
  Fixpoint list_eqb (l1 l2 : list F) : bool :=
    match l1, l2 with
    | [], [] => true
    | a :: t1, b :: t2 => eqb a b && list_eqb t1 t2
    | _, _ => false
    end.

  (* the body of the col loop after found_piv, on the matrix *)
  Definition eliminate (k : nat) (A : matrix) (irow icol : nat) : option matrix :=
    let A1 := if Nat.eqb irow icol then A else swap_rows irow icol A in
    let c := get A1 icol icol in
    if eqb c zero then None
    else
      let prow := scale_row icol (nth icol A1 []) in
      let A2 := set_nth icol prow A1 in
      Some (if list_eqb prow (unit_row k icol) then A2
            else elim_rows k icol prow A2).

  (* state: src, ipiv, and the pairs (indxr[col], indxc[col]), latest first *)
  Definition gj_state : Type := (matrix * list nat * list (nat * nat))%type.

  Definition gj_step (k : nat) (st : gj_state) (col : nat) : option gj_state :=
    match st with
    | (A, ipiv, idx) =>
        match find_pivot k ipiv A col with
        | PFound irow icol =>
            match eliminate k A irow icol with
            | Some A' =>
                Some (A', set_nth icol (S (nth icol ipiv 0)) ipiv, (irow, icol) :: idx)
            | None => None
            end
        | PNone => None
        | PFail => None
        end
    end.

  Fixpoint gj_loop (k : nat) (st : gj_state) (cols : list nat) : option gj_state :=
    match cols with
    | [] => Some st
    | col :: cols' =>
        match gj_step k st col with
        | Some st' => gj_loop k st' cols'
        | None => None
        end
    end.

  (* for (col = k-1; col >= 0; col--) swap the columns indxr[col], indxc[col] *)
  Fixpoint unscramble (idx : list (nat * nat)) (A : matrix) : matrix :=
    match idx with
    | [] => A
    | (r, c) :: idx' => unscramble idx' (if Nat.eqb r c then A else swap_cols r c A)
    end.

  (* Some inverse (error == 0) or None (error == 1) *)
  Definition invert_mat (k : nat) (A : matrix) : option matrix :=
    match gj_loop k (A, repeat 0 k, []) (seq 0 k) with
    | Some (A', _, idx) => Some (unscramble idx A')
    | None => None
    end.
End Defs.

Lemma wf_map : forall (X Y : Type) (g : list X -> list Y) k A,
  (forall r, length (g r) = length r) -> wf X k A -> wf Y k (map g A).
Proof.
  intros X Y g k A Hg [HL HF]. split; [rewrite map_length; exact HL|].
  apply Forall_map. revert HF. apply Forall_impl. intros r Hr. rewrite Hg. exact Hr.
Qed.

(* the tests irow != icol and indxr[col] != indxc[col] only save work *)
Lemma swap_rows_if : forall (F : Type) r c (A : matrix F),
  (if Nat.eqb r c then A else swap_rows F r c A) = swap_rows F r c A.
Proof.
  intros F r c A. destruct (Nat.eqb_spec r c) as [E|_]; [|reflexivity].
  subst c. unfold swap_rows. rewrite !set_nth_same. reflexivity.
Qed.

Lemma swap_cols_if : forall (F : Type) (zero : F) a b (A : matrix F),
  (if Nat.eqb a b then A else swap_cols F zero a b A) = swap_cols F zero a b A.
Proof.
  intros F zero a b A. destruct (Nat.eqb_spec a b) as [E|_]; [|reflexivity].
  subst b. unfold swap_cols. rewrite <- (map_id A) at 1. apply map_ext. intros row.
  rewrite !set_nth_same. reflexivity.
Qed.

Section Theory.
  Variable F : Type.
  Variables (zero one : F) (add mul : F -> F -> F) (inv : F -> F).
  Variable eqb : F -> F -> bool.

  Hypothesis eqb_eq : forall a b, eqb a b = true <-> a = b.
  Hypothesis add_comm : forall a b, add a b = add b a.
  Hypothesis add_assoc : forall a b c, add a (add b c) = add (add a b) c.
  Hypothesis add_0_l : forall a, add zero a = a.
  Hypothesis add_self : forall a, add a a = zero.
  Hypothesis mul_comm : forall a b, mul a b = mul b a.
  Hypothesis mul_assoc : forall a b c, mul a (mul b c) = mul (mul a b) c.
  Hypothesis mul_1_l : forall a, mul one a = a.
  Hypothesis mul_add_distr_l : forall a b c, mul a (add b c) = add (mul a b) (mul a c).
  Hypothesis mul_inv_r : forall a, a <> zero -> mul a (inv a) = one.
  Hypothesis one_neq_zero : one <> zero.

  Local Notation mat := (matrix F).
  Local Notation fsum := (sum F zero add).
  Local Notation fget := (get F zero).
  Local Notation fwf := (wf F).
  Local Notation fdelta := (delta F zero one).
  Local Notation fdot := (dot F zero add mul).
  Local Notation fmmul := (mmul F zero add mul).
  Local Notation fmI := (mI F zero one).
  Local Notation fscan_row := (scan_row F zero eqb).
  Local Notation fscan_rows := (scan_rows F zero eqb).
  Local Notation ffind_pivot := (find_pivot F zero eqb).
  Local Notation fswap_rows := (swap_rows F).
  Local Notation fswap_cols := (swap_cols F zero).
  Local Notation fscale_row := (scale_row F zero one mul inv eqb).
  Local Notation faddmul := (addmul F add mul).
  Local Notation felim_rows := (elim_rows F zero add mul).
  Local Notation funit_row := (unit_row F zero one).
  Local Notation flist_eqb := (list_eqb F eqb).
  Local Notation feliminate := (eliminate F zero one add mul inv eqb).
  Local Notation fgj_step := (gj_step F zero one add mul inv eqb).
  Local Notation fgj_loop := (gj_loop F zero one add mul inv eqb).
  Local Notation funscramble := (unscramble F zero).
  Local Notation finvert_mat := (invert_mat F zero one add mul inv eqb).

  Definition idF (a : F) : F := a.

  Lemma GJ_ring : ring_theory zero one add mul (sub F add idF) idF (@eq F).
  Proof.
    exact (F_ring F zero one add mul idF add_comm add_assoc add_0_l add_self
                  mul_comm mul_assoc mul_1_l mul_add_distr_l).
  Qed.

  Add Ring GJ_ring_inst : GJ_ring.

  Lemma inv_one : inv one = one.
  Proof. exact (RSSpec.inv_one F zero one mul inv mul_1_l mul_inv_r one_neq_zero). Qed.

  Lemma eqb_refl : forall a, eqb a a = true.
  Proof. intros a. apply eqb_eq. reflexivity. Qed.

  Lemma fsum_cons : forall c l, fsum (c :: l) = add c (fsum l).
  Proof. reflexivity. Qed.

  (* the sum lemmas of RSSpec.v, the identity being the opposite *)
  Lemma fsum_ext : forall (f h : nat -> F) l,
    (forall i, In i l -> f i = h i) -> fsum (map f l) = fsum (map h l).
  Proof. exact (sum_map_ext_in F zero add nat). Qed.

  Lemma fsum_zero : forall (f : nat -> F) l,
    (forall i, In i l -> f i = zero) -> fsum (map f l) = zero.
  Proof.
    exact (sum_map_zero F zero one add mul idF add_comm add_assoc add_0_l add_self
                        mul_comm mul_assoc mul_1_l mul_add_distr_l nat).
  Qed.

  Lemma fsum_add : forall (f h : nat -> F) l,
    fsum (map (fun i => add (f i) (h i)) l) = add (fsum (map f l)) (fsum (map h l)).
  Proof.
    exact (sum_map_add F zero one add mul idF add_comm add_assoc add_0_l add_self
                       mul_comm mul_assoc mul_1_l mul_add_distr_l nat).
  Qed.

  Lemma fsum_scale : forall c (f : nat -> F) l,
    fsum (map (fun i => mul c (f i)) l) = mul c (fsum (map f l)).
  Proof.
    exact (sum_map_scale F zero one add mul idF add_comm add_assoc add_0_l add_self
                         mul_comm mul_assoc mul_1_l mul_add_distr_l nat).
  Qed.

  Lemma fsum_exchange : forall (a : nat -> nat -> F) l1 l2,
    fsum (map (fun j => fsum (map (fun l => a j l) l2)) l1)
    = fsum (map (fun l => fsum (map (fun j => a j l) l1)) l2).
  Proof.
    intros a l1 l2. induction l1 as [|x l1 IH].
    - cbn [map]. symmetry. apply fsum_zero. intros i _. reflexivity.
    - cbn [map]. rewrite fsum_cons, IH.
      rewrite <- fsum_add. apply fsum_ext. intros i _. rewrite fsum_cons. reflexivity.
  Qed.

  Lemma fsum_perm : forall l l' : list F, Permutation l l' -> fsum l = fsum l'.
  Proof.
    intros l l' H. induction H as [|x l l' _ IH|x y l|l l' l'' _ IH1 _ IH2].
    - reflexivity.
    - rewrite !fsum_cons, IH. reflexivity.
    - rewrite !fsum_cons. ring.
    - rewrite IH1. exact IH2.
  Qed.

  Lemma dot_ext : forall k (f f' g g' : nat -> F),
    (forall l, l < k -> f l = f' l) -> (forall l, l < k -> g l = g' l) ->
    fdot k f g = fdot k f' g'.
  Proof.
    intros k f f' g g' Hf Hg. unfold dot. apply fsum_ext. intros l Hl.
    apply in_seq in Hl. rewrite Hf, Hg by lia. reflexivity.
  Qed.

  Lemma dot_comm : forall k (f g : nat -> F), fdot k f g = fdot k g f.
  Proof.
    intros k f g. unfold dot. apply fsum_ext. intros l _. apply mul_comm.
  Qed.

  Lemma dot_lin_l : forall k a b (f f' g : nat -> F),
    fdot k (fun l => add (mul a (f l)) (mul b (f' l))) g
    = add (mul a (fdot k f g)) (mul b (fdot k f' g)).
  Proof.
    intros k a b f f' g. unfold dot. rewrite <- !fsum_scale, <- fsum_add.
    apply fsum_ext. intros l _. ring.
  Qed.

  Lemma dot_unit : forall k j (f d : nat -> F), j < k ->
    (forall l, l < k -> d l = fdelta l j) -> fdot k f d = f j.
  Proof.
    exact (fun k j f d =>
             sum_delta F zero one add mul idF add_comm add_assoc add_0_l add_self
                       mul_comm mul_assoc mul_1_l mul_add_distr_l f d k j).
  Qed.

  Lemma dot_delta_l : forall k i (d g : nat -> F), i < k ->
    (forall l, l < k -> d l = fdelta i l) -> fdot k d g = g i.
  Proof.
    intros k i d g Hi Hd. rewrite dot_comm. apply dot_unit; [exact Hi|].
    intros l Hl. rewrite (Hd l Hl). unfold delta. rewrite Nat.eqb_sym. reflexivity.
  Qed.

  Lemma dot_swapi : forall k r c (f g : nat -> F), r < k -> c < k ->
    fdot k (fun l => f (swapi r c l)) (fun l => g (swapi r c l)) = fdot k f g.
  Proof.
    intros k r c f g Hr Hc. unfold dot.
    rewrite <- (map_map (swapi r c) (fun l => mul (f l) (g l))).
    apply fsum_perm, Permutation_map, nat_bijection_Permutation.
    - intros i Hi. apply swapi_lt; assumption.
    - intros i j. apply swapi_inj.
  Qed.

  (* (u M) v = u (M v) *)
  Lemma dot_assoc : forall k (u v : nat -> F) (M : nat -> nat -> F),
    fdot k (fun j => fdot k u (fun l => M l j)) v
    = fdot k u (fun l => fdot k (M l) v).
  Proof.
    intros k u v M. unfold dot.
    rewrite (fsum_ext
      (fun j => mul (fsum (map (fun l => mul (u l) (M l j)) (seq 0 k))) (v j))
      (fun j => fsum (map (fun l => mul (u l) (mul (M l j) (v j))) (seq 0 k)))).
    2:{ intros j _. rewrite (mul_comm _ (v j)), <- fsum_scale. apply fsum_ext. intros l _. ring. }
    rewrite fsum_exchange. apply fsum_ext. intros l _.
    exact (fsum_scale (u l) (fun j => mul (M l j) (v j)) (seq 0 k)).
  Qed.

  Lemma delta_swapi : forall r c i j, fdelta (swapi r c i) (swapi r c j) = fdelta i j.
  Proof.
    intros r c i j. unfold delta.
    destruct (Nat.eqb_spec i j) as [E|NE].
    - subst j. rewrite Nat.eqb_refl. reflexivity.
    - destruct (Nat.eqb_spec (swapi r c i) (swapi r c j)) as [E|_]; [|reflexivity].
      exfalso. apply NE. exact (swapi_inj r c i j E).
  Qed.

  (* P marks the pivot columns used so far.  The in-place matrix S stands for
     the pair (C, A') of the conventional algorithm on [A | I]: column l of S
     is column l of the accumulated transformation C when l is marked, and
     column l of the reduced matrix A' otherwise; the columns not stored are
     unit vectors.  M is the input with the row swaps made so far. *)
  Definition Chat (P : nat -> bool) (S : nat -> nat -> F) (i l : nat) : F :=
    if P l then S i l else fdelta i l.
  Definition Ahat (P : nat -> bool) (S : nat -> nat -> F) (i j : nat) : F :=
    if P j then fdelta i j else S i j.
  Definition Inv (k : nat) (P : nat -> bool) (S M : nat -> nat -> F) : Prop :=
    forall i j, i < k -> j < k ->
      fdot k (Chat P S i) (fun l => M l j) = Ahat P S i j.

  Lemma Inv_ext : forall k P P' S S' M M',
    (forall l, l < k -> P l = P' l) ->
    (forall i j, i < k -> j < k -> S i j = S' i j) ->
    (forall i j, i < k -> j < k -> M i j = M' i j) ->
    Inv k P S M -> Inv k P' S' M'.
  Proof.
    intros k P P' S S' M M' HP HS HM H i j Hi Hj.
    rewrite <- (dot_ext k (Chat P S i) (Chat P' S' i) (fun l => M l j) (fun l => M' l j)).
    - rewrite (H i j Hi Hj). unfold Ahat. rewrite (HP j Hj), (HS i j Hi Hj). reflexivity.
    - intros l Hl. unfold Chat. rewrite (HP l Hl), (HS i l Hi Hl). reflexivity.
    - intros l Hl. apply HM; assumption.
  Qed.

  (* at a constant P, Chat and Ahat reduce to S or to the unit matrix *)
  Lemma Inv_init : forall k P (S : nat -> nat -> F), (forall l, P l = false) -> Inv k P S S.
  Proof.
    intros k P S HP.
    apply (Inv_ext k (fun _ => false) P S S S S (fun l _ => eq_sym (HP l))); try reflexivity.
    intros i j Hi Hj. exact (dot_delta_l k i _ (fun l => S l j) Hi (fun _ _ => eq_refl)).
  Qed.

  Lemma Inv_swap : forall k P S M r c,
    r < k -> c < k -> P r = false -> P c = false ->
    Inv k P S M ->
    Inv k P (fun i j => S (swapi r c i) j) (fun i j => M (swapi r c i) j).
  Proof.
    intros k P S M r c Hr Hc Pr Pc H i j Hi Hj.
    assert (HPs : forall l, P (swapi r c l) = P l).
    { intros l.
      destruct (swapi_spec r c l) as [[E1 E2]|[[_ [E1 E2]]|[_ [_ E2]]]]; rewrite E2; congruence. }
    assert (HPfix : forall l, P l = true -> swapi r c l = l).
    { intros l Hl. apply swapi_other; intros E; subst l.
      - rewrite Pr in Hl. discriminate Hl.
      - rewrite Pc in Hl. discriminate Hl. }
    rewrite (dot_ext k _ (fun l => Chat P S (swapi r c i) (swapi r c l))
                       _ (fun l => M (swapi r c l) j)).
    - rewrite (dot_swapi k r c (Chat P S (swapi r c i)) (fun l => M l j) Hr Hc).
      rewrite (H (swapi r c i) j (swapi_lt k r c i Hr Hc Hi) Hj).
      unfold Ahat. destruct (P j) eqn:Pj; [|reflexivity].
      rewrite <- (HPfix j Pj) at 1. apply delta_swapi.
    - intros l _. unfold Chat. rewrite HPs. destruct (P l) eqn:Pl.
      + rewrite (HPfix l Pl). reflexivity.
      + symmetry. apply delta_swapi.
    - intros l _. reflexivity.
  Qed.

  (* the in-place elimination step on the pivot (c, c) *)
  Definition pivf (S : nat -> nat -> F) (c j : nat) : F :=
    if Nat.eqb j c then inv (S c c) else mul (inv (S c c)) (S c j).
  Definition stepf (S : nat -> nat -> F) (c i j : nat) : F :=
    if Nat.eqb i c then pivf S c j
    else add (if Nat.eqb j c then zero else S i j) (mul (S i c) (pivf S c j)).

  Lemma Inv_step : forall k P S M c,
    c < k -> P c = false -> S c c <> zero ->
    Inv k P S M ->
    Inv k (fun l => Nat.eqb l c || P l) (stepf S c) M.
  Proof.
    intros k P S M c Hc Pc Hnz H i j Hi Hj.
    set (P' := fun l => Nat.eqb l c || P l).
    set (d := inv (S c c)).
    assert (Hd : mul (S c c) d = one) by (apply mul_inv_r; exact Hnz).
    (* row i of the pair (C, A') becomes a times itself plus b times row c; column by
       column, the stored and the unit entries after the step are just that *)
    set (a := if Nat.eqb i c then zero else one).
    set (b := if Nat.eqb i c then d else mul (S i c) d).
    assert (Hrow : forall l,
      Chat P' (stepf S c) i l = add (mul a (Chat P S i l)) (mul b (Chat P S c l)) /\
      Ahat P' (stepf S c) i l = add (mul a (Ahat P S i l)) (mul b (Ahat P S c l))).
    { intros l. unfold Chat, Ahat, P', stepf, pivf, a, b, delta. fold d.
      rewrite (Nat.eqb_sym c l).
      destruct (Nat.eqb_spec l c) as [El|Nl]; cbn [orb].
      - subst l. rewrite Pc. destruct (Nat.eqb_spec i c) as [Ei|Ni]; (split; [ring|]).
        + rewrite <- Hd. ring.
        + transitivity (add (S i c) (mul (S i c) (mul (S c c) d))); [|ring].
          rewrite Hd. transitivity (add (S i c) (S i c)); [|ring]. symmetry. apply add_self.
      - destruct (Nat.eqb_spec i c) as [Ei|Ni].
        + subst i. destruct (Nat.eqb_spec c l) as [E|_]; [congruence|]. destruct (P l); split; ring.
        + destruct (Nat.eqb i l), (P l); split; ring. }
    rewrite (dot_ext k _ (fun l => add (mul a (Chat P S i l)) (mul b (Chat P S c l)))
               _ (fun l => M l j) (fun l _ => proj1 (Hrow l)) (fun l _ => eq_refl)).
    rewrite dot_lin_l, (H i j Hi Hj), (H c j Hc Hj). symmetry. exact (proj2 (Hrow j)).
  Qed.

  Lemma Inv_final : forall k P S M,
    (forall l, l < k -> P l = true) -> Inv k P S M ->
    forall i j, i < k -> j < k -> fdot k (S i) (fun l => M l j) = fdelta i j.
  Proof.
    intros k P S M HP H.
    exact (Inv_ext k P (fun _ => true) S S M M HP
             (fun _ _ _ _ => eq_refl) (fun _ _ _ _ => eq_refl) H).
  Qed.

  (* no pivot left: impossible when M has a right inverse *)
  Lemma Inv_stuck : forall k P S M Y i,
    Inv k P S M ->
    (forall a b, a < k -> b < k -> fdot k (M a) (fun l => Y l b) = fdelta a b) ->
    i < k -> P i = false ->
    (forall j, j < k -> P j = false -> S i j = zero) ->
    False.
  Proof.
    intros k P S M Y i H HY Hi Pi Hz.
    apply one_neq_zero.
    assert (E1 : fdot k (fun j => fdot k (Chat P S i) (fun l => M l j)) (fun j => Y j i) = zero).
    { unfold dot at 1. apply fsum_zero. intros j Hj. apply in_seq in Hj.
      rewrite (H i j Hi) by lia. unfold Ahat. destruct (P j) eqn:Pj.
      - unfold delta. destruct (Nat.eqb_spec i j) as [E|_].
        + subst j. rewrite Pi in Pj. discriminate Pj.
        + ring.
      - rewrite (Hz j) by (assumption || lia). ring. }
    rewrite dot_assoc, (dot_unit k i _ _ Hi (fun l Hl => HY l i Hl Hi)) in E1.
    unfold Chat, delta in E1. rewrite Pi, Nat.eqb_refl in E1. exact E1.
  Qed.

  Lemma wf_row : forall k (A : mat) i, fwf k A -> i < k -> length (nth i A []) = k.
  Proof.
    intros k A i [HL HF] Hi. rewrite Forall_forall in HF. apply HF.
    apply nth_In. lia.
  Qed.

  Lemma mat_ext : forall k (A B : mat), fwf k A -> fwf k B ->
    (forall i j, i < k -> j < k -> fget A i j = fget B i j) -> A = B.
  Proof.
    intros k A B HA HB H. apply (nth_ext A B [] []).
    - destruct HA as [HA _], HB as [HB _]. lia.
    - intros i Hi. assert (Hik : i < k) by (destruct HA as [HA _]; lia).
      apply (nth_ext _ _ zero zero).
      + rewrite (wf_row k A i HA Hik), (wf_row k B i HB Hik). reflexivity.
      + intros j Hj. rewrite (wf_row k A i HA Hik) in Hj. exact (H i j Hik Hj).
  Qed.

  Lemma wf_map_seq : forall k (g : nat -> list F),
    (forall i, i < k -> length (g i) = k) -> fwf k (map g (seq 0 k)).
  Proof.
    intros k g H. split.
    - rewrite map_length, seq_length. reflexivity.
    - apply Forall_forall. intros r Hr. apply in_map_iff in Hr.
      destruct Hr as [i [Ei Hi]]. subst r. apply in_seq in Hi. apply H. lia.
  Qed.

  Lemma get_map_seq : forall k (g : nat -> list F) i j, i < k ->
    fget (map g (seq 0 k)) i j = nth j (g i) zero.
  Proof.
    intros k g i j Hi. unfold get. rewrite (nth_map_seq g 0 k i [] Hi). reflexivity.
  Qed.

  Lemma wf_set_row : forall k (A : mat) i r, fwf k A -> length r = k -> fwf k (set_nth i r A).
  Proof.
    intros k A i r [HL HF] Hr. split.
    - rewrite set_nth_length. exact HL.
    - apply Forall_set_nth; assumption.
  Qed.

  Lemma wf_row0 : forall k (A : mat), fwf k A -> length (nth 0 A []) = k.
  Proof.
    intros k A HA. destruct k as [|k].
    - destruct HA as [HL _]. destruct A as [|r A]; [reflexivity|discriminate HL].
    - apply (wf_row (S k) A 0 HA). lia.
  Qed.

  Lemma wf_mmul : forall k (A B : mat), fwf k A -> fwf k B -> fwf k (fmmul A B).
  Proof.
    intros k A B [HLA _] HB. unfold mmul. split.
    - rewrite map_length. exact HLA.
    - apply Forall_forall. intros r Hr. apply in_map_iff in Hr.
      destruct Hr as [ra [Er _]]. subst r.
      rewrite map_length, seq_length. apply (wf_row0 k B HB).
  Qed.

  Lemma get_mmul : forall k (A B : mat) i j, fwf k A -> fwf k B -> i < k -> j < k ->
    fget (fmmul A B) i j = fdot k (fget A i) (fun l => fget B l j).
  Proof.
    intros k A B i j HA HB Hi Hj. unfold mmul.
    unfold get at 1.
    rewrite (nth_map_lt _ A i [] []) by (destruct HA as [HL _]; lia).
    rewrite nth_map_seq by (rewrite (wf_row0 k B HB); exact Hj).
    destruct HB as [HLB _]. rewrite HLB. reflexivity.
  Qed.

  Lemma wf_mI : forall k, fwf k (fmI k).
  Proof.
    intros k. unfold mI. apply wf_map_seq. intros i _.
    rewrite map_length, seq_length. reflexivity.
  Qed.

  Lemma get_mI : forall k i j, i < k -> j < k -> fget (fmI k) i j = fdelta i j.
  Proof.
    intros k i j Hi Hj. unfold mI. rewrite get_map_seq by exact Hi.
    apply nth_map_seq. exact Hj.
  Qed.

  Lemma mmul_assoc : forall k (X Y Z : mat), fwf k X -> fwf k Y -> fwf k Z ->
    fmmul (fmmul X Y) Z = fmmul X (fmmul Y Z).
  Proof.
    intros k X Y Z HX HY HZ.
    pose proof (wf_mmul k X Y HX HY) as HXY.
    pose proof (wf_mmul k Y Z HY HZ) as HYZ.
    apply (mat_ext k); [apply wf_mmul; assumption|apply wf_mmul; assumption|].
    intros i j Hi Hj.
    rewrite (get_mmul k (fmmul X Y) Z i j HXY HZ Hi Hj).
    rewrite (get_mmul k X (fmmul Y Z) i j HX HYZ Hi Hj).
    rewrite (dot_ext k (fget (fmmul X Y) i)
               (fun m => fdot k (fget X i) (fun l => fget Y l m))
               (fun m => fget Z m j) (fun m => fget Z m j)).
    - rewrite dot_assoc. apply dot_ext.
      + intros l _. reflexivity.
      + intros l Hl. symmetry. apply get_mmul; assumption.
    - intros m Hm. apply get_mmul; assumption.
    - intros m _. reflexivity.
  Qed.

  Lemma mmul_I_l : forall k (X : mat), fwf k X -> fmmul (fmI k) X = X.
  Proof.
    intros k X HX. apply (mat_ext k); [apply wf_mmul; [apply wf_mI|exact HX]|exact HX|].
    intros i j Hi Hj. rewrite (get_mmul k _ _ i j (wf_mI k) HX Hi Hj).
    apply (dot_delta_l k i); [exact Hi|]. intros l Hl. apply get_mI; assumption.
  Qed.

  Lemma mmul_I_r : forall k (X : mat), fwf k X -> fmmul X (fmI k) = X.
  Proof.
    intros k X HX. apply (mat_ext k); [apply wf_mmul; [exact HX|apply wf_mI]|exact HX|].
    intros i j Hi Hj. rewrite (get_mmul k _ _ i j HX (wf_mI k) Hi Hj).
    apply dot_unit; [exact Hj|]. intros l Hl. apply get_mI; assumption.
  Qed.

  (* a left inverse Z of B and a right inverse A of B are equal: Z = Z (B A) = (Z B) A = A *)
  Lemma mmul_cancel : forall k (Z B A : mat), fwf k Z -> fwf k B -> fwf k A ->
    fmmul Z B = fmI k -> fmmul B A = fmI k -> Z = A.
  Proof.
    intros k Z B A HZ HB HA HZB HBA.
    rewrite <- (mmul_I_r k Z HZ), <- HBA, <- (mmul_assoc k Z B A HZ HB HA), HZB.
    apply mmul_I_l. exact HA.
  Qed.

  Lemma wf_swap_rows : forall k (A : mat) r c, fwf k A -> r < k -> c < k ->
    fwf k (fswap_rows r c A).
  Proof.
    intros k A r c HA Hr Hc. unfold swap_rows.
    apply wf_set_row; [apply wf_set_row|]; try exact HA; apply wf_row; assumption.
  Qed.

  Lemma get_swap_rows : forall k (A : mat) r c i j, fwf k A -> r < k -> c < k ->
    fget (fswap_rows r c A) i j = fget A (swapi r c i) j.
  Proof.
    intros k A r c i j [HL _] Hr Hc. unfold get, swap_rows.
    rewrite nth_swap by lia. reflexivity.
  Qed.

  Lemma wf_swap_cols : forall k (A : mat) a b, fwf k A -> fwf k (fswap_cols a b A).
  Proof.
    intros k A a b. apply wf_map. intros r. rewrite !set_nth_length. reflexivity.
  Qed.

  Lemma get_swap_cols : forall k (A : mat) a b i j, fwf k A -> a < k -> b < k -> i < k ->
    fget (fswap_cols a b A) i j = fget A i (swapi a b j).
  Proof.
    intros k A a b i j HA Ha Hb Hi. unfold get, swap_cols.
    rewrite (nth_map_lt _ A i [] []) by (destruct HA as [HL _]; lia).
    apply nth_swap; rewrite (wf_row k A i HA Hi); assumption.
  Qed.

  Lemma scale_row_length : forall c (row : list F), length (fscale_row c row) = length row.
  Proof.
    intros c row. unfold scale_row.
    destruct (eqb (nth c row zero) one); [reflexivity|].
    rewrite map_length, set_nth_length. reflexivity.
  Qed.

  Lemma nth_scale_row : forall c (row : list F) j, c < length row -> j < length row ->
    nth j (fscale_row c row) zero
    = if Nat.eqb j c then inv (nth c row zero)
      else mul (inv (nth c row zero)) (nth j row zero).
  Proof.
    intros c row j Hc Hj. unfold scale_row.
    destruct (eqb (nth c row zero) one) eqn:E.
    - apply eqb_eq in E. rewrite E, inv_one.
      destruct (Nat.eqb_spec j c) as [Ej|_].
      + subst j. exact E.
      + ring.
    - rewrite (nth_map_lt _ _ j zero zero) by (rewrite set_nth_length; exact Hj).
      rewrite nth_set_nth by exact Hc.
      destruct (Nat.eqb j c); [ring|reflexivity].
  Qed.

  Lemma addmul_length : forall (dst src : list F) c, length dst = length src ->
    length (faddmul dst src c) = length dst.
  Proof.
    intros dst src c H. unfold addmul. rewrite map_length, combine_length. lia.
  Qed.

  Lemma nth_addmul : forall (dst src : list F) c j, length dst = length src ->
    j < length dst ->
    nth j (faddmul dst src c) zero = add (nth j dst zero) (mul c (nth j src zero)).
  Proof.
    intros dst src c j H Hj. unfold addmul.
    rewrite (nth_map_lt _ _ j (zero, zero) zero) by (rewrite combine_length; lia).
    rewrite combine_nth by exact H. reflexivity.
  Qed.

  Lemma wf_elim_rows : forall k c (prow : list F) (A : mat),
    fwf k A -> length prow = k -> fwf k (felim_rows k c prow A).
  Proof.
    intros k c prow A HA Hp. unfold elim_rows. apply wf_map_seq. intros i Hi.
    cbv zeta. pose proof (wf_row k A i HA Hi) as HLr.
    destruct (Nat.eqb i c); [exact HLr|].
    rewrite addmul_length; rewrite set_nth_length; lia.
  Qed.

  Lemma get_elim_rows : forall k c (prow : list F) (A : mat) i j,
    fwf k A -> length prow = k -> i < k -> j < k ->
    fget (felim_rows k c prow A) i j
    = if Nat.eqb i c then fget A i j
      else add (if Nat.eqb j c then zero else fget A i j)
               (mul (fget A i c) (nth j prow zero)).
  Proof.
    intros k c prow A i j HA Hp Hi Hj. unfold elim_rows.
    rewrite get_map_seq by exact Hi. cbv zeta.
    pose proof (wf_row k A i HA Hi) as HLr.
    destruct (Nat.eqb i c); [reflexivity|].
    rewrite nth_addmul by (rewrite set_nth_length; lia).
    unfold get. destruct (Nat.eqb_spec j c) as [E|NE].
    - subst j. rewrite nth_set_nth_eq by lia. reflexivity.
    - rewrite nth_set_nth_neq by exact NE. reflexivity.
  Qed.

  Lemma unit_row_length : forall k c, length (funit_row k c) = k.
  Proof. intros k c. unfold unit_row. rewrite map_length, seq_length. reflexivity. Qed.

  Lemma nth_unit_row : forall k c j, j < k ->
    nth j (funit_row k c) zero = if Nat.eqb j c then one else zero.
  Proof. intros k c j Hj. unfold unit_row. apply nth_map_seq. exact Hj. Qed.

  Lemma list_eqb_true : forall l1 l2 : list F, flist_eqb l1 l2 = true -> l1 = l2.
  Proof.
    intros l1. induction l1 as [|a t1 IH]; intros l2 H.
    - destruct l2 as [|b t2]; [reflexivity|discriminate H].
    - destruct l2 as [|b t2]; [discriminate H|].
      cbn [list_eqb] in H. apply andb_true_iff in H. destruct H as [H1 H2].
      apply eqb_eq in H1. subst b. rewrite (IH t2 H2). reflexivity.
  Qed.

  Lemma elim_unit_noop : forall k c (A : mat), fwf k A ->
    felim_rows k c (funit_row k c) A = A.
  Proof.
    intros k c A HA.
    apply (mat_ext k).
    - apply wf_elim_rows; [exact HA|apply unit_row_length].
    - exact HA.
    - intros i j Hi Hj.
      rewrite get_elim_rows by (assumption || apply unit_row_length).
      destruct (Nat.eqb i c); [reflexivity|].
      rewrite nth_unit_row by exact Hj.
      destruct (Nat.eqb_spec j c) as [E|_].
      + subst j. ring.
      + ring.
  Qed.

  Lemma eliminate_spec : forall k (A : mat) r c,
    fwf k A -> r < k -> c < k -> fget A r c <> zero ->
    exists A3, feliminate k A r c = Some A3 /\ fwf k A3 /\
      forall i j, i < k -> j < k ->
        fget A3 i j = stepf (fun i j => fget A (swapi r c i) j) c i j.
  Proof.
    intros k A r c HA Hr Hc Hnz. unfold eliminate. rewrite swap_rows_if.
    set (A1 := fswap_rows r c A).
    assert (HA1 : fwf k A1) by (apply wf_swap_rows; assumption).
    assert (Hget : forall i j, fget A1 i j = fget A (swapi r c i) j).
    { intros i j. apply (get_swap_rows k); assumption. }
    cbv zeta. rewrite (Hget c c), swapi_r.
    destruct (eqb (fget A r c) zero) eqn:Ez.
    { apply eqb_eq in Ez. contradiction. }
    set (prow := fscale_row c (nth c A1 [])).
    pose proof (wf_row k A1 c HA1 Hc) as HLrow.
    assert (HLp : length prow = k).
    { unfold prow. rewrite scale_row_length. exact HLrow. }
    assert (Hprow : forall j, j < k ->
              nth j prow zero = pivf (fun i j => fget A (swapi r c i) j) c j).
    { intros j Hj. unfold prow. rewrite nth_scale_row by lia.
      unfold pivf. rewrite <- !Hget. reflexivity. }
    set (A2 := set_nth c prow A1).
    assert (HA2 : fwf k A2) by (apply wf_set_row; assumption).
    assert (Hget2 : forall i j, fget A2 i j
              = if Nat.eqb i c then nth j prow zero else fget A1 i j).
    { intros i j. unfold get, A2.
      rewrite nth_set_nth by (destruct HA1 as [HL _]; lia).
      destruct (Nat.eqb i c); reflexivity. }
    (* with the unit row the elimination changes nothing: it is as if it were always made *)
    exists (felim_rows k c prow A2). split.
    { destruct (flist_eqb prow (funit_row k c)) eqn:Eu; [|reflexivity].
      apply list_eqb_true in Eu. rewrite Eu, (elim_unit_noop k c A2 HA2). reflexivity. }
    split; [apply wf_elim_rows; assumption|].
    intros i j Hi Hj. rewrite get_elim_rows by assumption.
    unfold stepf. rewrite !Hget2.
    destruct (Nat.eqb i c); [apply Hprow; exact Hj|].
    rewrite !Hget, (Hprow j Hj). reflexivity.
  Qed.

  (* what the result of a search over the positions R tells *)
  Definition searched (ipiv : list nat) (A : mat) (R : nat -> nat -> Prop) (p : pres) : Prop :=
    match p with
    | PFound r c => R r c /\ nth c ipiv 0 = 0 /\ eqb (fget A r c) zero = false
    | PNone => forall r c, R r c -> nth c ipiv 0 = 0 -> eqb (fget A r c) zero = true
    | PFail => exists c, 1 < nth c ipiv 0
    end.

  (* the region grows by positions that hold no candidate *)
  Lemma searched_more : forall ipiv (A : mat) (R R' : nat -> nat -> Prop) p,
    searched ipiv A R p -> (forall r c, R r c -> R' r c) ->
    (forall r c, R' r c -> nth c ipiv 0 = 0 -> R r c \/ eqb (fget A r c) zero = true) ->
    searched ipiv A R' p.
  Proof.
    intros ipiv A R R' [r c| |] H Hin Hnew; cbn [searched] in *.
    - destruct H as [H1 H2]. split; [exact (Hin r c H1)|exact H2].
    - intros r c Hr H0. destruct (Hnew r c Hr H0) as [Hr'|E]; [exact (H r c Hr' H0)|exact E].
    - exact H.
  Qed.

  Lemma scan_row_spec : forall ipiv (A : mat) row cols,
    searched ipiv A (fun r c => r = row /\ In c cols) (fscan_row ipiv A row cols).
  Proof.
    intros ipiv A row cols. induction cols as [|ix cols IH]; cbn [scan_row].
    - intros r c [_ []].
    - (* the column ix is passed over when it is marked or holds a zero *)
      assert (Hskip : (nth ix ipiv 0 = 0 -> eqb (fget A row ix) zero = true) ->
                searched ipiv A (fun r c => r = row /\ In c (ix :: cols)) (fscan_row ipiv A row cols)).
      { intros Hix. apply (searched_more _ _ _ _ _ IH).
        - intros r c [Hr Hc]. split; [exact Hr|right; exact Hc].
        - intros r c [Er [Ec|Hc]] H0; [right; subst r c; exact (Hix H0)|left; split; assumption]. }
      destruct (Nat.eqb_spec (nth ix ipiv 0) 0) as [E0|N0].
      + destruct (eqb (fget A row ix) zero) eqn:Ez in |- *; cbn [negb].
        * apply Hskip. intros _. exact Ez.
        * split; [split; [reflexivity|left; reflexivity]|]. split; [exact E0|exact Ez].
      + destruct (Nat.ltb_spec 1 (nth ix ipiv 0)) as [Hlt|_].
        * exists ix. exact Hlt.
        * apply Hskip. intros E. contradiction.
  Qed.

  Lemma scan_rows_spec : forall k ipiv (A : mat) rows,
    searched ipiv A (fun r c => In r rows /\ nth r ipiv 0 <> 1 /\ c < k) (fscan_rows k ipiv A rows).
  Proof.
    intros k ipiv A rows. induction rows as [|row rows IH]; cbn [scan_rows].
    - intros r c [[] _].
    - (* the row is passed over when it is marked or holds no candidate *)
      assert (Hskip : (nth row ipiv 0 <> 1 ->
                       forall c, c < k -> nth c ipiv 0 = 0 -> eqb (fget A row c) zero = true) ->
                searched ipiv A (fun r c => In r (row :: rows) /\ nth r ipiv 0 <> 1 /\ c < k)
                         (fscan_rows k ipiv A rows)).
      { intros Hrow. apply (searched_more _ _ _ _ _ IH).
        - intros r c [Hr H]. split; [right; exact Hr|exact H].
        - intros r c [[Er|Hr] [Hm Hc]] H0; [right; subst r; exact (Hrow Hm c Hc H0)|left; auto]. }
      destruct (Nat.eqb_spec (nth row ipiv 0) 1) as [E1|N1]; cbn [negb].
      + apply Hskip. intros N1. contradiction.
      + pose proof (scan_row_spec ipiv A row (seq 0 k)) as Hrow.
        destruct (fscan_row ipiv A row (seq 0 k)) as [r c| |]; cbn [searched] in Hrow.
        * destruct Hrow as [[Er Hc] H3]. subst r. apply in_seq in Hc.
          split; [split; [left; reflexivity|split; [exact N1|lia]]|exact H3].
        * apply Hskip. intros _ c Hc H0. apply Hrow; [split; [reflexivity|apply in_seq; lia]|exact H0].
        * exact Hrow.
  Qed.

  (* the marks being 0 or 1, only unmarked rows are searched *)
  Lemma find_pivot_spec : forall k ipiv (A : mat) col,
    (forall l, nth l ipiv 0 <= 1) -> col < k ->
    searched ipiv A (fun r c => r < k /\ nth r ipiv 0 = 0 /\ c < k) (ffind_pivot k ipiv A col).
  Proof.
    intros k ipiv A col Hle Hcol. unfold find_pivot.
    destruct (negb (Nat.eqb (nth col ipiv 0) 1) && negb (eqb (fget A col col) zero)) eqn:Ed.
    - apply andb_true_iff in Ed. destruct Ed as [Em Ez].
      apply negb_true_iff in Em, Ez. apply Nat.eqb_neq in Em. pose proof (Hle col).
      split; [split; [exact Hcol|split; [lia|exact Hcol]]|]. split; [lia|exact Ez].
    - apply (searched_more _ _ _ _ _ (scan_rows_spec k ipiv A (seq 0 k))).
      + intros r c [Hr [Hm Hc]]. apply in_seq in Hr. pose proof (Hle r). repeat split; lia.
      + intros r c [Hr [Hr0 Hc]] _. left. split; [apply in_seq; lia|split; [lia|exact Hc]].
  Qed.

  (* the row of the input that stands in row i once the recorded row swaps are made *)
  Fixpoint rowperm (idx : list (nat * nat)) (i : nat) : nat :=
    match idx with
    | [] => i
    | (r, c) :: idx' => rowperm idx' (swapi r c i)
    end.

  Definition idx_ok (k : nat) (idx : list (nat * nat)) : Prop :=
    forall r c, In (r, c) idx -> r < k /\ c < k.

  Lemma idx_ok_cons : forall k r c idx,
    idx_ok k ((r, c) :: idx) <-> r < k /\ c < k /\ idx_ok k idx.
  Proof.
    intros k r c idx. split.
    - intros H. destruct (H r c (or_introl eq_refl)) as [Hr Hc].
      split; [exact Hr|]. split; [exact Hc|]. intros r' c' Hin. apply H. right. exact Hin.
    - intros [Hr [Hc H]] r' c' [E|Hin]; [|exact (H r' c' Hin)].
      injection E as Er Ec. subst r' c'. split; assumption.
  Qed.

  Definition marked (ipiv : list nat) (l : nat) : bool := Nat.eqb (nth l ipiv 0) 1.

  Definition SInv (k : nat) (A0 : mat) (st : gj_state F) : Prop :=
    match st with
    | (Sm, ipiv, idx) =>
        fwf k Sm /\ length ipiv = k /\ (forall l, nth l ipiv 0 <= 1) /\
        list_sum ipiv = length idx /\ idx_ok k idx /\
        Inv k (marked ipiv) (fget Sm) (fun i j => fget A0 (rowperm idx i) j)
    end.

  Lemma list_sum_repeat0 : forall k, list_sum (repeat 0 k) = 0.
  Proof. intros k. induction k as [|k IH]; [reflexivity|exact IH]. Qed.

  Lemma SInv_init : forall k (A : mat), fwf k A -> SInv k A (A, repeat 0 k, []).
  Proof.
    intros k A HA. cbn [SInv]. split; [exact HA|]. split; [apply repeat_length|].
    split; [intros l; rewrite nth_repeat; lia|].
    split; [apply list_sum_repeat0|]. split; [intros r c Hin; destruct Hin|].
    apply Inv_init. intros l. unfold marked. rewrite nth_repeat. reflexivity.
  Qed.

  Definition RInv (k : nat) (M Y : nat -> nat -> F) : Prop :=
    forall a b, a < k -> b < k -> fdot k (M a) (fun l => Y l b) = fdelta a b.

  Lemma rinv_rowperm : forall k idx (M : nat -> nat -> F), idx_ok k idx ->
    (exists Y, RInv k M Y) -> exists Y, RInv k (fun i j => M (rowperm idx i) j) Y.
  Proof.
    intros k idx M. induction idx as [|[r c] idx IH]; intros Hok HY.
    - exact HY.
    - apply idx_ok_cons in Hok. destruct Hok as [Hr [Hc Hok']].
      destruct (IH Hok' HY) as [Y HYM].
      exists (fun i j => Y i (swapi r c j)). intros a b Ha Hb.
      rewrite <- (delta_swapi r c a b).
      exact (HYM _ _ (swapi_lt k r c a Hr Hc Ha) (swapi_lt k r c b Hr Hc Hb)).
  Qed.

  (* a column step keeps the invariant; it stops only if the input has no right inverse *)
  Lemma gj_step_spec : forall k (A0 : mat) S ipiv idx col,
    SInv k A0 (S, ipiv, idx) -> col < k -> length idx < k ->
    match fgj_step k (S, ipiv, idx) col with
    | Some (S', ipiv', idx') =>
        SInv k A0 (S', ipiv', idx') /\ length idx' = Datatypes.S (length idx)
    | None => ~ exists Y, RInv k (fget A0) Y
    end.
  Proof.
    intros k A0 S ipiv idx col HS Hcol Hlen.
    destruct HS as [HwS [HLp [Hle [Hsum [Hok HI]]]]].
    unfold gj_step. pose proof (find_pivot_spec k ipiv S col Hle Hcol) as Hf.
    destruct (ffind_pivot k ipiv S col) as [r c| |]; cbn [searched] in Hf.
    - destruct Hf as [[Hr [Hr0 Hc]] [Hc0 Ez]].
      assert (Hnz : fget S r c <> zero) by (intros E; apply eqb_eq in E; congruence).
      destruct (eliminate_spec k S r c HwS Hr Hc Hnz) as [A3 [E3 [HwA3 Hget3]]].
      rewrite E3. split; [|reflexivity].
      cbn [SInv]. split; [exact HwA3|]. split; [rewrite set_nth_length; exact HLp|].
      split.
      { intros l. rewrite nth_set_nth by lia. rewrite Hc0.
        destruct (Nat.eqb l c); [lia|apply Hle]. }
      split.
      { rewrite list_sum_set_nth_S by lia. cbn [length]. rewrite Hsum. reflexivity. }
      split.
      { apply idx_ok_cons. split; [exact Hr|]. split; [exact Hc|exact Hok]. }
      assert (Pr : marked ipiv r = false) by (unfold marked; rewrite Hr0; reflexivity).
      assert (Pc : marked ipiv c = false) by (unfold marked; rewrite Hc0; reflexivity).
      pose proof (Inv_swap k (marked ipiv) (fget S) _ r c Hr Hc Pr Pc HI) as HI1.
      assert (Hnz1 : (fun i j => fget S (swapi r c i) j) c c <> zero).
      { cbv beta. rewrite swapi_r. exact Hnz. }
      pose proof (Inv_step k (marked ipiv) _ _ c Hc Pc Hnz1 HI1) as HI2.
      revert HI2. apply Inv_ext.
      + intros l Hl. unfold marked. rewrite nth_set_nth by lia. rewrite Hc0.
        destruct (Nat.eqb l c); reflexivity.
      + intros i j Hi Hj. symmetry. apply Hget3; assumption.
      + intros i j _ _. reflexivity.
    - (* fewer than k marks: some row is unmarked, and it is zero in every unmarked column *)
      intros HY. destruct (rinv_rowperm k idx (fget A0) Hok HY) as [Y HYM].
      destruct (exists_unmarked ipiv) as [i [Hi Hi0]]; [lia|].
      apply (Inv_stuck k (marked ipiv) (fget S) _ Y i HI HYM).
      + lia.
      + unfold marked. rewrite Hi0. reflexivity.
      + intros j Hj Pj. apply eqb_eq. apply Hf; [split; [lia|split; [exact Hi0|exact Hj]]|].
        unfold marked in Pj. apply Nat.eqb_neq in Pj. pose proof (Hle j). lia.
    - destruct Hf as [c Hc]. pose proof (Hle c). lia.
  Qed.

  Lemma gj_loop_spec : forall k (A0 : mat) cols S ipiv idx,
      SInv k A0 (S, ipiv, idx) -> (forall col, In col cols -> col < k) ->
      length idx + length cols <= k ->
      match fgj_loop k (S, ipiv, idx) cols with
      | Some (S', ipiv', idx') =>
          SInv k A0 (S', ipiv', idx') /\ length idx' = length idx + length cols
      | None => ~ exists Y, RInv k (fget A0) Y
      end.
  Proof.
    intros k A0 cols. induction cols as [|col cols IH];
      intros S ipiv idx HS Hcols Hlen; cbn [gj_loop length] in *.
    - split; [exact HS|lia].
    - pose proof (gj_step_spec k A0 S ipiv idx col HS
                    (Hcols col (or_introl eq_refl)) ltac:(lia)) as Hs.
      destruct (fgj_step k (S, ipiv, idx) col) as [[[S1 ipiv1] idx1]|]; [|exact Hs].
      destruct Hs as [HS1 Hl1].
      specialize (IH S1 ipiv1 idx1 HS1 (fun c Hin => Hcols c (or_intror Hin)) ltac:(lia)).
      destruct (fgj_loop k (S1, ipiv1, idx1) cols) as [[[S' ipiv'] idx']|]; [|exact IH].
      destruct IH as [HS' Hl']. split; [exact HS'|lia].
  Qed.

  (* the final column swaps undo the row swaps *)
  Lemma unscramble_spec : forall k idx (S : mat) (X D : nat -> nat -> F),
    fwf k S -> idx_ok k idx ->
    (forall i j, i < k -> j < k ->
       fdot k (fget S i) (fun l => X (rowperm idx l) j) = D i j) ->
    fwf k (funscramble idx S) /\
    forall i j, i < k -> j < k ->
      fdot k (fget (funscramble idx S) i) (fun l => X l j) = D i j.
  Proof.
    intros k idx. induction idx as [|[r c] idx IH]; intros S X D HS Hok H.
    - split; [exact HS|exact H].
    - cbn [unscramble].
      apply idx_ok_cons in Hok. destruct Hok as [Hr [Hc Hok']].
      rewrite swap_cols_if.
      apply (IH (fswap_cols r c S) X D (wf_swap_cols k S r c HS) Hok').
      intros i j Hi Hj. rewrite <- (H i j Hi Hj). cbn [rowperm].
      rewrite <- (dot_swapi k r c (fget (fswap_cols r c S) i)
                             (fun l => X (rowperm idx l) j) Hr Hc).
      apply dot_ext.
      + intros l _. rewrite (get_swap_cols k S r c i _ HS Hr Hc Hi), swapi_invol. reflexivity.
      + intros l _. reflexivity.
  Qed.

  (* after k steps every column is marked, so the stored matrix times the row-swapped
     input is the unit matrix; the column swaps move the row swaps to the other side *)
  Lemma invert_mat_spec : forall k (A : mat), fwf k A ->
    match finvert_mat k A with
    | Some B => fwf k B /\ fmmul B A = fmI k
    | None => ~ exists Y, RInv k (fget A) Y
    end.
  Proof.
    intros k A HA. unfold invert_mat.
    pose proof (gj_loop_spec k A (seq 0 k) A (repeat 0 k) [] (SInv_init k A HA)) as Hrun.
    cbn [length] in Hrun. rewrite seq_length in Hrun.
    assert (Hcols : forall col, In col (seq 0 k) -> col < k).
    { intros col Hin. apply in_seq in Hin. lia. }
    specialize (Hrun Hcols (le_n k)).
    destruct (fgj_loop k (A, repeat 0 k, []) (seq 0 k)) as [[[S ipiv] idx]|]; [|exact Hrun].
    destruct Hrun as [[HwS [HLp [Hle [Hsum [Hok HI]]]]] Hl].
    assert (Hall : forall l, l < k -> marked ipiv l = true).
    { intros l Hl'. unfold marked. rewrite (all_marked ipiv Hle) by lia. reflexivity. }
    pose proof (Inv_final k _ _ _ Hall HI) as Hfin.
    destruct (unscramble_spec k idx S (fget A) fdelta HwS Hok Hfin) as [HwB HB].
    split; [exact HwB|].
    apply (mat_ext k); [apply wf_mmul; assumption|apply wf_mI|].
    intros i j Hi Hj. rewrite (get_mmul k _ _ i j HwB HA Hi Hj), get_mI by assumption.
    apply HB; assumption.
  Qed.

  Lemma GJ_left : forall k (A B : mat), fwf k A ->
    finvert_mat k A = Some B -> fwf k B /\ fmmul B A = fmI k.
  Proof.
    intros k A B HA H. pose proof (invert_mat_spec k A HA) as Hs. rewrite H in Hs. exact Hs.
  Qed.

  Theorem GJ_complete : forall k (A : mat), fwf k A ->
    (exists B, fwf k B /\ fmmul A B = fmI k) ->
    exists B, finvert_mat k A = Some B.
  Proof.
    intros k A HA [Y [HwY HY]]. pose proof (invert_mat_spec k A HA) as Hs.
    destruct (finvert_mat k A) as [B|].
    - exists B. reflexivity.
    - exfalso. apply Hs. exists (fget Y). intros a b Ha Hb.
      rewrite <- (get_mmul k A Y a b HA HwY Ha Hb), HY. apply get_mI; assumption.
  Qed.

  (* a left inverse B of A is a right inverse: B has the right inverse A, so its
     inversion yields a left inverse Z of B, and Z = Z (B A) = A *)
  Lemma left_inv_right_inv : forall k (A B : mat), fwf k A -> fwf k B ->
    fmmul B A = fmI k -> fmmul A B = fmI k.
  Proof.
    intros k A B HA HB HBA.
    destruct (GJ_complete k B HB) as [Z HZ]; [exists A; split; assumption|].
    destruct (GJ_left k B Z HB HZ) as [HwZ HZB].
    rewrite <- (mmul_cancel k Z B A HwZ HB HA HZB HBA). exact HZB.
  Qed.

  Theorem GJ_sound : forall k (A B : mat), fwf k A ->
    finvert_mat k A = Some B -> fmmul B A = fmI k /\ fmmul A B = fmI k.
  Proof.
    intros k A B HA H. destruct (GJ_left k A B HA H) as [HwB HBA].
    split; [exact HBA|exact (left_inv_right_inv k A B HA HwB HBA)].
  Qed.

  Lemma GJ_wf : forall k (A B : mat), fwf k A -> finvert_mat k A = Some B -> fwf k B.
  Proof. intros k A B HA H. exact (proj1 (GJ_left k A B HA H)). Qed.

  Theorem GJ_complete_left : forall k (A : mat), fwf k A ->
    (exists B, fwf k B /\ fmmul B A = fmI k) ->
    exists B, finvert_mat k A = Some B.
  Proof.
    intros k A HA [B [HB HBA]]. apply GJ_complete; [exact HA|].
    exists B. split; [exact HB|exact (left_inv_right_inv k A B HA HB HBA)].
  Qed.

  Theorem GJ_none_iff_singular : forall k (A : mat), fwf k A ->
    (finvert_mat k A = None <-> ~ exists B, fwf k B /\ fmmul A B = fmI k).
  Proof.
    intros k A HA. apply none_iff; [exact (GJ_complete k A HA)|].
    intros B E. exists B. split; [exact (GJ_wf k A B HA E)|exact (proj2 (GJ_sound k A B HA E))].
  Qed.

  Theorem GJ_none_iff_singular_left : forall k (A : mat), fwf k A ->
    (finvert_mat k A = None <-> ~ exists B, fwf k B /\ fmmul B A = fmI k).
  Proof.
    intros k A HA. apply none_iff; [exact (GJ_complete_left k A HA)|].
    intros B E. exists B. exact (GJ_left k A B HA E).
  Qed.

  Theorem GJ_unique : forall k (A B : mat), fwf k A -> fwf k B ->
    fmmul B A = fmI k -> finvert_mat k A = Some B.
  Proof.
    intros k A B HA HB HBA.
    destruct (GJ_complete_left k A HA) as [B' E].
    { exists B. split; assumption. }
    pose proof (GJ_wf k A B' HA E) as HB'.
    destruct (GJ_sound k A B' HA E) as [_ HAB'].
    rewrite E. f_equal. symmetry. exact (mmul_cancel k B A B' HB HA HB' HBA HAB').
  Qed.
End Theory.

Section Hom.
  Variables F1 F2 : Type.
  Variables (zero1 one1 : F1) (add1 mul1 : F1 -> F1 -> F1) (inv1 : F1 -> F1).
  Variable eqb1 : F1 -> F1 -> bool.
  Variables (zero2 one2 : F2) (add2 mul2 : F2 -> F2 -> F2) (inv2 : F2 -> F2).
  Variable eqb2 : F2 -> F2 -> bool.
  Variable phi : F1 -> F2.
  Hypothesis phi_zero : phi zero1 = zero2.
  Hypothesis phi_one : phi one1 = one2.
  Hypothesis phi_add : forall a b, phi (add1 a b) = add2 (phi a) (phi b).
  Hypothesis phi_mul : forall a b, phi (mul1 a b) = mul2 (phi a) (phi b).
  Hypothesis phi_inv : forall a, phi (inv1 a) = inv2 (phi a).
  Hypothesis phi_eqb : forall a b, eqb2 (phi a) (phi b) = eqb1 a b.

  Definition mmap (A : matrix F1) : matrix F2 := map (map phi) A.

  Lemma mmap_map : forall (X : Type) (g : X -> list F1) l,
    mmap (map g l) = map (fun x => map phi (g x)) l.
  Proof. intros X g l. unfold mmap. apply map_map. Qed.

  Lemma nth_mmap : forall A i, nth i (mmap A) [] = map phi (nth i A []).
  Proof. intros A i. exact (map_nth (map phi) A [] i). Qed.

  Lemma hom_nthz : forall l i, nth i (map phi l) zero2 = phi (nth i l zero1).
  Proof. exact (hom_nth F1 F2 zero1 zero2 phi phi_zero). Qed.

  Lemma hom_get : forall A i j, get F2 zero2 (mmap A) i j = phi (get F1 zero1 A i j).
  Proof. intros A i j. unfold get. rewrite nth_mmap. apply hom_nthz. Qed.

  Lemma hom_eqb_zero : forall a, eqb2 (phi a) zero2 = eqb1 a zero1.
  Proof. intros a. rewrite <- phi_zero. apply phi_eqb. Qed.

  Lemma wf_mmap : forall k A, wf F1 k A -> wf F2 k (mmap A).
  Proof. intros k A. apply wf_map. intros r. apply map_length. Qed.

  Lemma hom_scan_row : forall ipiv A row cols,
    scan_row F2 zero2 eqb2 ipiv (mmap A) row cols = scan_row F1 zero1 eqb1 ipiv A row cols.
  Proof.
    intros ipiv A row cols. induction cols as [|ix cols IH].
    - reflexivity.
    - cbn [scan_row]. rewrite hom_get, hom_eqb_zero, IH. reflexivity.
  Qed.

  Lemma hom_scan_rows : forall k ipiv A rows,
    scan_rows F2 zero2 eqb2 k ipiv (mmap A) rows = scan_rows F1 zero1 eqb1 k ipiv A rows.
  Proof.
    intros k ipiv A rows. induction rows as [|row rows IH].
    - reflexivity.
    - cbn [scan_rows]. rewrite hom_scan_row, IH. reflexivity.
  Qed.

  Lemma hom_find_pivot : forall k ipiv A col,
    find_pivot F2 zero2 eqb2 k ipiv (mmap A) col = find_pivot F1 zero1 eqb1 k ipiv A col.
  Proof.
    intros k ipiv A col. unfold find_pivot.
    rewrite hom_get, hom_eqb_zero, hom_scan_rows. reflexivity.
  Qed.

  Lemma hom_swap_rows : forall r c A,
    swap_rows F2 r c (mmap A) = mmap (swap_rows F1 r c A).
  Proof.
    intros r c A. unfold swap_rows. rewrite !nth_mmap. unfold mmap.
    rewrite !map_set_nth. reflexivity.
  Qed.

  Lemma hom_swap_cols : forall a b A,
    swap_cols F2 zero2 a b (mmap A) = mmap (swap_cols F1 zero1 a b A).
  Proof.
    intros a b A. unfold swap_cols, mmap. rewrite !map_map.
    apply map_ext. intros row. rewrite !map_set_nth, !hom_nthz. reflexivity.
  Qed.

  Lemma hom_scale_row : forall c row,
    scale_row F2 zero2 one2 mul2 inv2 eqb2 c (map phi row)
    = map phi (scale_row F1 zero1 one1 mul1 inv1 eqb1 c row).
  Proof.
    intros c row. unfold scale_row. rewrite hom_nthz, <- phi_one, phi_eqb.
    destruct (eqb1 (nth c row zero1) one1); [reflexivity|].
    rewrite <- map_set_nth, !map_map. apply map_ext. intros a.
    rewrite phi_mul, phi_inv. reflexivity.
  Qed.

  Lemma hom_addmul : forall dst src c,
    addmul F2 add2 mul2 (map phi dst) (map phi src) (phi c)
    = map phi (addmul F1 add1 mul1 dst src c).
  Proof.
    intros dst src c. unfold addmul. revert src.
    induction dst as [|d dst IH]; intros src.
    - reflexivity.
    - destruct src as [|s src]; [reflexivity|].
      cbn [map combine fst snd]. rewrite IH, phi_add, phi_mul. reflexivity.
  Qed.

  Lemma hom_elim_rows : forall k c prow A,
    elim_rows F2 zero2 add2 mul2 k c (map phi prow) (mmap A)
    = mmap (elim_rows F1 zero1 add1 mul1 k c prow A).
  Proof.
    intros k c prow A. unfold elim_rows. rewrite mmap_map.
    apply map_ext. intros ix. cbv zeta. rewrite nth_mmap.
    destruct (Nat.eqb ix c); [reflexivity|].
    rewrite hom_nthz, <- phi_zero, <- map_set_nth. apply hom_addmul.
  Qed.

  Lemma hom_unit_row : forall k c,
    unit_row F2 zero2 one2 k c = map phi (unit_row F1 zero1 one1 k c).
  Proof.
    intros k c. unfold unit_row. rewrite map_map. apply map_ext. intros j.
    destruct (Nat.eqb j c); [symmetry; exact phi_one|symmetry; exact phi_zero].
  Qed.

  Lemma hom_list_eqb : forall l1 l2,
    list_eqb F2 eqb2 (map phi l1) (map phi l2) = list_eqb F1 eqb1 l1 l2.
  Proof.
    intros l1. induction l1 as [|a t1 IH]; intros l2.
    - destruct l2; reflexivity.
    - destruct l2 as [|b t2]; [reflexivity|].
      cbn [map list_eqb]. rewrite phi_eqb, IH. reflexivity.
  Qed.

  Lemma hom_eliminate : forall k A r c,
    eliminate F2 zero2 one2 add2 mul2 inv2 eqb2 k (mmap A) r c
    = option_map mmap (eliminate F1 zero1 one1 add1 mul1 inv1 eqb1 k A r c).
  Proof.
    intros k A r c. unfold eliminate. rewrite !swap_rows_if, hom_swap_rows.
    generalize (swap_rows F1 r c A).
    intros A1. cbv zeta. rewrite hom_get, hom_eqb_zero.
    destruct (eqb1 (get F1 zero1 A1 c c) zero1); [reflexivity|].
    cbn [option_map]. f_equal.
    rewrite nth_mmap, hom_scale_row, hom_unit_row, hom_list_eqb.
    unfold mmap. rewrite <- !map_set_nth.
    destruct (list_eqb F1 eqb1 _ _); [reflexivity|].
    apply hom_elim_rows.
  Qed.

  Definition mst (st : gj_state F1) : gj_state F2 :=
    match st with (A, ipiv, idx) => (mmap A, ipiv, idx) end.

  Lemma hom_gj_step : forall k st col,
    gj_step F2 zero2 one2 add2 mul2 inv2 eqb2 k (mst st) col
    = option_map mst (gj_step F1 zero1 one1 add1 mul1 inv1 eqb1 k st col).
  Proof.
    intros k [[A ipiv] idx] col. cbn [mst gj_step]. rewrite hom_find_pivot.
    destruct (find_pivot F1 zero1 eqb1 k ipiv A col) as [r c| |]; try reflexivity.
    rewrite hom_eliminate.
    destruct (eliminate F1 zero1 one1 add1 mul1 inv1 eqb1 k A r c); reflexivity.
  Qed.

  Lemma hom_gj_loop : forall k cols st,
    gj_loop F2 zero2 one2 add2 mul2 inv2 eqb2 k (mst st) cols
    = option_map mst (gj_loop F1 zero1 one1 add1 mul1 inv1 eqb1 k st cols).
  Proof.
    intros k cols. induction cols as [|col cols IH]; intros st.
    - reflexivity.
    - cbn [gj_loop]. rewrite hom_gj_step.
      destruct (gj_step F1 zero1 one1 add1 mul1 inv1 eqb1 k st col) as [st'|];
        cbn [option_map]; [apply IH|reflexivity].
  Qed.

  Lemma hom_unscramble : forall idx A,
    unscramble F2 zero2 idx (mmap A) = mmap (unscramble F1 zero1 idx A).
  Proof.
    intros idx. induction idx as [|[r c] idx IH]; intros A.
    - reflexivity.
    - cbn [unscramble]. rewrite !swap_cols_if, hom_swap_cols. apply IH.
  Qed.

  Theorem hom_invert_mat : forall k A,
    invert_mat F2 zero2 one2 add2 mul2 inv2 eqb2 k (mmap A)
    = option_map mmap (invert_mat F1 zero1 one1 add1 mul1 inv1 eqb1 k A).
  Proof.
    intros k A. unfold invert_mat.
    change (mmap A, repeat 0 k, @nil (nat * nat)) with (mst (A, repeat 0 k, [])).
    rewrite hom_gj_loop.
    destruct (gj_loop F1 zero1 one1 add1 mul1 inv1 eqb1 k (A, repeat 0 k, []) (seq 0 k))
      as [[[A' ipiv] idx]|]; cbn [option_map mst]; [|reflexivity].
    rewrite hom_unscramble. reflexivity.
  Qed.

  Lemma hom_mmul : forall A B,
    mmul F2 zero2 add2 mul2 (mmap A) (mmap B) = mmap (mmul F1 zero1 add1 mul1 A B).
  Proof.
    intros A B. unfold mmul. rewrite mmap_map.
    change (mmap A) with (map (map phi) A). rewrite map_map.
    apply map_ext. intros ra. rewrite nth_mmap, map_map.
    change (length (mmap B)) with (length (map (map phi) B)).
    rewrite !map_length.
    apply map_ext. intros j. unfold dot.
    rewrite (hom_sum F1 F2 zero1 add1 zero2 add2 phi phi_zero phi_add), map_map.
    f_equal. apply map_ext. intros l.
    rewrite phi_mul, hom_nthz, hom_get. reflexivity.
  Qed.

  Lemma hom_mI : forall k, mI F2 zero2 one2 k = mmap (mI F1 zero1 one1 k).
  Proof.
    intros k. unfold mI. rewrite mmap_map. apply map_ext. intros i.
    rewrite map_map. apply map_ext. intros j. unfold delta.
    destruct (Nat.eqb i j); [symmetry; exact phi_one|symmetry; exact phi_zero].
  Qed.
End Hom.

Local Open Scope N_scope.

Definition invert_matN (mulN : N -> N -> N) (invN : N -> N) (k : nat) (A : list (list N))
  : option (list (list N)) :=
  invert_mat N 0 1 N.lxor mulN invN N.eqb k A.
Definition mmulN (mulN : N -> N -> N) (A B : list (list N)) : list (list N) :=
  mmul N 0 N.lxor mulN A B.
Definition mIN (k : nat) : list (list N) := mI N 0 1 k.
Definition wfN (k : nat) (A : list (list N)) : Prop := wf N k A.
Definition belowN (q : N) (A : list (list N)) : Prop :=
  Forall (Forall (fun a => a < q)) A.

Definition invert_mat256 := invert_matN mul256 inv256.
Definition mmul256 := mmulN mul256.
Definition invert_mat16 := invert_matN mul16 inv16.
Definition mmul16 := mmulN mul16.

Section Transfer.
  Variables (mulN : N -> N -> N) (invN : N -> N).
  Variable q : N.
  Variable G : Type.
  Variables (zero one : G) (add mul : G -> G -> G) (inv : G -> G).
  Variable eqbG : G -> G -> bool.

  Hypothesis eqbG_eq : forall a b, eqbG a b = true <-> a = b.
  Hypothesis add_comm : forall a b, add a b = add b a.
  Hypothesis add_assoc : forall a b c, add a (add b c) = add (add a b) c.
  Hypothesis add_0_l : forall a, add zero a = a.
  Hypothesis add_self : forall a, add a a = zero.
  Hypothesis mul_comm : forall a b, mul a b = mul b a.
  Hypothesis mul_assoc : forall a b c, mul a (mul b c) = mul (mul a b) c.
  Hypothesis mul_1_l : forall a, mul one a = a.
  Hypothesis mul_add_distr_l : forall a b c, mul a (add b c) = add (mul a b) (mul a c).
  Hypothesis mul_inv_r : forall a, a <> zero -> mul a (inv a) = one.
  Hypothesis one_neq_zero : one <> zero.

  Variable phi : G -> N.
  Variable psi : N -> G.
  Hypothesis phi_zero : phi zero = 0.
  Hypothesis phi_one : phi one = 1.
  Hypothesis phi_add : forall a b, phi (add a b) = N.lxor (phi a) (phi b).
  Hypothesis phi_mul : forall a b, phi (mul a b) = mulN (phi a) (phi b).
  Hypothesis phi_inv : forall a, phi (inv a) = invN (phi a).
  Hypothesis phi_inj : forall a b, phi a = phi b -> a = b.
  Hypothesis phi_lt : forall a, phi a < q.
  Hypothesis phi_psi : forall a, a < q -> phi (psi a) = a.

  Local Notation invG := (invert_mat G zero one add mul inv eqbG).
  Local Notation mmulG := (mmul G zero add mul).
  Local Notation mIG := (mI G zero one).
  Local Notation up := (mmap G N phi).
  Local Notation down := (map (map psi)).

  Lemma phi_eqb : forall a b, N.eqb (phi a) (phi b) = eqbG a b.
  Proof.
    intros a b. destruct (eqbG a b) eqn:E.
    - apply eqbG_eq in E. subst b. apply N.eqb_refl.
    - apply N.eqb_neq. intros H. apply phi_inj in H.
      apply eqbG_eq in H. rewrite H in E. discriminate E.
  Qed.

  Lemma up_down : forall A, belowN q A -> up (down A) = A.
  Proof.
    intros A HA. unfold mmap. rewrite map_map. revert HA. apply map_id_Forall.
    intros r Hr. rewrite map_map. revert Hr. apply map_id_Forall. exact phi_psi.
  Qed.

  Lemma below_up : forall A, belowN q (up A).
  Proof.
    intros A. unfold belowN, mmap. apply Forall_map. apply Forall_forall. intros r _.
    apply Forall_map. apply Forall_forall. intros a _. apply phi_lt.
  Qed.

  Lemma wf_down : forall k A, wfN k A -> wf G k (down A).
  Proof. exact (wf_mmap N G psi). Qed.

  Lemma up_inj : forall A B, up A = up B -> A = B.
  Proof. exact (map_inj _ _ _ (map_inj _ _ _ phi_inj)). Qed.

  Lemma invN_up : forall k A,
    invert_matN mulN invN k (up A) = option_map up (invG k A).
  Proof.
    intros k A. unfold invert_matN.
    apply (hom_invert_mat G N zero one add mul inv eqbG 0 1 N.lxor mulN invN N.eqb phi
             phi_zero phi_one phi_add phi_mul phi_inv phi_eqb).
  Qed.

  Lemma mmulN_up : forall A B, mmulN mulN (up A) (up B) = up (mmulG A B).
  Proof.
    intros A B. unfold mmulN.
    apply (hom_mmul G N zero add mul 0 N.lxor mulN phi phi_zero phi_add phi_mul).
  Qed.

  Lemma mIN_up : forall k, mIN k = up (mIG k).
  Proof.
    intros k. unfold mIN. apply (hom_mI G N zero one 0 1 phi phi_zero phi_one).
  Qed.

  Theorem invN_sound : forall k A B,
    wfN k A -> belowN q A -> invert_matN mulN invN k A = Some B ->
    wfN k B /\ belowN q B /\ mmulN mulN B A = mIN k /\ mmulN mulN A B = mIN k.
  Proof.
    intros k A B HA Hq H.
    pose proof (wf_down k A HA) as HwA'.
    rewrite <- (up_down A Hq) in H. rewrite invN_up in H.
    destruct (invG k (down A)) as [B'|] eqn:E; [|discriminate H].
    cbn [option_map] in H. injection H as EB. subst B.
    pose proof (GJ_wf G zero one add mul inv eqbG eqbG_eq add_comm add_assoc add_0_l add_self
                  mul_comm mul_assoc mul_1_l mul_add_distr_l mul_inv_r one_neq_zero
                  k (down A) B' HwA' E) as HwB'.
    destruct (GJ_sound G zero one add mul inv eqbG eqbG_eq add_comm add_assoc add_0_l add_self
                mul_comm mul_assoc mul_1_l mul_add_distr_l mul_inv_r one_neq_zero
                k (down A) B' HwA' E) as [H1 H2].
    split; [apply (wf_mmap G N phi); exact HwB'|]. split; [apply below_up|].
    rewrite <- (up_down A Hq), !mmulN_up, H1, H2, mIN_up. split; reflexivity.
  Qed.

  Theorem invN_unique : forall k A B,
    wfN k A -> belowN q A -> wfN k B -> belowN q B ->
    mmulN mulN B A = mIN k -> invert_matN mulN invN k A = Some B.
  Proof.
    intros k A B HA Hq HB HqB HBA.
    pose proof (wf_down k A HA) as HwA'. pose proof (wf_down k B HB) as HwB'.
    rewrite <- (up_down A Hq), invN_up.
    rewrite (GJ_unique G zero one add mul inv eqbG eqbG_eq add_comm add_assoc add_0_l
               add_self mul_comm mul_assoc mul_1_l mul_add_distr_l mul_inv_r one_neq_zero
               k (down A) (down B) HwA' HwB').
    - cbn [option_map]. rewrite (up_down B HqB). reflexivity.
    - apply up_inj.
      rewrite <- mmulN_up, <- mIN_up, (up_down A Hq), (up_down B HqB). exact HBA.
  Qed.
End Transfer.

(* what soundness and uniqueness alone imply *)
Section Laws.
  Variables (mulN : N -> N -> N) (invN : N -> N) (q : N).
  Hypothesis sound : forall k A B,
    wfN k A -> belowN q A -> invert_matN mulN invN k A = Some B ->
    wfN k B /\ belowN q B /\ mmulN mulN B A = mIN k /\ mmulN mulN A B = mIN k.
  Hypothesis unique : forall k A B,
    wfN k A -> belowN q A -> wfN k B -> belowN q B ->
    mmulN mulN B A = mIN k -> invert_matN mulN invN k A = Some B.

  Theorem invN_complete_left : forall k A,
    wfN k A -> belowN q A ->
    (exists B, wfN k B /\ belowN q B /\ mmulN mulN B A = mIN k) ->
    exists B, invert_matN mulN invN k A = Some B.
  Proof.
    intros k A HA Hq [B [HB [HqB HBA]]]. exists B. apply unique; assumption.
  Qed.

  Theorem invN_complete : forall k A,
    wfN k A -> belowN q A ->
    (exists B, wfN k B /\ belowN q B /\ mmulN mulN A B = mIN k) ->
    exists B, invert_matN mulN invN k A = Some B.
  Proof.
    intros k A HA Hq [B [HB [HqB HAB]]]. exists B.
    (* A is the inverse of B, hence a two-sided one *)
    destruct (sound k B A HB HqB (unique k B A HB HqB HA Hq HAB)) as [_ [_ [_ HBA]]].
    apply unique; assumption.
  Qed.

  Theorem invN_none_iff_singular : forall k A,
    wfN k A -> belowN q A ->
    (invert_matN mulN invN k A = None <->
     ~ exists B, wfN k B /\ belowN q B /\ mmulN mulN A B = mIN k).
  Proof.
    intros k A HA Hq. apply none_iff; [exact (invN_complete k A HA Hq)|].
    intros B E. exists B. destruct (sound k A B HA Hq E) as [H1 [H2 [_ H4]]].
    split; [exact H1|]. split; [exact H2|exact H4].
  Qed.
End Laws.

Definition GF_eqb (q : N) (a b : GF q) : bool := N.eqb (val a) (val b).

Lemma GF_eqb_eq : forall q (a b : GF q), GF_eqb q a b = true <-> a = b.
Proof.
  intros q a b. unfold GF_eqb. rewrite N.eqb_eq. split.
  - apply val_inj.
  - intros E. rewrite E. reflexivity.
Qed.

Lemma F256_add_self : forall a, F256_add a a = F256_zero.
Proof. intros a. exact (F256_add_opp_r a). Qed.

Lemma F16_add_self : forall a, F16_add a a = F16_zero.
Proof. intros a. exact (F16_add_opp_r a). Qed.

Theorem invert_mat256_sound : forall k A B,
  wfN k A -> belowN 256 A -> invert_mat256 k A = Some B ->
  wfN k B /\ belowN 256 B /\ mmul256 B A = mIN k /\ mmul256 A B = mIN k.
Proof.
  exact (invN_sound mul256 inv256 256 (GF 256)
           F256_zero F256_one F256_add F256_mul F256_inv (GF_eqb 256)
           (GF_eqb_eq 256) F256_add_comm F256_add_assoc F256_add_0_l F256_add_self
           F256_mul_comm F256_mul_assoc F256_mul_1_l F256_mul_add_distr_l
           F256_mul_inv_r F256_one_neq_zero
           (@val 256) of_N256 F256_val_zero F256_val_one F256_val_add F256_val_mul
           F256_val_inv (val_inj 256) F256_val_lt of_N256_val_lt).
Qed.

Theorem invert_mat256_unique : forall k A B,
  wfN k A -> belowN 256 A -> wfN k B -> belowN 256 B ->
  mmul256 B A = mIN k -> invert_mat256 k A = Some B.
Proof.
  exact (invN_unique mul256 inv256 256 (GF 256)
           F256_zero F256_one F256_add F256_mul F256_inv (GF_eqb 256)
           (GF_eqb_eq 256) F256_add_comm F256_add_assoc F256_add_0_l F256_add_self
           F256_mul_comm F256_mul_assoc F256_mul_1_l F256_mul_add_distr_l
           F256_mul_inv_r F256_one_neq_zero
           (@val 256) of_N256 F256_val_zero F256_val_one F256_val_add F256_val_mul
           F256_val_inv (val_inj 256) of_N256_val_lt).
Qed.

Theorem invert_mat256_complete : forall k A,
  wfN k A -> belowN 256 A ->
  (exists B, wfN k B /\ belowN 256 B /\ mmul256 A B = mIN k) ->
  exists B, invert_mat256 k A = Some B.
Proof. exact (invN_complete mul256 inv256 256 invert_mat256_sound invert_mat256_unique). Qed.

Theorem invert_mat256_complete_left : forall k A,
  wfN k A -> belowN 256 A ->
  (exists B, wfN k B /\ belowN 256 B /\ mmul256 B A = mIN k) ->
  exists B, invert_mat256 k A = Some B.
Proof. exact (invN_complete_left mul256 inv256 256 invert_mat256_unique). Qed.

Theorem invert_mat16_sound : forall k A B,
  wfN k A -> belowN 16 A -> invert_mat16 k A = Some B ->
  wfN k B /\ belowN 16 B /\ mmul16 B A = mIN k /\ mmul16 A B = mIN k.
Proof.
  exact (invN_sound mul16 inv16 16 (GF 16)
           F16_zero F16_one F16_add F16_mul F16_inv (GF_eqb 16)
           (GF_eqb_eq 16) F16_add_comm F16_add_assoc F16_add_0_l F16_add_self
           F16_mul_comm F16_mul_assoc F16_mul_1_l F16_mul_add_distr_l
           F16_mul_inv_r F16_one_neq_zero
           (@val 16) of_N16 F16_val_zero F16_val_one F16_val_add F16_val_mul
           F16_val_inv (val_inj 16) F16_val_lt of_N16_val_lt).
Qed.

Theorem invert_mat16_unique : forall k A B,
  wfN k A -> belowN 16 A -> wfN k B -> belowN 16 B ->
  mmul16 B A = mIN k -> invert_mat16 k A = Some B.
Proof.
  exact (invN_unique mul16 inv16 16 (GF 16)
           F16_zero F16_one F16_add F16_mul F16_inv (GF_eqb 16)
           (GF_eqb_eq 16) F16_add_comm F16_add_assoc F16_add_0_l F16_add_self
           F16_mul_comm F16_mul_assoc F16_mul_1_l F16_mul_add_distr_l
           F16_mul_inv_r F16_one_neq_zero
           (@val 16) of_N16 F16_val_zero F16_val_one F16_val_add F16_val_mul
           F16_val_inv (val_inj 16) of_N16_val_lt).
Qed.

Theorem invert_mat16_complete : forall k A,
  wfN k A -> belowN 16 A ->
  (exists B, wfN k B /\ belowN 16 B /\ mmul16 A B = mIN k) ->
  exists B, invert_mat16 k A = Some B.
Proof. exact (invN_complete mul16 inv16 16 invert_mat16_sound invert_mat16_unique). Qed.

Theorem invert_mat16_complete_left : forall k A,
  wfN k A -> belowN 16 A ->
  (exists B, wfN k B /\ belowN 16 B /\ mmul16 B A = mIN k) ->
  exists B, invert_mat16 k A = Some B.
Proof. exact (invN_complete_left mul16 inv16 16 invert_mat16_unique). Qed.

(* 2 x 2 over GF(256): det = 1*4 + 2*3 = 4 + 6 = 2, 1/2 = 142 *)
Example inv256_2x2 : invert_mat256 2 [[1; 2]; [3; 4]] = Some [[2; 1]; [143; 142]].
Proof. vm_compute. reflexivity. Qed.
Example inv256_2x2_check :
  mmul256 [[2; 1]; [143; 142]] [[1; 2]; [3; 4]] = mIN 2 /\
  mmul256 [[1; 2]; [3; 4]] [[2; 1]; [143; 142]] = mIN 2.
Proof. split; vm_compute; reflexivity. Qed.
(* zero diagonal: the full pivot search and the final column swaps are used *)
Example inv256_3x3 :
  invert_mat256 3 [[0; 0; 7]; [0; 5; 1]; [9; 0; 0]]
  = Some [[0; 0; 157]; [128; 167; 0]; [186; 0; 0]].
Proof. vm_compute. reflexivity. Qed.
Example inv256_3x3_check :
  mmul256 [[0; 0; 157]; [128; 167; 0]; [186; 0; 0]] [[0; 0; 7]; [0; 5; 1]; [9; 0; 0]] = mIN 3.
Proof. vm_compute. reflexivity. Qed.
(* a cyclic permutation matrix: its inverse is its transpose *)
Example inv256_perm :
  invert_mat256 3 [[0; 1; 0]; [0; 0; 1]; [1; 0; 0]] = Some [[0; 0; 1]; [1; 0; 0]; [0; 1; 0]].
Proof. vm_compute. reflexivity. Qed.
(* the unit-row shortcut is taken at step 0; in characteristic 2 the matrix is an involution *)
Example inv256_shortcut :
  invert_mat256 3 [[1; 0; 0]; [7; 1; 0]; [0; 0; 1]] = Some [[1; 0; 0]; [7; 1; 0]; [0; 0; 1]].
Proof. vm_compute. reflexivity. Qed.
(* singular: row 2 = row 0 + row 1 *)
Example inv256_singular : invert_mat256 3 [[1; 2; 3]; [4; 5; 6]; [5; 7; 5]] = None.
Proof. vm_compute. reflexivity. Qed.
Example inv256_singular2 : invert_mat256 2 [[2; 4]; [1; 2]] = None.
Proof. vm_compute. reflexivity. Qed.
Example inv256_0x0 : invert_mat256 0 [] = Some [].
Proof. vm_compute. reflexivity. Qed.
Example inv16_2x2 :
  match invert_mat16 2 [[1; 2]; [3; 4]] with
  | Some B => mmul16 B [[1; 2]; [3; 4]] = mIN 2 /\ mmul16 [[1; 2]; [3; 4]] B = mIN 2
  | None => False
  end.
Proof. vm_compute. split; reflexivity. Qed.
Example inv16_singular : invert_mat16 3 [[1; 2; 3]; [4; 5; 6]; [5; 7; 5]] = None.
Proof. vm_compute. reflexivity. Qed.

Print Assumptions GJ_sound.
Print Assumptions GJ_complete.
Print Assumptions GJ_complete_left.
Print Assumptions GJ_none_iff_singular.
Print Assumptions GJ_none_iff_singular_left.
Print Assumptions GJ_unique.
Print Assumptions elim_unit_noop.
Print Assumptions hom_invert_mat.
Print Assumptions invert_mat256_sound.
Print Assumptions invert_mat256_complete.
Print Assumptions invert_mat256_complete_left.
Print Assumptions invert_mat256_unique.
Print Assumptions invert_mat16_sound.
Print Assumptions invert_mat16_complete.
Print Assumptions invert_mat16_complete_left.
Print Assumptions invert_mat16_unique.
