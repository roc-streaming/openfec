(* Soundness of the dense GF(2) solver model (DenseSolve.v) when the system contains all-zero matrix rows
   whose right-hand side is arbitrary (as in the C program: such rows can never be pivots and are never
   eliminated, and their constant term is garbage).  `sol_nz` only asks a candidate x' to satisfy the
   equations of the NON-ZERO rows; the solver result still coincides with every such x'.
   Both theorems are DenseSolveProofs.solve_sound_gen at the family of non-zero rows. *)
From Coq Require Import Arith List Bool Lia.
From OFV Require Import ListAux XorGroup DenseSolve DenseSolveProofs.
Import ListNotations.

Definition nzrow (q : nat) (row : list bool) : Prop := exists c, c < q /\ bit row c = true.

Definition sol_nz (Sy : Type) (sxor : Sy -> Sy -> Sy) (s0 : Sy) (p q : nat) (y : sys Sy) (x : list Sy) : Prop :=
  forall r, r < p -> nzrow q (getrow (sA y) r) ->
    dot Sy sxor s0 q (getrow (sA y) r) x = vb Sy s0 y r.

Theorem solve_sound_nz (Sy : Type) (sxor : Sy -> Sy -> Sy) (s0 : Sy) :
  (forall a b c, sxor a (sxor b c) = sxor (sxor a b) c) ->
  (forall a b, sxor a b = sxor b a) ->
  (forall a, sxor s0 a = a) ->
  (forall a, sxor a a = s0) ->
  forall (p q : nat) (y : sys Sy) (x : list Sy),
  WFs Sy p q y -> solve Sy sxor s0 p q y = Some x ->
  length x = q /\
  forall x', sol_nz Sy sxor s0 p q y x' -> forall j, j < q -> nth j x s0 = nth j x' s0.
Proof.
  intros Ha Hc H0 Hn p q y x W Hs.
  destruct (solve_sound_gen Sy sxor s0 Ha Hc H0 Hn p q y x W Hs) as (Hlen & Hag).
  split; [exact Hlen|]. intros x'. apply Hag. intros row c Hc' Hb. exists c. split; assumption.
Qed.

Theorem solve_sound_nz_sol (Sy : Type) (sxor : Sy -> Sy -> Sy) (s0 : Sy) :
  (forall a b c, sxor a (sxor b c) = sxor (sxor a b) c) ->
  (forall a b, sxor a b = sxor b a) ->
  (forall a, sxor s0 a = a) ->
  (forall a, sxor a a = s0) ->
  forall (p q : nat) (y : sys Sy) (x : list Sy),
  WFs Sy p q y -> solve Sy sxor s0 p q y = Some x ->
  (exists x', sol_nz Sy sxor s0 p q y x') -> sol_nz Sy sxor s0 p q y x.
Proof.
  intros Ha Hc H0 Hn p q y x W Hs (x' & Hx').
  destruct (solve_sound_nz Sy sxor s0 Ha Hc H0 Hn p q y x W Hs) as (_ & Hag).
  intros r Hr Hnz. rewrite (dot_ext_x Sy sxor s0 q _ x x' (fun j Hj _ => Hag x' Hx' j Hj)). apply Hx'; assumption.
Qed.

Print Assumptions solve_sound_nz.
Print Assumptions solve_sound_nz_sol.
