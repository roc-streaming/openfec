(* C01 — decoders never hand back a wrong source symbol.
   - LDPC-Staircase streaming decoder (ITModel.v): whenever the completion query answers true, all k
     source symbols are available (second sentence of the property);
   - WHICH symbols: every symbol the streaming decoder makes available lies in the peeling closure of the
     received set (it is justified by parity equations whose other symbols are known), every source symbol
     of the closure is available, and until decoding is complete every symbol of it is
     (ldpc_available_symbols_are_justified_partial, which is it_is_peeling: both directions).
   - VALUES: along any run fed with symbols of a codeword (a column valuation satisfying every
     parity equation, symbols combined with any commutative, associative, nilpotent xor), every
     symbol the streaming decoder holds - received or rebuilt - equals the codeword's symbol at that
     column: ldpc_available_symbols_equal_codeword (first sentence of the property, IT path).
   - ML finish (MLModel.v, see Properties_C03.v for the full statement): after of_finish_decoding every
     symbol held - received, rebuilt by the simplification or produced by the Gaussian elimination -
     is the codeword's: ldpc_finish_never_returns_a_wrong_symbol.
   Reed-Solomon: the canonical code determines the sources from any k positions (Properties_C02.v) and
   the Gauss-Jordan inversion model is correct (GaussJordan.v); the decoded bytes are also compared with
   the encoded source on the C side for every session of the correspondence. *)
From Coq Require Import Arith List Bool.
From Coq Require Import ZArith.
From OFV Require Import LdpcEnc ITModel ITProofs MLModel MLCorollaries Sparse Params Pchk LdpcEndToEnd.
Import ListNotations.

Theorem ldpc_complete_implies_all_sources_available :
  forall (Sy : Type) (sxor : Sy -> Sy -> Sy) (s0 : Sy) (H0 : list (list nat)) (R0 N0 : nat),
  length H0 = R0 -> (forall i, i < R0 -> NoDup (nth i H0 [])) ->
  (forall i c, i < R0 -> In c (nth i H0 []) -> c < N0) -> (forall i, i < R0 -> 2 <= length (nth i H0 [])) -> R0 <= N0 ->
  forall fuel (hist : list (nat * Sy)) (s : st Sy),
  (forall ev, In ev hist -> fst ev < N0) -> run Sy sxor s0 H0 R0 N0 fuel hist = Some s ->
  (fst (is_complete s) = true <-> forall c, R0 <= c < N0 -> known s c = true).
Proof. exact run_complete_flag. Qed.

Theorem ldpc_available_symbols_are_justified_partial :
  forall (Sy : Type) (sxor : Sy -> Sy -> Sy) (s0 : Sy) (H0 : list (list nat)) (R0 N0 : nat),
  length H0 = R0 -> (forall i, i < R0 -> NoDup (nth i H0 [])) ->
  (forall i c, i < R0 -> In c (nth i H0 []) -> c < N0) -> (forall i, i < R0 -> 2 <= length (nth i H0 [])) -> R0 <= N0 ->
  forall fuel (hist : list (nat * Sy)) (s : st Sy),
  (forall ev, In ev hist -> fst ev < N0) -> run Sy sxor s0 H0 R0 N0 fuel hist = Some s ->
  let Rc := fun e => In e (map fst hist) in
  (forall c, known s c = true -> peel H0 R0 Rc c)
  /\ (forall c, R0 <= c < N0 -> peel H0 R0 Rc c -> known s c = true)
  /\ (~ iscomp Sy R0 N0 s -> forall c, peel H0 R0 Rc c -> known s c = true).
Proof. exact it_is_peeling. Qed.

Theorem ldpc_available_symbols_equal_codeword :
  forall (Sy : Type) (sxor : Sy -> Sy -> Sy) (s0 : Sy) (H0 : list (list nat)) (R0 N0 : nat),
  length H0 = R0 -> (forall i, i < R0 -> NoDup (nth i H0 [])) ->
  (forall i c, i < R0 -> In c (nth i H0 []) -> c < N0) -> (forall i, i < R0 -> 2 <= length (nth i H0 [])) -> R0 <= N0 ->
  (forall a b c, sxor a (sxor b c) = sxor (sxor a b) c) -> (forall a b, sxor a b = sxor b a) ->
  (forall a, sxor s0 a = a) -> (forall a, sxor a a = s0) ->
  forall cw : nat -> Sy,
  (forall i, i < R0 -> fold_right sxor s0 (map cw (nth i H0 [])) = s0) ->
  forall fuel (hist : list (nat * Sy)) (s : st Sy),
  (forall ev, In ev hist -> fst ev < N0 /\ snd ev = cw (fst ev)) -> run Sy sxor s0 H0 R0 N0 fuel hist = Some s ->
  forall c v, nth c (tab s) None = Some v -> v = cw c.
Proof. exact run_values. Qed.

Theorem ldpc_finish_never_returns_a_wrong_symbol :
  forall (Sy : Type) (sxor : Sy -> Sy -> Sy) (s0 : Sy),
  (forall a b c, sxor a (sxor b c) = sxor (sxor a b) c) -> (forall a b, sxor a b = sxor b a) ->
  (forall a, sxor s0 a = a) -> (forall a, sxor a a = s0) ->
  forall (H0 : list (list nat)) (R0 N0 : nat),
  length H0 = R0 -> (forall i, i < R0 -> NoDup (nth i H0 [])) ->
  (forall i c, i < R0 -> In c (nth i H0 []) -> c < N0) -> (forall i, i < R0 -> 2 <= length (nth i H0 [])) -> R0 <= N0 ->
  (forall c, c < N0 -> exists i, i < R0 /\ In c (nth i H0 [])) -> stair R0 H0 -> (exists a : Sy, a <> s0) ->
  forall cw : nat -> Sy, (forall i, i < R0 -> fold_right sxor s0 (map cw (nth i H0 [])) = s0) ->
  forall (hist : list (nat * Sy)) (s : st Sy) fuel perm (o : outcome Sy),
  (forall ev, In ev hist -> fst ev < N0 /\ snd ev = cw (fst ev)) -> run Sy sxor s0 H0 R0 N0 (S N0) hist = Some s ->
  N0 < fuel -> (forall c, c < R0 -> In c perm) -> (forall c, In c perm -> c < R0) ->
  ml_finish sxor s0 fuel perm s = Some o ->
  forall c v, nth c (tab (o_st o)) None = Some v -> v = cw c.
Proof. exact ml_session_values. Qed.

(* end to end, from accepted parameters: the matrix the construction model builds, the codeword the encoder model
   produces from the sources, any multiset of its symbols received in any order, the streaming decoder and
   of_finish_decoding: every source symbol held at the end is the original one; OK iff all recovered iff
   the received set determines the sources.  (Axioms: the stdlib real-number axioms, through the PRNG of the
   construction model only.) *)
Theorem ldpc_end_to_end_sources_are_the_original_ones :
  forall (Sy : Type) (sxor : Sy -> Sy -> Sy) (s0 : Sy),
  (forall a b c, sxor a (sxor b c) = sxor (sxor a b) c) -> (forall a b, sxor a b = sxor b a) ->
  (forall a, sxor s0 a = a) -> (forall a, sxor a a = s0) -> (exists a : Sy, a <> s0) ->
  forall (k r n1 : nat) (L seed g0 : Z) (fuel : nat) (m : smat) (extra : bool) (g : Z),
  accept_ldpc (Z.of_nat k) (Z.of_nat r) L (Z.of_nat n1) seed = true ->
  pchk fuel k r n1 seed g0 = Some (m, extra, g) ->
  let H := Sparse.rws m in let N := k + r in
  forall (srcs : nat -> Sy) (hist : list (nat * Sy)) (s : st Sy) (fuel' : nat) (perm : list nat) (o : outcome Sy),
  (forall ev, In ev hist -> fst ev < N /\ snd ev = codeword Sy sxor s0 r H srcs (fst ev)) ->
  run Sy sxor s0 H r N (S N) hist = Some s -> N < fuel' ->
  (forall c, c < r -> In c perm) -> (forall c, In c perm -> c < r) ->
  ml_finish sxor s0 fuel' perm s = Some o ->
  (forall c v, r <= c < N -> nth c (tab (o_st o)) None = Some v -> v = srcs c) /\
  (o_ok o = true <-> (forall c, r <= c < N -> known (o_st o) c = true)) /\
  ((forall c, r <= c < N -> known (o_st o) c = true) <->
   (forall z : nat -> bool, (forall i, i < r -> fold_right xorb false (map z (nth i H [])) = false) ->
      (forall c, In c (map fst hist) -> z c = false) -> forall c, r <= c < N -> z c = false)).
Proof. exact ldpc_end_to_end. Qed.

Print Assumptions ldpc_complete_implies_all_sources_available.
Print Assumptions ldpc_end_to_end_sources_are_the_original_ones.
Print Assumptions ldpc_finish_never_returns_a_wrong_symbol.
Print Assumptions ldpc_available_symbols_equal_codeword.
Print Assumptions ldpc_available_symbols_are_justified_partial.
