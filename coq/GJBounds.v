(* C07 for the Reed-Solomon decoding path: the in-place Gauss-Jordan inversion (of_invert_mat, three textual
   copies in the library; model in GaussJordan.v) never indexes its k x k matrix or its work arrays out of
   range.

   The plain model reads with [nth i l default] and writes with [set_nth i v l]; both are TOTAL (an
   out-of-range read returns the default, an out-of-range write is dropped), so an index slip would be masked.
   Here every function of the model that touches the matrix or a work array is copied with all reads and
   writes going through the accessors of ITBounds.v that FAIL out of range ([nth_chk], [upd_chk]); the result
   of the checked inversion distinguishes
        OutOfBounds | Singular | Inverted M
   (Singular: the model's failure results - no pivot found [PNone], the unreachable [PFail], c == 0).

   The C indexes a flat array src[row*k + col] and the arrays indxc, indxr, ipiv (k ints each), id_row,
   temp_row (k field elements each).  In the model the matrix is a list of k rows of length k; an access
   (i, j) is in range iff i < k and j < k (then i*k + j < k*k, [flat_index_lt]), an access to a work array at
   position i iff i < k.  temp_row is allocated and freed but never read or written in any of the three
   copies, so it does not appear.  indxr / indxc are explicit arrays of k entries here (the plain model keeps
   the list of pairs (indxr[col], indxc[col]), latest first), id_row is an explicit array of k entries
   (the plain model recomputes [unit_row k icol]).

   A pointer that the C uses for k consecutive entries (a row &src[i*k] in SWAP / the scaling loop / addmul /
   bcmp, the array id_row in bcmp, the k rows of src in the loops over row) is fetched through [span_chk] /
   [row_chk], which succeed iff the list has EXACTLY k entries: shorter, some p[ix] with ix < k is outside
   the list; longer, the list is not a row of a k-column matrix (resp. not a k-entry array) and the plain
   model - which maps over the whole list - would not describe the C loop either.  Counting the second case
   as a failure too only makes the safety theorem stronger, and it is what makes the refinement theorem hold
   without any hypothesis.  Once a list is known to span exactly k entries, the loop "for (ix = 0; ix < k;
   ix++) p[ix] = ..." is the model's whole-list operation.  Every other index (col, irow, icol, row, ix into
   ipiv / indxr / indxc / id_row, the pivot position p[icol], the columns indxr[col] / indxc[col] in the
   unscrambling) goes through [nth_chk] / [upd_chk].

   [invert_mat_chk_refines] (no hypothesis): Inverted M -> invert_mat = Some M; Singular -> invert_mat = None.
   [invert_mat_chk_safe]: wf k A -> invert_mat_chk k A = of_opt (invert_mat k A); hence
   [invert_mat_chk_never_oob], [invert_mat_chk_inverted_iff], [invert_mat_chk_singular_iff].
   The two are the readings of one statement per checked copy, [refif P a o]: a refines the plain result o,
   and is not OutOfBounds when the range condition P holds (P := False gives the first, P := wf k A the
   second); each copy is walked through once, [rb] taking one access at a time.  The loop invariant is [Rel]
   (the checked state against the model state; length k of ipiv / indxr / indxc, id_row = k zeros, every
   recorded indxr / indxc entry < k by [find_pivot_range]); only wf k of the matrix is conditional.  No field
   axiom is used anywhere.  The closed examples (bool/xorb/andb as a toy field, and GF(256) over N) show the
   checked copy OutOfBounds while the plain model returns a value.

   On the order of the effects in one column step.  The C does: ++ipiv[icol]; swap of the rows; indxr[col] =
   irow; indxc[col] = icol; c = pivot_row[icol]; if (c == 0) fail.  The checked copy does the two index
   writes before the swap; everything before the test c == 0 can only be OutOfBounds or succeed, so the
   result (OutOfBounds / Singular / the new state) is the same in both orders. *)
From Coq Require Import List Arith NArith Bool Lia.
From OFV Require Import GF2Poly GFField GaussJordan.
From OFV Require ITBounds.
Import ListNotations.

Notation nth_chk := ITBounds.nth_chk.
Notation upd_chk := ITBounds.upd_chk.

Inductive result (X : Type) : Type := OutOfBounds | Singular | Inverted (x : X).
Arguments OutOfBounds {X}.
Arguments Singular {X}.
Arguments Inverted {X} x.
(* the successful result of an intermediate step *)
Notation Ok := Inverted (only parsing).

Definition bind {X Y} (a : result X) (f : X -> result Y) : result Y :=
  match a with OutOfBounds => OutOfBounds | Singular => Singular | Inverted x => f x end.
Definition acc {X} (o : option X) : result X := match o with Some x => Ok x | None => OutOfBounds end.
(* the plain model's option, seen as a result that is never OutOfBounds *)
Definition of_opt {X} (o : option X) : result X := match o with Some x => Ok x | None => Singular end.

Notation "'let!' x := a 'in' k" := (bind a (fun x => k)) (at level 200, x name, a at level 100, k at level 200, right associativity).

(* ITModel.upd (used by upd_chk) is GaussJordan.set_nth *)
Lemma upd_set_nth {X} : forall (l : list X) i x, ITModel.upd l i x = set_nth i x l.
Proof. induction l as [|h t IH]; intros [|i] x; cbn; try reflexivity. now rewrite IH. Qed.

Lemma acc_nth_in {X} (l : list X) i d : i < length l -> acc (nth_chk l i) = Ok (nth i l d).
Proof. intros H. now rewrite (ITBounds.nth_chk_in l i d H). Qed.
Lemma acc_upd_in {X} (l : list X) i x : i < length l -> acc (upd_chk l i x) = Ok (set_nth i x l).
Proof. intros H. now rewrite (ITBounds.upd_chk_in l i x H), upd_set_nth. Qed.
Lemma acc_nth_oob {X} (l : list X) i : length l <= i -> acc (nth_chk l i) = OutOfBounds.
Proof. intros H. apply ITBounds.nth_chk_none in H. now rewrite H. Qed.
Lemma acc_upd_oob {X} (l : list X) i x : length l <= i -> acc (upd_chk l i x) = OutOfBounds.
Proof. intros H. apply (ITBounds.upd_chk_none l i x) in H. now rewrite H. Qed.

(* "is v, unless out of bounds" and "is the option o, unless out of bounds" *)
Definition okis {X} (a : result X) (v : X) : Prop :=
  match a with OutOfBounds => True | Singular => False | Inverted x => x = v end.
Definition refo {X} (a : result X) (o : option X) : Prop :=
  match a with OutOfBounds => True | Singular => o = None | Inverted x => o = Some x end.

(* what a checked computation a establishes: it stays in bounds when P holds, N holds if it reports
   singularity, Q x if it returns x *)
Definition post {X} (P N : Prop) (Q : X -> Prop) (a : result X) : Prop :=
  match a with OutOfBounds => ~ P | Singular => N | Inverted x => Q x end.
(* a refines the plain model's o, and stays in bounds when P holds: with P := False this is [refo a o],
   with P := True it is a = of_opt o *)
Definition refif {X} (P : Prop) (a : result X) (o : option X) : Prop :=
  post P (o = None) (fun x => o = Some x) a.

Lemma post_bind {X Y} (P P1 N1 N : Prop) Q1 Q (a : result X) (f : X -> result Y) :
  post P1 N1 Q1 a -> (P -> P1) -> (N1 -> N) -> (forall x, Q1 x -> post P N Q (f x)) -> post P N Q (bind a f).
Proof. destruct a; cbn; auto. Qed.
Lemma post_mono {X} (P P1 N1 N : Prop) (Q1 Q : X -> Prop) (a : result X) :
  (P -> P1) -> (N1 -> N) -> (forall x, Q1 x -> Q x) -> post P1 N1 Q1 a -> post P N Q a.
Proof. destruct a; cbn; auto. Qed.
Lemma post_weaken {X} (P P1 N : Prop) Q (a : result X) : (P -> P1) -> post P1 N Q a -> post P N Q a.
Proof. destruct a; cbn; auto. Qed.
Lemma refif_bind {X Y} (P N : Prop) Q (a : result X) (f : X -> result Y) v :
  refif P a (Some v) -> post P N Q (f v) -> post P N Q (bind a f).
Proof. destruct a; cbn; [auto|discriminate|now intros [= <-]]. Qed.
Lemma refif_eq {X} (P : Prop) (a : result X) o : refif P a o -> P -> a = of_opt o.
Proof. destruct a; cbn; intros H p; [destruct (H p)|now rewrite H|now rewrite H]. Qed.

(* an access: the accessor specs of ITBounds, read in this result type *)
Lemma refif_acc {X} (P : Prop) (c : option X) v : ITBounds.chk P c v -> refif P (acc c) (Some v).
Proof. destruct c; cbn; [now intros <-|auto]. Qed.
Lemma refif_nth {X} (l : list X) i d : refif (i < length l) (acc (nth_chk l i)) (Some (nth i l d)).
Proof. apply refif_acc, ITBounds.chk_nth. auto. Qed.
Lemma refif_upd {X} (l : list X) i x : refif (i < length l) (acc (upd_chk l i x)) (Some (set_nth i x l)).
Proof. rewrite <- upd_set_nth. apply refif_acc, ITBounds.chk_upd. auto. Qed.
(* a successful write tells that the index was in range *)
Lemma post_upd_bind {X Y} (P N : Prop) Q (l : list X) i x (f : list X -> result Y) :
  (P -> i < length l) -> (i < length l -> post P N Q (f (set_nth i x l))) -> post P N Q (bind (acc (upd_chk l i x)) f).
Proof.
  intros HP H. destruct (Nat.lt_ge_cases i (length l)) as [Hi|Hi].
  - rewrite (acc_upd_in l i x Hi). exact (H Hi).
  - rewrite (acc_upd_oob l i x Hi). cbn. intros p. specialize (HP p). lia.
Qed.

Lemma okis_Ok {X} (v : X) : okis (Ok v) v.
Proof. reflexivity. Qed.
Lemma refo_of_opt {X} (o : option X) : refo (of_opt o) o.
Proof. destruct o; reflexivity. Qed.
Lemma okis_not_oob {X} (a : result X) v : okis a v -> a <> OutOfBounds -> a = Ok v.
Proof. destruct a; cbn; intros H K; [now destruct K|destruct H|now subst]. Qed.

(* the next access of a checked function: L says what it is; left are that it is in range, and the rest *)
Ltac rlast L := eapply post_weaken; [|apply L].
Ltac rb L := eapply refif_bind; [rlast L|].

(* for every x of l, in order; fails at the first failure *)
Fixpoint mapM_chk {X Y} (f : X -> result Y) (l : list X) : result (list Y) :=
  match l with
  | [] => Ok []
  | x :: t => let! y := f x in let! t' := mapM_chk f t in Ok (y :: t')
  end.

Lemma refif_mapM {X Y} P (f : X -> result Y) (g : X -> Y) : forall l, (forall x, In x l -> refif P (f x) (Some (g x))) ->
  refif P (mapM_chk f l) (Some (map g l)).
Proof.
  induction l as [|x t IH]; intros H; cbn [mapM_chk map]; [reflexivity|].
  rb (H x (or_introl eq_refl)); [auto|]. rb IH; [auto|intros y Hy; apply H; now right|reflexivity].
Qed.

(* a pointer used for k consecutive entries: the list has exactly k entries *)
Definition span_chk {X} (k : nat) (l : list X) : result (list X) :=
  if Nat.eqb (length l) k then Ok l else OutOfBounds.
Lemma refif_span {X} k (l : list X) : refif (length l = k) (span_chk k l) (Some l).
Proof. unfold span_chk. destruct (Nat.eqb_spec (length l) k) as [E|N]; [reflexivity|exact N]. Qed.
Lemma span_chk_ok {X} k (l l' : list X) : span_chk k l = Ok l' -> l' = l /\ length l = k.
Proof.
  unfold span_chk. destruct (Nat.eqb_spec (length l) k) as [E|_]; [|discriminate].
  intros H. injection H as <-. now split.
Qed.
Lemma span_chk_oob {X} k (l : list X) : span_chk k l = OutOfBounds <-> length l <> k.
Proof. unfold span_chk. destruct (Nat.eqb_spec (length l) k) as [E|N]; split; intros H; try discriminate; tauto. Qed.

Lemma set_nth_set_nth {X} : forall (l : list X) i x y, set_nth i y (set_nth i x l) = set_nth i y l.
Proof. induction l as [|h t IH]; intros [|i] x y; cbn [set_nth]; try reflexivity. now rewrite IH. Qed.

Lemma nth_chk_set_nth_neq {X} : forall (l : list X) i j x, i <> j -> nth_chk (set_nth i x l) j = nth_chk l j.
Proof.
  induction l as [|h t IH]; intros [|i] [|j] x H; cbn [set_nth ITBounds.nth_chk]; try reflexivity; [lia|].
  apply IH. lia.
Qed.
Lemma nth_chk_set_nth_eq {X} : forall (l : list X) i x, i < length l -> nth_chk (set_nth i x l) i = Some x.
Proof.
  induction l as [|h t IH]; intros [|i] x H; cbn [set_nth ITBounds.nth_chk length] in *; try lia; [reflexivity|].
  apply IH. lia.
Qed.

Lemma flat_index_lt k i j : i < k -> j < k -> i * k + j < k * k.
Proof. intros Hi Hj. nia. Qed.

Section Chk.
Variable F : Type.
Variables (zero one : F) (add mul : F -> F -> F) (inv : F -> F).
Variable eqb : F -> F -> bool.

Local Notation mat := (matrix F).
Local Notation get := (get F zero).
Local Notation wf := (wf F).
Local Notation scan_row := (scan_row F zero eqb).
Local Notation scan_rows := (scan_rows F zero eqb).
Local Notation find_pivot := (find_pivot F zero eqb).
Local Notation swap_rows := (swap_rows F).
Local Notation swap_cols := (swap_cols F zero).
Local Notation scale_row := (scale_row F zero one mul inv eqb).
Local Notation addmul := (addmul F add mul).
Local Notation elim_rows := (elim_rows F zero add mul).
Local Notation unit_row := (unit_row F zero one).
Local Notation list_eqb := (list_eqb F eqb).
Local Notation eliminate := (eliminate F zero one add mul inv eqb).
Local Notation gj_step := (gj_step F zero one add mul inv eqb).
Local Notation gj_loop := (gj_loop F zero one add mul inv eqb).
Local Notation unscramble := (unscramble F zero).
Local Notation invert_mat := (invert_mat F zero one add mul inv eqb).

(* src[i*k + j] *)
Definition get_chk (A : mat) (i j : nat) : result F :=
  let! r := acc (nth_chk A i) in acc (nth_chk r j).
(* src[i*k + j] = v *)
Definition set_chk (A : mat) (i j : nat) (v : F) : result mat :=
  let! r := acc (nth_chk A i) in let! r' := acc (upd_chk r j v) in acc (upd_chk A i r').
(* &src[i*k], used for k entries *)
Definition row_chk (k : nat) (A : mat) (i : nat) : result (list F) :=
  let! r := acc (nth_chk A i) in span_chk k r.

Fixpoint scan_row_chk (ipiv : list nat) (A : mat) (row : nat) (cols : list nat) : result pres :=
  match cols with
  | [] => Ok PNone
  | ix :: cols' =>
      let! m := acc (nth_chk ipiv ix) in
      if Nat.eqb m 0 then
        let! x := get_chk A row ix in
        if negb (eqb x zero) then Ok (PFound row ix) else scan_row_chk ipiv A row cols'
      else if Nat.ltb 1 m then Ok PFail
      else scan_row_chk ipiv A row cols'
  end.

Fixpoint scan_rows_chk (k : nat) (ipiv : list nat) (A : mat) (rows : list nat) : result pres :=
  match rows with
  | [] => Ok PNone
  | row :: rows' =>
      let! m := acc (nth_chk ipiv row) in
      if negb (Nat.eqb m 1) then
        let! r := scan_row_chk ipiv A row (seq 0 k) in
        match r with
        | PNone => scan_rows_chk k ipiv A rows'
        | _ => Ok r
        end
      else scan_rows_chk k ipiv A rows'
  end.

(* if (ipiv[col] != 1 && src[col*k + col] != 0): the matrix is read only when the first test passes *)
Definition find_pivot_chk (k : nat) (ipiv : list nat) (A : mat) (col : nat) : result pres :=
  let! m := acc (nth_chk ipiv col) in
  if negb (Nat.eqb m 1) then
    let! x := get_chk A col col in
    if negb (eqb x zero) then Ok (PFound col col) else scan_rows_chk k ipiv A (seq 0 k)
  else scan_rows_chk k ipiv A (seq 0 k).

(* ++(ipiv[icol]) *)
Definition mark_chk (ipiv : list nat) (icol : nat) : result (list nat) :=
  let! m := acc (nth_chk ipiv icol) in acc (upd_chk ipiv icol (S m)).

(* for (ix = 0; ix < k; ix++) SWAP (src[r*k + ix], src[c*k + ix]) *)
Definition swap_rows_chk (k r c : nat) (A : mat) : result mat :=
  let! rr := row_chk k A r in let! rc := row_chk k A c in
  let! A1 := acc (upd_chk A c rr) in acc (upd_chk A1 r rc).

(* SWAP (row[a], row[b]) *)
Definition swap2_chk (a b : nat) (row : list F) : result (list F) :=
  let! x := acc (nth_chk row a) in let! y := acc (nth_chk row b) in
  let! r1 := acc (upd_chk row b x) in acc (upd_chk r1 a y).

(* for (row = 0; row < k; row++) SWAP (src[row*k + a], src[row*k + b]) *)
Definition swap_cols_chk (k a b : nat) (A : mat) : result mat :=
  let! A' := span_chk k A in mapM_chk (swap2_chk a b) A'.

(* c = pivot_row[icol]; if (c != 1) { pivot_row[icol] = 1; for (ix < k) pivot_row[ix] = inverse[c] * pivot_row[ix] };
   pivot_row spans k entries (it comes from row_chk) *)
Definition scale_row_chk (icol : nat) (prow : list F) : result (list F) :=
  let! c := acc (nth_chk prow icol) in
  if eqb c one then Ok prow
  else let! p1 := acc (upd_chk prow icol one) in Ok (map (mul (inv c)) p1).

(* for (ix < k) if (ix != icol) { c = p[icol]; p[icol] = 0; addmul (p, pivot_row, c, k) } *)
Definition elim_rows_chk (k icol : nat) (prow : list F) (A : mat) : result mat :=
  let! pr := span_chk k prow in
  mapM_chk (fun ix =>
              if Nat.eqb ix icol then acc (nth_chk A ix)
              else let! p := row_chk k A ix in
                   let! c := acc (nth_chk p icol) in
                   let! p1 := acc (upd_chk p icol zero) in
                   Ok (addmul p1 pr c))
           (seq 0 k).

(* the body of the col loop after found_piv, on the matrix and id_row; returns (src, id_row) *)
Definition eliminate_chk (k : nat) (A : mat) (idrow : list F) (irow icol : nat) : result (mat * list F) :=
  let! A1 := (if Nat.eqb irow icol then Ok A else swap_rows_chk k irow icol A) in
  let! prow0 := row_chk k A1 icol in
  let! c := acc (nth_chk prow0 icol) in
  if eqb c zero then Singular
  else
    let! prow := scale_row_chk icol prow0 in
    let! A2 := acc (upd_chk A1 icol prow) in
    let! id0 := span_chk k idrow in
    let! id1 := acc (upd_chk id0 icol one) in
    let! A3 := (if list_eqb prow id1 then Ok A2 else elim_rows_chk k icol prow A2) in
    let! id2 := acc (upd_chk id1 icol zero) in
    Ok (A3, id2).

(* state: src, ipiv, indxr, indxc, id_row *)
Record cst : Type := mkst { cA : mat; cpiv : list nat; cr : list nat; cc : list nat; cid : list F }.

Definition gj_step_chk (k : nat) (s : cst) (col : nat) : result cst :=
  let! p := find_pivot_chk k (cpiv s) (cA s) col in
  match p with
  | PFound irow icol =>
      let! ipiv' := mark_chk (cpiv s) icol in
      let! ir := acc (upd_chk (cr s) col irow) in
      let! ic := acc (upd_chk (cc s) col icol) in
      let! Ai := eliminate_chk k (cA s) (cid s) irow icol in
      Ok (mkst (fst Ai) ipiv' ir ic (snd Ai))
  | PNone => Singular
  | PFail => Singular
  end.

(* for (col = col0; col < col0 + cnt; col++) *)
Fixpoint gj_loop_chk (k : nat) (s : cst) (col cnt : nat) : result cst :=
  match cnt with
  | O => Ok s
  | S n => let! s' := gj_step_chk k s col in gj_loop_chk k s' (S col) n
  end.

(* for (col = cnt - 1; col >= 0; col--) if (indxr[col] != indxc[col]) swap the columns *)
Fixpoint unscramble_chk (k : nat) (ir ic : list nat) (cnt : nat) (A : mat) : result mat :=
  match cnt with
  | O => Ok A
  | S col =>
      let! r := acc (nth_chk ir col) in
      let! c := acc (nth_chk ic col) in
      let! A' := (if Nat.eqb r c then Ok A else swap_cols_chk k r c A) in
      unscramble_chk k ir ic col A'
  end.

(* the work arrays are allocated with k entries each; ipiv and id_row are cleared *)
Definition init_chk (k : nat) (A : mat) : cst := mkst A (repeat 0 k) (repeat 0 k) (repeat 0 k) (repeat zero k).

Definition invert_mat_chk (k : nat) (A : mat) : result mat :=
  let! s := gj_loop_chk k (init_chk k A) 0 k in
  unscramble_chk k (cr s) (cc s) k (cA s).

Lemma wf_length k (A : mat) : wf k A -> length A = k.
Proof. intros [H _]. exact H. Qed.

Lemma get_chk_spec A i j :
  refif (i < length A /\ j < length (nth i A [])) (get_chk A i j) (Some (get A i j)).
Proof.
  unfold get_chk, GaussJordan.get. rb (refif_nth A i (@nil F)); [exact (@proj1 _ _)|].
  rlast (refif_nth (nth i A []) j zero). exact (@proj2 _ _).
Qed.
Lemma wf_in_range k A i j : wf k A -> i < k -> j < k -> i < length A /\ j < length (nth i A []).
Proof. intros HA Hi Hj. now rewrite (wf_length k A HA), (wf_row F k A i HA Hi). Qed.

Lemma get_chk_oob_iff k A i j : wf k A -> (get_chk A i j = OutOfBounds <-> k <= i \/ k <= j).
Proof.
  intros HA. split.
  - intros H. destruct (Nat.lt_ge_cases i k) as [Hi|Hi]; [|now left].
    destruct (Nat.lt_ge_cases j k) as [Hj|Hj]; [|now right].
    rewrite (refif_eq _ _ _ (get_chk_spec A i j) (wf_in_range k A i j HA Hi Hj)) in H. discriminate H.
  - intros H. unfold get_chk. destruct (Nat.lt_ge_cases i k) as [Hi|Hi].
    + destruct H as [H|H]; [lia|].
      rewrite (acc_nth_in A i []) by (rewrite (wf_length k A HA); exact Hi). cbn [bind].
      apply acc_nth_oob. rewrite (wf_row F k A i HA Hi). exact H.
    + rewrite acc_nth_oob by (rewrite (wf_length k A HA); exact Hi). reflexivity.
Qed.

Lemma set_chk_spec A i j v :
  refif (i < length A /\ j < length (nth i A [])) (set_chk A i j v) (Some (set_nth i (set_nth j v (nth i A [])) A)).
Proof.
  unfold set_chk. rb (refif_nth A i (@nil F)); [exact (@proj1 _ _)|].
  rb (refif_upd (nth i A []) j v); [exact (@proj2 _ _)|].
  rlast (refif_upd A i (set_nth j v (nth i A []))). exact (@proj1 _ _).
Qed.
Lemma set_chk_okis A i j v : okis (set_chk A i j v) (set_nth i (set_nth j v (nth i A [])) A).
Proof.
  pose proof (set_chk_spec A i j v) as H.
  destruct (set_chk A i j v); [exact I|discriminate H|now injection H].
Qed.
Lemma set_chk_in k A i j v : wf k A -> i < k -> j < k ->
  set_chk A i j v = Ok (set_nth i (set_nth j v (nth i A [])) A).
Proof. intros HA Hi Hj. exact (refif_eq _ _ _ (set_chk_spec A i j v) (wf_in_range k A i j HA Hi Hj)). Qed.

Lemma row_chk_spec k A i : refif (wf k A /\ i < k) (row_chk k A i) (Some (nth i A [])).
Proof.
  unfold row_chk. rb (refif_nth A i (@nil F)); [intros (HA & Hi); now rewrite (wf_length k A HA)|].
  rlast (refif_span k (nth i A [])). intros (HA & Hi). exact (wf_row F k A i HA Hi).
Qed.

Lemma scan_row_chk_spec k ipiv A row : forall cols, (forall ix, In ix cols -> ix < k) ->
  refif (wf k A /\ length ipiv = k /\ row < k) (scan_row_chk ipiv A row cols) (Some (scan_row ipiv A row cols)).
Proof.
  induction cols as [|ix cols IH]; intros Hc; cbn [scan_row_chk GaussJordan.scan_row]; [reflexivity|].
  specialize (IH (fun y Hy => Hc y (or_intror Hy))). pose proof (Hc ix (or_introl eq_refl)) as Hix.
  rb (refif_nth ipiv ix 0); [intros (_ & -> & _); exact Hix|].
  destruct (Nat.eqb (nth ix ipiv 0) 0).
  - rb (get_chk_spec A row ix); [intros (HA & _ & Hr); now apply (wf_in_range k)|].
    destruct (negb (eqb (get A row ix) zero)); [reflexivity|exact IH].
  - destruct (Nat.ltb 1 (nth ix ipiv 0)); [reflexivity|exact IH].
Qed.

Lemma scan_rows_chk_spec k ipiv A : forall rows, (forall r, In r rows -> r < k) ->
  refif (wf k A /\ length ipiv = k) (scan_rows_chk k ipiv A rows) (Some (scan_rows k ipiv A rows)).
Proof.
  induction rows as [|row rows IH]; intros Hr; cbn [scan_rows_chk GaussJordan.scan_rows]; [reflexivity|].
  specialize (IH (fun y Hy => Hr y (or_intror Hy))). pose proof (Hr row (or_introl eq_refl)) as Hrow.
  rb (refif_nth ipiv row 0); [intros (_ & ->); exact Hrow|].
  destruct (negb (Nat.eqb (nth row ipiv 0) 1)); [|exact IH].
  rb (scan_row_chk_spec k ipiv A row (seq 0 k) (fun ix Hix => proj2 (proj1 (in_seq k 0 ix) Hix))); [easy|].
  destruct (scan_row ipiv A row (seq 0 k)); [reflexivity|exact IH|reflexivity].
Qed.

Lemma find_pivot_chk_spec k ipiv A col :
  refif (wf k A /\ length ipiv = k /\ col < k) (find_pivot_chk k ipiv A col) (Some (find_pivot k ipiv A col)).
Proof.
  unfold find_pivot_chk, GaussJordan.find_pivot.
  assert (HS : refif (wf k A /\ length ipiv = k /\ col < k) (scan_rows_chk k ipiv A (seq 0 k))
                     (Some (scan_rows k ipiv A (seq 0 k)))).
  { rlast (scan_rows_chk_spec k ipiv A (seq 0 k) (fun r Hr => proj2 (proj1 (in_seq k 0 r) Hr))). easy. }
  rb (refif_nth ipiv col 0); [intros (_ & -> & Hc); exact Hc|].
  destruct (negb (Nat.eqb (nth col ipiv 0) 1)); cbn [andb]; [|exact HS].
  rb (get_chk_spec A col col); [intros (HA & _ & Hc); now apply (wf_in_range k)|].
  destruct (negb (eqb (get A col col) zero)); [reflexivity|exact HS].
Qed.

(* the pivot position is inside the matrix (no field axiom, no hypothesis on the marks) *)
Lemma find_pivot_range k ipiv A col r c : col < k -> find_pivot k ipiv A col = PFound r c -> r < k /\ c < k.
Proof.
  intros Hc H. unfold GaussJordan.find_pivot in H.
  destruct (negb (Nat.eqb (nth col ipiv 0) 1) && negb (eqb (get A col col) zero)).
  - injection H as <- <-. now split.
  - pose proof (scan_rows_spec F zero eqb k ipiv A (seq 0 k)) as HS. rewrite H in HS.
    destruct HS as ((Hr & _ & Hc') & _). apply in_seq in Hr. split; [lia|exact Hc'].
Qed.

Lemma mark_chk_spec ipiv icol :
  refif (icol < length ipiv) (mark_chk ipiv icol) (Some (set_nth icol (S (nth icol ipiv 0)) ipiv)).
Proof. unfold mark_chk. rb (refif_nth ipiv icol 0); [auto|]. apply refif_upd. Qed.
Lemma mark_chk_oob_iff ipiv icol : mark_chk ipiv icol = OutOfBounds <-> length ipiv <= icol.
Proof.
  split.
  - intros H. destruct (Nat.lt_ge_cases icol (length ipiv)) as [Hlt|Hge]; [|exact Hge].
    rewrite (refif_eq _ _ _ (mark_chk_spec ipiv icol) Hlt) in H. discriminate H.
  - intros H. unfold mark_chk. rewrite (acc_nth_oob ipiv icol H). reflexivity.
Qed.

Lemma swap_rows_chk_spec k r c A :
  refif (wf k A /\ r < k /\ c < k) (swap_rows_chk k r c A) (Some (swap_rows r c A)).
Proof.
  unfold swap_rows_chk, GaussJordan.swap_rows.
  rb (row_chk_spec k A r); [easy|]. rb (row_chk_spec k A c); [easy|].
  rb (refif_upd A c (nth r A [])); [intros (HA & _ & Hc); now rewrite (wf_length k A HA)|].
  rlast (refif_upd (set_nth c (nth r A []) A) r (nth c A [])).
  intros (HA & Hr & _). now rewrite set_nth_length, (wf_length k A HA).
Qed.

Lemma swap2_chk_spec a b row : refif (a < length row /\ b < length row) (swap2_chk a b row)
  (Some (set_nth a (nth b row zero) (set_nth b (nth a row zero) row))).
Proof.
  unfold swap2_chk. rb (refif_nth row a zero); [easy|]. rb (refif_nth row b zero); [easy|].
  rb (refif_upd row b (nth a row zero)); [easy|].
  rlast (refif_upd (set_nth b (nth a row zero) row) a (nth b row zero)). rewrite set_nth_length. easy.
Qed.

Lemma swap_cols_chk_spec k a b A :
  refif (wf k A /\ a < k /\ b < k) (swap_cols_chk k a b A) (Some (swap_cols a b A)).
Proof.
  unfold swap_cols_chk, GaussJordan.swap_cols.
  rb (refif_span k A); [intros (HA & _); exact (wf_length k A HA)|].
  apply (refif_mapM _ (swap2_chk a b)). intros row Hrow. rlast (swap2_chk_spec a b row).
  intros ((_ & HF) & Ha & Hb). rewrite Forall_forall in HF. now rewrite (HF row Hrow).
Qed.

Lemma scale_row_chk_spec icol prow :
  refif (icol < length prow) (scale_row_chk icol prow) (Some (scale_row icol prow)).
Proof.
  unfold scale_row_chk, GaussJordan.scale_row. cbv zeta. rb (refif_nth prow icol zero); [auto|].
  destruct (eqb (nth icol prow zero) one); [reflexivity|]. rb (refif_upd prow icol one); [auto|]. reflexivity.
Qed.

Lemma elim_rows_chk_spec k icol prow A :
  refif (wf k A /\ length prow = k /\ icol < k) (elim_rows_chk k icol prow A) (Some (elim_rows k icol prow A)).
Proof.
  unfold elim_rows_chk, GaussJordan.elim_rows. rb (refif_span k prow); [easy|].
  apply (refif_mapM _ _ (fun ix => let p := nth ix A [] in
                                   if Nat.eqb ix icol then p
                                   else addmul (set_nth icol zero p) prow (nth icol p zero))).
  intros ix Hix. apply in_seq in Hix. cbv zeta.
  assert (Hrow : wf k A /\ length prow = k /\ icol < k -> icol < length (nth ix A [])).
  { intros (HA & _ & Hc). rewrite (wf_row F k A ix HA); lia. }
  destruct (Nat.eqb ix icol).
  - rlast (refif_nth A ix (@nil F)). intros (HA & _). rewrite (wf_length k A HA). lia.
  - rb (row_chk_spec k A ix); [intros (HA & _); split; [exact HA|lia]|].
    rb (refif_nth (nth ix A []) icol zero); [exact Hrow|].
    rb (refif_upd (nth ix A []) icol zero); [exact Hrow|]. reflexivity.
Qed.

(* id_row with id_row[icol] = 1 is the model's unit row, and clearing the entry restores k zeros *)
Lemma unit_row_as_set k icol : set_nth icol one (repeat zero k) = unit_row k icol.
Proof.
  apply (nth_ext _ _ zero zero).
  - now rewrite set_nth_length, repeat_length, unit_row_length.
  - intros j Hj. rewrite set_nth_length, repeat_length in Hj.
    rewrite (nth_unit_row F zero one k icol j Hj).
    destruct (Nat.eqb_spec j icol) as [->|N].
    + apply nth_set_nth_eq. now rewrite repeat_length.
    + rewrite nth_set_nth_neq by exact N. apply nth_repeat.
Qed.
Lemma unit_row_clear k icol : set_nth icol zero (unit_row k icol) = repeat zero k.
Proof.
  rewrite <- (unit_row_as_set k icol), set_nth_set_nth.
  rewrite <- (nth_repeat zero k icol) at 1. apply set_nth_same.
Qed.

Definition with_id (k : nat) (o : option mat) : option (mat * list F) :=
  match o with Some M => Some (M, repeat zero k) | None => None end.

Lemma eliminate_shapes k A irow icol : wf k A -> irow < k -> icol < k ->
  let A1 := swap_rows irow icol A in
  let prow := scale_row icol (nth icol A1 []) in
  wf k A1 /\ length prow = k /\ wf k (set_nth icol prow A1).
Proof.
  intros HA Hr Hc A1 prow.
  assert (HA1 : wf k A1) by now apply wf_swap_rows.
  assert (HLp : length prow = k) by (unfold prow; rewrite scale_row_length; exact (wf_row F k A1 icol HA1 Hc)).
  split; [exact HA1|]. split; [exact HLp|]. now apply wf_set_row.
Qed.

Lemma eliminate_wf k A irow icol M : wf k A -> irow < k -> icol < k ->
  eliminate k A irow icol = Some M -> wf k M.
Proof.
  intros HA Hr Hc. destruct (eliminate_shapes k A irow icol HA Hr Hc) as (_ & HLp & HA2).
  unfold GaussJordan.eliminate. rewrite swap_rows_if. cbv zeta. destruct (eqb _ zero); [discriminate|].
  destruct (list_eqb _ _); intros [= <-]; [exact HA2|now apply wf_elim_rows].
Qed.

Lemma eliminate_chk_spec k A irow icol :
  refif (wf k A /\ irow < k /\ icol < k)
        (eliminate_chk k A (repeat zero k) irow icol) (with_id k (eliminate k A irow icol)).
Proof.
  assert (HS : wf k A /\ irow < k /\ icol < k -> _) by (intros (HA & Hr & Hc); exact (eliminate_shapes k A irow icol HA Hr Hc)).
  unfold eliminate_chk, GaussJordan.eliminate. cbv zeta in *.
  eapply refif_bind with (v := if Nat.eqb irow icol then A else swap_rows irow icol A).
  { destruct (Nat.eqb irow icol); [reflexivity|apply swap_rows_chk_spec]. }
  rewrite swap_rows_if. set (A1 := swap_rows irow icol A) in *.
  assert (Hrow : wf k A /\ irow < k /\ icol < k -> icol < length (nth icol A1 [])).
  { intros p. destruct (HS p) as (HA1 & _). rewrite (wf_row F k A1 icol HA1); easy. }
  rb (row_chk_spec k A1 icol); [intros p; split; [apply (HS p)|easy]|].
  rb (refif_nth (nth icol A1 []) icol zero); [exact Hrow|].
  unfold GaussJordan.get. destruct (eqb (nth icol (nth icol A1 []) zero) zero); [reflexivity|].
  rb (scale_row_chk_spec icol (nth icol A1 [])); [exact Hrow|].
  set (prow := scale_row icol (nth icol A1 [])) in *.
  rb (refif_upd A1 icol prow); [intros p; destruct (HS p) as (HA1 & _); rewrite (wf_length k A1 HA1); easy|].
  set (A2 := set_nth icol prow A1) in *.
  rb (refif_span k (repeat zero k)); [intros _; apply repeat_length|].
  rb (refif_upd (repeat zero k) icol one); [rewrite repeat_length; easy|].
  rewrite (unit_row_as_set k icol).
  eapply refif_bind with (v := if list_eqb prow (unit_row k icol) then A2 else elim_rows k icol prow A2).
  { destruct (list_eqb prow (unit_row k icol)); [reflexivity|].
    rlast (elim_rows_chk_spec k icol prow A2). intros p. destruct (HS p) as (_ & HLp & HA2). easy. }
  rb (refif_upd (unit_row k icol) icol zero); [rewrite unit_row_length; easy|].
  rewrite (unit_row_clear k icol). reflexivity.
Qed.

(* indxr / indxc against the model's list of pairs (latest first): entry number (length idx') of each array
   holds the pair pushed when idx' was the list *)
Fixpoint IdxRel (ir ic : list nat) (idx : list (nat * nat)) : Prop :=
  match idx with
  | [] => True
  | (r, c) :: idx' => nth_chk ir (length idx') = Some r /\ nth_chk ic (length idx') = Some c /\ IdxRel ir ic idx'
  end.

Lemma IdxRel_upd ir ic col x y : forall idx, length idx <= col -> IdxRel ir ic idx ->
  IdxRel (set_nth col x ir) (set_nth col y ic) idx.
Proof.
  induction idx as [|[r c] idx IH]; intros Hl H; cbn [IdxRel length] in *; [exact I|].
  destruct H as (H1 & H2 & H3).
  rewrite !nth_chk_set_nth_neq by lia. split; [exact H1|]. split; [exact H2|]. apply IH; [lia|exact H3].
Qed.

(* checked state against model state; the column counter is the length of the list of pairs.  Whatever the
   matrix is, the work arrays keep their k entries and the recorded positions are below k (a position is
   recorded only after the write to indxr[col] has succeeded, so col < k, see [find_pivot_range]) *)
Definition Rel (k : nat) (s : cst) (m : gj_state F) : Prop :=
  match m with
  | (A, ipiv, idx) => cA s = A /\ cpiv s = ipiv /\ cid s = repeat zero k /\ IdxRel (cr s) (cc s) idx /\
                      length ipiv = k /\ length (cr s) = k /\ length (cc s) = k /\ idx_ok k idx
  end.

Lemma Rel_init k A : Rel k (init_chk k A) (A, repeat 0 k, []).
Proof. cbn. rewrite !repeat_length. repeat split; contradiction. Qed.

Lemma gj_step_chk_spec k s A ipiv idx : Rel k s (A, ipiv, idx) ->
  post (wf k A /\ length idx < k)
       (gj_step k (A, ipiv, idx) (length idx) = None)
       (fun s' => exists A' ipiv' rc,
          gj_step k (A, ipiv, idx) (length idx) = Some (A', ipiv', rc :: idx) /\
          Rel k s' (A', ipiv', rc :: idx) /\ (wf k A -> wf k A'))
       (gj_step_chk k s (length idx)).
Proof.
  intros (EA & Ep & Ei & HR & Hp & Hr & Hc & Hok).
  destruct s as [A0 pv ir ic idr]. cbn [cA cpiv cr cc cid] in *. subst A0 pv idr.
  unfold gj_step_chk, GaussJordan.gj_step. cbn [cA cpiv cr cc cid].
  rb (find_pivot_chk_spec k ipiv A (length idx)); [easy|].
  pose proof (find_pivot_range k ipiv A (length idx)) as HPR.
  destruct (find_pivot k ipiv A (length idx)) as [irow icol| |]; [|reflexivity|reflexivity].
  rb (mark_chk_spec ipiv icol); [intros (_ & Hl); rewrite Hp; exact (proj2 (HPR irow icol Hl eq_refl))|].
  apply post_upd_bind; [rewrite Hr; easy|]. rewrite Hr. intros Hl.
  rb (refif_upd ic (length idx) icol); [intros _; now rewrite Hc|].
  destruct (HPR irow icol Hl eq_refl) as (Hir & Hic).
  eapply post_bind; [exact (eliminate_chk_spec k A irow icol)|easy| |].
  - intros E. destruct (eliminate k A irow icol); [discriminate E|reflexivity].
  - intros [A3 id2] E. destruct (eliminate k A irow icol) as [A3'|] eqn:EE; cbn [with_id] in E; [|discriminate E].
    injection E as <- <-. cbn [fst snd post].
    exists A3', (set_nth icol (S (nth icol ipiv 0)) ipiv), (irow, icol). split; [reflexivity|].
    split; [|intros HA; exact (eliminate_wf k A irow icol A3' HA Hir Hic EE)].
    cbn [Rel cA cpiv cr cc cid IdxRel]. rewrite !set_nth_length.
    (* matrix, marks and id_row are the model's by computation and the lengths are kept: what needs an
       argument is that after the step indxr / indxc record (irow, icol) at position length idx *)
    do 3 (split; [reflexivity|]).
    split; [|repeat (split; [assumption|]); apply idx_ok_cons; auto].
    split; [apply nth_chk_set_nth_eq; now rewrite Hr|]. split; [apply nth_chk_set_nth_eq; now rewrite Hc|].
    apply IdxRel_upd; [lia|exact HR].
Qed.

Lemma gj_loop_chk_spec k : forall cnt s A ipiv idx, Rel k s (A, ipiv, idx) ->
  post (wf k A /\ length idx + cnt <= k)
       (gj_loop k (A, ipiv, idx) (seq (length idx) cnt) = None)
       (fun s' => exists A' ipiv' idx',
          gj_loop k (A, ipiv, idx) (seq (length idx) cnt) = Some (A', ipiv', idx') /\
          Rel k s' (A', ipiv', idx') /\ length idx' = length idx + cnt /\ (wf k A -> wf k A'))
       (gj_loop_chk k s (length idx) cnt).
Proof.
  induction cnt as [|n IH]; intros s A ipiv idx HR; cbn [gj_loop_chk seq GaussJordan.gj_loop].
  - exists A, ipiv, idx. split; [reflexivity|]. split; [exact HR|]. split; [lia|auto].
  - eapply post_bind; [exact (gj_step_chk_spec k s A ipiv idx HR)|intros (HA & Hl); split; [exact HA|lia]
                      |intros E; now rewrite E|].
    intros s1 (A1 & pv1 & rc & ES & HR1 & HW1). rewrite ES.
    specialize (IH s1 A1 pv1 (rc :: idx) HR1). cbn [length] in IH. revert IH. apply post_mono.
    + intros (HA & Hl). split; [exact (HW1 HA)|lia].
    + auto.
    + intros s2 (A2 & pv2 & idx2 & EL & HR2 & Hl2 & HW2). exists A2, pv2, idx2.
      split; [exact EL|]. split; [exact HR2|]. split; [lia|auto].
Qed.

(* every recorded indxr[col] / indxc[col] is a column of the matrix *)
Lemma unscramble_chk_spec k ir ic : forall idx A, IdxRel ir ic idx ->
  refif (wf k A /\ idx_ok k idx) (unscramble_chk k ir ic (length idx) A) (Some (unscramble idx A)).
Proof.
  induction idx as [|[r c] idx IH]; intros A H; cbn [unscramble_chk length GaussJordan.unscramble]; [reflexivity|].
  cbn [IdxRel] in H. destruct H as (H1 & H2 & H3). rewrite H1, H2. cbn [acc bind].
  eapply refif_bind with (v := if Nat.eqb r c then A else swap_cols r c A).
  - destruct (Nat.eqb r c); [reflexivity|]. rlast (swap_cols_chk_spec k r c A).
    intros (HA & (Hr & Hc & _)%idx_ok_cons). auto.
  - rewrite swap_cols_if. rlast (IH (swap_cols r c A) H3). intros (HA & (_ & _ & Hok)%idx_ok_cons).
    split; [now apply wf_swap_cols|exact Hok].
Qed.

Lemma invert_mat_chk_spec k A : refif (wf k A) (invert_mat_chk k A) (invert_mat k A).
Proof.
  unfold invert_mat_chk, GaussJordan.invert_mat.
  eapply post_bind; [exact (gj_loop_chk_spec k k _ _ _ _ (Rel_init k A))|intros HA; split; [exact HA|cbn [length]; lia]
                    |cbn [length]; intros E; now rewrite E|].
  cbn [length Nat.add]. intros s (A' & pv' & idx' & EL & (EA & _ & _ & HR & _ & _ & _ & Hok) & Hl & HW).
  rewrite EL, EA. pose proof (unscramble_chk_spec k (cr s) (cc s) idx' A' HR) as HU. rewrite Hl in HU.
  revert HU. apply post_weaken. intros HA. split; [exact (HW HA)|exact Hok].
Qed.

Theorem invert_mat_chk_refines k A :
  (forall M, invert_mat_chk k A = Inverted M -> invert_mat k A = Some M) /\
  (invert_mat_chk k A = Singular -> invert_mat k A = None).
Proof.
  pose proof (invert_mat_chk_spec k A) as H. split.
  - intros M E. now rewrite E in H.
  - intros E. now rewrite E in H.
Qed.

Theorem invert_mat_chk_safe k A : wf k A -> invert_mat_chk k A = of_opt (invert_mat k A).
Proof. exact (refif_eq _ _ _ (invert_mat_chk_spec k A)). Qed.

Corollary invert_mat_chk_never_oob k A : wf k A -> invert_mat_chk k A <> OutOfBounds.
Proof. intros HA. rewrite (invert_mat_chk_safe k A HA). destruct (invert_mat k A); discriminate. Qed.

Corollary invert_mat_chk_inverted_iff k A M : wf k A -> (invert_mat_chk k A = Inverted M <-> invert_mat k A = Some M).
Proof.
  intros HA. rewrite (invert_mat_chk_safe k A HA). destruct (invert_mat k A) as [M'|]; cbn [of_opt]; split; intros H;
    try discriminate H; injection H as <-; reflexivity.
Qed.

Corollary invert_mat_chk_singular_iff k A : wf k A -> (invert_mat_chk k A = Singular <-> invert_mat k A = None).
Proof.
  intros HA. rewrite (invert_mat_chk_safe k A HA). destruct (invert_mat k A) as [M'|]; cbn [of_opt]; split; intros H;
    try discriminate H; reflexivity.
Qed.

(* the statement with the hypotheses spelled out *)
Corollary invert_mat_chk_never_oob' k (A : mat) :
  length A = k -> (forall row, In row A -> length row = k) -> invert_mat_chk k A <> OutOfBounds.
Proof. intros HL HR. apply invert_mat_chk_never_oob. split; [exact HL|]. apply Forall_forall. exact HR. Qed.
End Chk.

Arguments mkst {F} cA cpiv cr cc cid.

Definition invert_matN_chk (mulN : N -> N -> N) (invN : N -> N) (k : nat) (A : list (list N)) : result (list (list N)) :=
  invert_mat_chk N 0%N 1%N N.lxor mulN invN N.eqb k A.
Definition invert_mat256_chk := invert_matN_chk mul256 inv256.
Definition invert_mat16_chk := invert_matN_chk mul16 inv16.

Theorem invert_mat256_chk_refines k A :
  (forall M, invert_mat256_chk k A = Inverted M -> invert_mat256 k A = Some M) /\
  (invert_mat256_chk k A = Singular -> invert_mat256 k A = None).
Proof. exact (invert_mat_chk_refines N 0%N 1%N N.lxor mul256 inv256 N.eqb k A). Qed.
Theorem invert_mat256_chk_safe k A : wfN k A -> invert_mat256_chk k A = of_opt (invert_mat256 k A).
Proof. exact (invert_mat_chk_safe N 0%N 1%N N.lxor mul256 inv256 N.eqb k A). Qed.
Corollary invert_mat256_chk_never_oob k A : wfN k A -> invert_mat256_chk k A <> OutOfBounds.
Proof. exact (invert_mat_chk_never_oob N 0%N 1%N N.lxor mul256 inv256 N.eqb k A). Qed.

Theorem invert_mat16_chk_refines k A :
  (forall M, invert_mat16_chk k A = Inverted M -> invert_mat16 k A = Some M) /\
  (invert_mat16_chk k A = Singular -> invert_mat16 k A = None).
Proof. exact (invert_mat_chk_refines N 0%N 1%N N.lxor mul16 inv16 N.eqb k A). Qed.
Theorem invert_mat16_chk_safe k A : wfN k A -> invert_mat16_chk k A = of_opt (invert_mat16 k A).
Proof. exact (invert_mat_chk_safe N 0%N 1%N N.lxor mul16 inv16 N.eqb k A). Qed.
Corollary invert_mat16_chk_never_oob k A : wfN k A -> invert_mat16_chk k A <> OutOfBounds.
Proof. exact (invert_mat_chk_never_oob N 0%N 1%N N.lxor mul16 inv16 N.eqb k A). Qed.

(* the checks are not vacuous: the checked copy fails where the plain model masks the slip *)
Section Examples.
(* bool with xorb / andb as a toy field (GF(2)) *)
Let invb := invert_mat bool false true xorb andb (fun x => x) Bool.eqb.
Let invb_chk := invert_mat_chk bool false true xorb andb (fun x => x) Bool.eqb.

(* row 1 is one entry short: the plain model reads the default for (1,1), truncates in addmul and still
   returns a "matrix"; the checked copy stops at the row that does not span k entries *)
Example short_row_plain : invb 2 [[false; true]; [true]] = Some [[false]; [false]].
Proof. vm_compute. reflexivity. Qed.
Example short_row_chk : invb_chk 2 [[false; true]; [true]] = OutOfBounds.
Proof. vm_compute. reflexivity. Qed.
(* the same over GF(256) *)
Example short_row256_plain : invert_mat256 2 [[0; 1]; [1]]%N = Some [[0]; [0]]%N.
Proof. vm_compute. reflexivity. Qed.
Example short_row256_chk : invert_mat256_chk 2 [[0; 1]; [1]]%N = OutOfBounds.
Proof. vm_compute. reflexivity. Qed.
(* a short row that the plain model reports as "singular" (the missing entry reads as 0) *)
Example short_row256_plain2 : invert_mat256 2 [[1; 2]; [3]]%N = None.
Proof. vm_compute. reflexivity. Qed.
Example short_row256_chk2 : invert_mat256_chk 2 [[1; 2]; [3]]%N = OutOfBounds.
Proof. vm_compute. reflexivity. Qed.
(* a single element access *)
Example get_plain : get N 0%N [[1; 2]; [3]]%N 1 1 = 0%N.
Proof. reflexivity. Qed.
Example get_oob : get_chk N [[1; 2]; [3]]%N 1 1 = OutOfBounds.
Proof. reflexivity. Qed.

(* k larger than the number of rows: the plain model reads the missing row as zeros and answers "singular",
   the checked copy reports the read of src[2*k + 2] *)
Example few_rows_plain : invb 3 [[true; false; false]; [false; true; false]] = None.
Proof. vm_compute. reflexivity. Qed.
Example few_rows_chk : invb_chk 3 [[true; false; false]; [false; true; false]] = OutOfBounds.
Proof. vm_compute. reflexivity. Qed.
Example few_rows256_plain : invert_mat256 3 [[1; 2]; [3; 4]]%N = None.
Proof. vm_compute. reflexivity. Qed.
Example few_rows256_chk : invert_mat256_chk 3 [[1; 2]; [3; 4]]%N = OutOfBounds.
Proof. vm_compute. reflexivity. Qed.
(* the pivot search alone: the diagonal test of column 2 reads src[2*k + 2] *)
Example find_pivot_plain : find_pivot N 0%N N.eqb 3 [1; 1; 0] [[1; 0; 0]; [0; 1; 0]]%N 2 = PNone.
Proof. vm_compute. reflexivity. Qed.
Example find_pivot_oob : find_pivot_chk N 0%N N.eqb 3 [1; 1; 0] [[1; 0; 0]; [0; 1; 0]]%N 2 = OutOfBounds.
Proof. vm_compute. reflexivity. Qed.
(* a work array with fewer than k entries: ++ipiv[icol] *)
Example mark_oob : mark_chk [0; 0] 2 = OutOfBounds.
Proof. reflexivity. Qed.
(* an indxr / indxc entry that is not a column: the C prints AARGH, the checked copy is OutOfBounds, the plain
   swap_cols drops the writes *)
Example swap_cols_plain : swap_cols N 0%N 0 5 [[1; 2]; [3; 4]]%N = [[0; 2]; [0; 4]]%N.
Proof. vm_compute. reflexivity. Qed.
Example swap_cols_oob : swap_cols_chk N 2 0 5 [[1; 2]; [3; 4]]%N = OutOfBounds.
Proof. vm_compute. reflexivity. Qed.

(* rows longer than k are not rows of a k-column matrix either (the convention of span_chk) *)
Example long_row_plain : invert_mat256 2 [[1; 0; 9]; [0; 1; 9]]%N = Some [[1; 0; 9]; [0; 1; 9]]%N.
Proof. vm_compute. reflexivity. Qed.
Example long_row_chk : invert_mat256_chk 2 [[1; 0; 9]; [0; 1; 9]]%N = OutOfBounds.
Proof. vm_compute. reflexivity. Qed.

(* on k x k matrices the two outcomes other than OutOfBounds do occur, and agree with the examples of GaussJordan.v *)
Example good_2x2 : invert_mat256_chk 2 [[1; 2]; [3; 4]]%N = Inverted [[2; 1]; [143; 142]]%N.
Proof. vm_compute. reflexivity. Qed.
(* zero diagonal: the full pivot search, the row swaps and the final column swaps are used *)
Example good_3x3 : invert_mat256_chk 3 [[0; 0; 7]; [0; 5; 1]; [9; 0; 0]]%N = Inverted [[0; 0; 157]; [128; 167; 0]; [186; 0; 0]]%N.
Proof. vm_compute. reflexivity. Qed.
Example good_singular : invert_mat256_chk 3 [[1; 2; 3]; [4; 5; 6]; [5; 7; 5]]%N = Singular.
Proof. vm_compute. reflexivity. Qed.
Example good_0x0 : invert_mat256_chk 0 [] = Inverted [].
Proof. vm_compute. reflexivity. Qed.
Example good_16 : invert_mat16_chk 2 [[1; 2]; [3; 4]]%N = of_opt (invert_mat16 2 [[1; 2]; [3; 4]]%N).
Proof. vm_compute. reflexivity. Qed.
Example good_bool : invb_chk 2 [[false; true]; [true; true]] = Inverted [[true; true]; [true; false]].
Proof. vm_compute. reflexivity. Qed.
End Examples.

Print Assumptions invert_mat_chk_refines.
Print Assumptions find_pivot_range.
Print Assumptions invert_mat_chk_safe.
Print Assumptions invert_mat_chk_never_oob.
Print Assumptions invert_mat_chk_never_oob'.
Print Assumptions invert_mat_chk_inverted_iff.
Print Assumptions invert_mat_chk_singular_iff.
Print Assumptions get_chk_oob_iff.
Print Assumptions mark_chk_oob_iff.
Print Assumptions invert_mat256_chk_refines.
Print Assumptions invert_mat256_chk_safe.
Print Assumptions invert_mat256_chk_never_oob.
Print Assumptions invert_mat16_chk_refines.
Print Assumptions invert_mat16_chk_safe.
Print Assumptions invert_mat16_chk_never_oob.
Print Assumptions short_row_chk.
Print Assumptions few_rows256_chk.
