(* End-to-end theorems: from accepted parameters to recovered source symbols.

   LDPC-Staircase:  accept_ldpc (Params.v, the parameter decisions of of_set_fec_parameters)
                    -> pchk (Pchk.v, the parity-check matrix H the codec builds, PchkConcrete.v: its shape)
                    -> encode_all (LdpcEnc.v, the repair symbols the encoder builds from the sources)
                    -> run (ITProofs.v, the streaming decoder over any received history)
                    -> ml_finish (MLModel.v, of_finish_decoding) -> the source symbols held at the end.
   2D parity:       the same chain with H := rows2d d l (Pchk2D.v), either for 1 <= d, 1 <= l or
                    starting from create2d nb_rows nb_cols = Some (d, l, m).

   Nothing new is proved about the components; the file composes the closed theorems
   accept_ldpc_valid_proof, pchk_decoder_premises, ldpc_encode_zero_sum_proof, ldpc_session_finish,
   ldpc_session_total, it_closure_full, run_complete_flag, run_values, create2d_spec and p2d_decodable.
   The only glue is: LdpcEnc.rowsum and ITProofs.xs are the same function (codeword_parity), and
   the nat/Z bounds between Params (Z) and Pchk (nat). *)
From Coq Require Import ZArith List Arith Bool Lia ZifyBool.
From OFV Require Import XorGroup ITModel ITLemmas ITProofs ITCorollaries MLModel MLFinish MLSession LdpcEnc.
From OFV Require Import Params ParamsProofs Pchk PchkConcrete Pchk2D.
From OFV Require Sparse Prng.
From OFV.gen Require Import GenConsts.
Import ListNotations.

Section Sym.
Variable Sy : Type. Variable sxor : Sy -> Sy -> Sy. Variable s0 : Sy.
Hypothesis sxor_assoc : forall a b c, sxor a (sxor b c) = sxor (sxor a b) c.
Hypothesis sxor_comm : forall a b, sxor a b = sxor b a.
Hypothesis sxor_0_l : forall a, sxor s0 a = a.
Hypothesis sxor_nilp : forall a, sxor a a = s0.
Hypothesis Sy_nontrivial : exists a : Sy, a <> s0.

(* srcs gives the source symbol of column c >= r; what it says below r is overwritten *)
Definition codeword (r : nat) (H : list (list nat)) (srcs : nat -> Sy) : nat -> Sy :=
  encode_all Sy sxor s0 r H srcs.

(* the encoder's output satisfies every parity equation, in the form the decoder theorems ask for:
   the encoder's row sum (LdpcEnc.rowsum) and the decoder's (ITProofs.xs) are the same function *)
Theorem codeword_parity : forall r H (srcs : nat -> Sy), stair r H ->
  forall i, i < r -> xs Sy sxor s0 (codeword r H srcs) (nth i H []) = s0.
Proof.
  intros r H srcs Hst. exact (proj1 (ldpc_encode_zero_sum_proof Sy sxor s0 sxor_assoc sxor_comm sxor_nilp r H srcs Hst)).
Qed.

Theorem codeword_sources : forall r H (srcs : nat -> Sy) c, r <= c -> codeword r H srcs c = srcs c.
Proof. intros r H srcs c Hc. apply (encode_frame Sy sxor s0 H). right. exact Hc. Qed.

Section Generic.
Variable H : list (list nat).
Variables r N : nat.
Hypothesis HD : decodable H r N.
Variable srcs : nat -> Sy.

Lemma gen_end_to_end : forall (hist : list (nat * Sy)) (s : st Sy) fuel' perm (o : outcome Sy),
  (forall ev, In ev hist -> fst ev < N /\ snd ev = codeword r H srcs (fst ev)) ->
  run Sy sxor s0 H r N (S N) hist = Some s -> N < fuel' -> (forall c, c < r -> In c perm) -> (forall c, In c perm -> c < r) ->
  ml_finish sxor s0 fuel' perm s = Some o ->
  (forall c v, r <= c < N -> nth c (tab (o_st o)) None = Some v -> v = srcs c) /\
  (o_ok o = true <-> forall c, r <= c < N -> known (o_st o) c = true) /\
  ((forall c, r <= c < N -> known (o_st o) c = true) <->
   (forall z : nat -> bool, (forall i, i < r -> fold_right xorb false (map z (nth i H [])) = false) ->
      (forall c, In c (map fst hist) -> z c = false) -> forall c, r <= c < N -> z c = false)).
Proof.
  destruct HD as (P1 & P2 & P3 & P4 & P5 & P6 & P7). intros hist s fuel' perm o Hh Hrun Hf Hp1 Hp2 Ho.
  destruct (ldpc_session_finish Sy sxor s0 sxor_assoc sxor_comm sxor_0_l sxor_nilp H r N
              P1 P2 P3 P4 P5 P6 P7 Sy_nontrivial (codeword r H srcs) (codeword_parity r H srcs P7)
              hist s fuel' perm o Hh Hrun Hf Hp1 Hp2 Ho) as (V & _ & OK & D).
  split; [|split; [exact OK|exact D]].
  intros c v Hc Hv. rewrite (V c v Hv). apply codeword_sources. apply Hc.
Qed.

Lemma gen_end_to_end_total : forall (hist : list (nat * Sy)) fuel' perm,
  (forall ev, In ev hist -> fst ev < N /\ snd ev = codeword r H srcs (fst ev)) ->
  N < fuel' -> (forall c, c < r -> In c perm) -> (forall c, In c perm -> c < r) ->
  exists (s : st Sy) (o : outcome Sy), run Sy sxor s0 H r N (S N) hist = Some s /\ ml_finish sxor s0 fuel' perm s = Some o.
Proof.
  destruct HD as (P1 & P2 & P3 & P4 & P5 & P6 & P7).
  exact (ldpc_session_total Sy sxor s0 sxor_assoc sxor_comm sxor_0_l sxor_nilp H r N
           P1 P2 P3 P4 P5 P6 P7 Sy_nontrivial (codeword r H srcs) (codeword_parity r H srcs P7)).
Qed.

(* every source symbol received: the streaming decoder alone is complete and holds the originals *)
Lemma gen_sources_received : forall (hist : list (nat * Sy)),
  (forall ev, In ev hist -> fst ev < N /\ snd ev = codeword r H srcs (fst ev)) ->
  (forall c, r <= c < N -> In c (map fst hist)) ->
  exists s : st Sy, run Sy sxor s0 H r N (S N) hist = Some s /\ fst (is_complete s) = true /\
    forall c, r <= c < N -> nth c (tab s) None = Some (srcs c).
Proof.
  destruct HD as (P1 & P2 & P3 & P4 & P5 & _ & P7). intros hist Hh Hall.
  assert (Hr : forall ev, In ev hist -> fst ev < N) by (intros ev Hev; apply (Hh ev Hev)).
  destruct (it_closure_full Sy sxor s0 H r N P1 P2 P3 P4 P5 hist Hr) as (s & Hs & _ & Hk).
  exists s. split; [exact Hs|].
  assert (Hsrc : forall c, r <= c < N -> known s c = true).
  { apply Hk. intros c Hc. apply peel_recv. apply Hall. exact Hc. }
  split.
  - apply (run_complete_flag Sy sxor s0 H r N P1 P2 P3 P4 P5 (S N) hist s Hr Hs). exact Hsrc.
  - intros c Hc. destruct (known_inv s c (Hsrc c Hc)) as (v & Ev). rewrite Ev.
    rewrite (run_values Sy sxor s0 H r N P1 P2 P3 P4 P5 sxor_assoc sxor_comm sxor_0_l sxor_nilp
               (codeword r H srcs) (codeword_parity r H srcs P7) (S N) hist s Hh Hs c v Ev).
    f_equal. apply codeword_sources. apply Hc.
Qed.
End Generic.

Section LDPC.
Variables (k r n1 : nat) (L seed g0 : Z) (fuel : nat) (m : Sparse.smat) (extra : bool) (g : Z).
Hypothesis Hacc : accept_ldpc (Z.of_nat k) (Z.of_nat r) L (Z.of_nat n1) seed = true.
Hypothesis Hpchk : pchk fuel k r n1 seed g0 = Some (m, extra, g).

(* the nat/Z glue: 50000 is c_ldpc_max_k = c_ldpc_max_n (GenConsts.v), 2147483646 is Prng.PM_P - 1 *)
Lemma ldpc_premises : decodable (Sparse.rws m) r (k + r).
Proof.
  assert (Hk : (Z.of_nat k <= 50000)%Z /\ (Z.of_nat r <= 50000)%Z).
  { pose proof Hacc as Ha. unfold accept_ldpc, c_ldpc_max_k, c_ldpc_max_n in Ha.
    generalize dependent (u32 (Z.of_nat k + Z.of_nat r)). intros u Ha. lia. }
  destruct Hk as (Hk & Hr).
  assert (P32 : (2 ^ 32 = 4294967296)%Z) by reflexivity.
  (* PchkConcrete.v asks k, r <= 2 ^ 24, the range in which the scaling of the PRNG is exact *)
  assert (P24 : (2 ^ 24 = 16777216)%Z) by reflexivity.
  destruct (accept_ldpc_valid_proof (Z.of_nat k) (Z.of_nat r) L (Z.of_nat n1) seed) as (A & B & _ & D & E).
  - rewrite P32. lia.
  - rewrite P32. lia.
  - exact Hacc.
  - apply (pchk_decoder_premises fuel k r n1 seed g0 m extra g).
    + lia.
    + lia.
    + rewrite P24. lia.
    + rewrite P24. lia.
    + unfold Prng.PM_P. lia.
    + exact Hpchk.
    + lia.
Qed.
End LDPC.

Theorem ldpc_end_to_end : forall (k r n1 : nat) (L seed g0 : Z) fuel m extra g,
  accept_ldpc (Z.of_nat k) (Z.of_nat r) L (Z.of_nat n1) seed = true -> pchk fuel k r n1 seed g0 = Some (m, extra, g) ->
  let H := Sparse.rws m in let N := k + r in
  forall (srcs : nat -> Sy) (hist : list (nat * Sy)) (s : st Sy) fuel' perm (o : outcome Sy),
  (forall ev, In ev hist -> fst ev < N /\ snd ev = codeword r H srcs (fst ev)) ->   (* any received multiset, any order, of encoded symbols *)
  run Sy sxor s0 H r N (S N) hist = Some s -> N < fuel' -> (forall c, c < r -> In c perm) -> (forall c, In c perm -> c < r) ->
  ml_finish sxor s0 fuel' perm s = Some o ->
  (* every source symbol the decoder holds is the original one *)
  (forall c v, r <= c < N -> nth c (tab (o_st o)) None = Some v -> v = srcs c) /\
  (* status OK <-> all sources recovered <-> they are determined by the received set *)
  (o_ok o = true <-> forall c, r <= c < N -> known (o_st o) c = true) /\
  ((forall c, r <= c < N -> known (o_st o) c = true) <->
   (forall z : nat -> bool, (forall i, i < r -> fold_right xorb false (map z (nth i H [])) = false) ->
      (forall c, In c (map fst hist) -> z c = false) -> forall c, r <= c < N -> z c = false)).
Proof.
  intros k r n1 L seed g0 fuel m extra g Hacc Hp.
  exact (gen_end_to_end _ r (k + r)
           (ldpc_premises k r n1 L seed g0 fuel m extra g Hacc Hp)).
Qed.

Theorem ldpc_end_to_end_total : forall (k r n1 : nat) (L seed g0 : Z) fuel m extra g,
  accept_ldpc (Z.of_nat k) (Z.of_nat r) L (Z.of_nat n1) seed = true -> pchk fuel k r n1 seed g0 = Some (m, extra, g) ->
  let H := Sparse.rws m in let N := k + r in
  forall (srcs : nat -> Sy) (hist : list (nat * Sy)) fuel' perm,
  (forall ev, In ev hist -> fst ev < N /\ snd ev = codeword r H srcs (fst ev)) ->
  N < fuel' -> (forall c, c < r -> In c perm) -> (forall c, In c perm -> c < r) ->
  exists (s : st Sy) (o : outcome Sy), run Sy sxor s0 H r N (S N) hist = Some s /\ ml_finish sxor s0 fuel' perm s = Some o.
Proof.
  intros k r n1 L seed g0 fuel m extra g Hacc Hp.
  exact (gen_end_to_end_total _ r (k + r)
           (ldpc_premises k r n1 L seed g0 fuel m extra g Hacc Hp)).
Qed.

(* nothing lost: the streaming decoder alone is complete and holds every source symbol *)
Theorem ldpc_all_received_recovers : forall (k r n1 : nat) (L seed g0 : Z) fuel m extra g,
  accept_ldpc (Z.of_nat k) (Z.of_nat r) L (Z.of_nat n1) seed = true -> pchk fuel k r n1 seed g0 = Some (m, extra, g) ->
  let H := Sparse.rws m in let N := k + r in
  forall (srcs : nat -> Sy) (hist : list (nat * Sy)),
  (forall ev, In ev hist -> fst ev < N /\ snd ev = codeword r H srcs (fst ev)) ->
  (forall c, c < N -> In c (map fst hist)) ->
  exists s : st Sy, run Sy sxor s0 H r N (S N) hist = Some s /\ fst (is_complete s) = true /\
    forall c, r <= c < N -> nth c (tab s) None = Some (srcs c).
Proof.
  intros k r n1 L seed g0 fuel m extra g Hacc Hp H N srcs hist Hh Hall.
  apply (gen_sources_received _ r (k + r) (ldpc_premises k r n1 L seed g0 fuel m extra g Hacc Hp) srcs hist Hh).
  intros c Hc. apply Hall. apply Hc.
Qed.

Theorem p2d_end_to_end : forall d l : nat, 1 <= d -> 1 <= l ->
  let H := rows2d d l in let r := d + l in let N := d * l + d + l in
  forall (srcs : nat -> Sy) (hist : list (nat * Sy)) (s : st Sy) fuel' perm (o : outcome Sy),
  (forall ev, In ev hist -> fst ev < N /\ snd ev = codeword r H srcs (fst ev)) ->
  run Sy sxor s0 H r N (S N) hist = Some s -> N < fuel' -> (forall c, c < r -> In c perm) -> (forall c, In c perm -> c < r) ->
  ml_finish sxor s0 fuel' perm s = Some o ->
  (forall c v, r <= c < N -> nth c (tab (o_st o)) None = Some v -> v = srcs c) /\
  (o_ok o = true <-> forall c, r <= c < N -> known (o_st o) c = true) /\
  ((forall c, r <= c < N -> known (o_st o) c = true) <->
   (forall z : nat -> bool, (forall i, i < r -> fold_right xorb false (map z (nth i H [])) = false) ->
      (forall c, In c (map fst hist) -> z c = false) -> forall c, r <= c < N -> z c = false)).
Proof.
  intros d l Hd Hl.
  exact (gen_end_to_end _ _ _ (p2d_decodable d l Hd Hl)).
Qed.

Theorem p2d_end_to_end_total : forall d l : nat, 1 <= d -> 1 <= l ->
  let H := rows2d d l in let r := d + l in let N := d * l + d + l in
  forall (srcs : nat -> Sy) (hist : list (nat * Sy)) fuel' perm,
  (forall ev, In ev hist -> fst ev < N /\ snd ev = codeword r H srcs (fst ev)) ->
  N < fuel' -> (forall c, c < r -> In c perm) -> (forall c, In c perm -> c < r) ->
  exists (s : st Sy) (o : outcome Sy), run Sy sxor s0 H r N (S N) hist = Some s /\ ml_finish sxor s0 fuel' perm s = Some o.
Proof.
  intros d l Hd Hl.
  exact (gen_end_to_end_total _ _ _ (p2d_decodable d l Hd Hl)).
Qed.

(* every SOURCE symbol received, whatever else is lost *)
Theorem p2d_all_received_recovers : forall d l : nat, 1 <= d -> 1 <= l ->
  let H := rows2d d l in let r := d + l in let N := d * l + d + l in
  forall (srcs : nat -> Sy) (hist : list (nat * Sy)),
  (forall ev, In ev hist -> fst ev < N /\ snd ev = codeword r H srcs (fst ev)) ->
  (forall c, r <= c < N -> In c (map fst hist)) ->
  exists s : st Sy, run Sy sxor s0 H r N (S N) hist = Some s /\ fst (is_complete s) = true /\
    forall c, r <= c < N -> nth c (tab s) None = Some (srcs c).
Proof.
  intros d l Hd Hl.
  exact (gen_sources_received _ _ _ (p2d_decodable d l Hd Hl)).
Qed.

(* the same from the matrix the codec creates: create2d nb_rows nb_cols = Some (d, l, m), H = rws m,
   r = nb_rows, N = nb_cols *)
Theorem p2d_create_end_to_end : forall (nb_rows nb_cols d l : nat) (m : Sparse.smat),
  create2d nb_rows nb_cols = Some (d, l, m) ->
  let H := Sparse.rws m in let r := nb_rows in let N := nb_cols in
  forall (srcs : nat -> Sy) (hist : list (nat * Sy)) (s : st Sy) fuel' perm (o : outcome Sy),
  (forall ev, In ev hist -> fst ev < N /\ snd ev = codeword r H srcs (fst ev)) ->
  run Sy sxor s0 H r N (S N) hist = Some s -> N < fuel' -> (forall c, c < r -> In c perm) -> (forall c, In c perm -> c < r) ->
  ml_finish sxor s0 fuel' perm s = Some o ->
  (forall c v, r <= c < N -> nth c (tab (o_st o)) None = Some v -> v = srcs c) /\
  (o_ok o = true <-> forall c, r <= c < N -> known (o_st o) c = true) /\
  ((forall c, r <= c < N -> known (o_st o) c = true) <->
   (forall z : nat -> bool, (forall i, i < r -> fold_right xorb false (map z (nth i H [])) = false) ->
      (forall c, In c (map fst hist) -> z c = false) -> forall c, r <= c < N -> z c = false)).
Proof.
  intros nb_rows nb_cols d l m Hc.
  destruct (create2d_spec nb_rows nb_cols d l m Hc) as (Em & Er & En & Hd & Hl).
  subst m nb_rows nb_cols. exact (p2d_end_to_end d l Hd Hl).
Qed.

Theorem p2d_create_end_to_end_total : forall (nb_rows nb_cols d l : nat) (m : Sparse.smat),
  create2d nb_rows nb_cols = Some (d, l, m) ->
  let H := Sparse.rws m in let r := nb_rows in let N := nb_cols in
  forall (srcs : nat -> Sy) (hist : list (nat * Sy)) fuel' perm,
  (forall ev, In ev hist -> fst ev < N /\ snd ev = codeword r H srcs (fst ev)) ->
  N < fuel' -> (forall c, c < r -> In c perm) -> (forall c, In c perm -> c < r) ->
  exists (s : st Sy) (o : outcome Sy), run Sy sxor s0 H r N (S N) hist = Some s /\ ml_finish sxor s0 fuel' perm s = Some o.
Proof.
  intros nb_rows nb_cols d l m Hc.
  destruct (create2d_spec nb_rows nb_cols d l m Hc) as (Em & Er & En & Hd & Hl).
  subst m nb_rows nb_cols. exact (p2d_end_to_end_total d l Hd Hl).
Qed.
End Sym.

Print Assumptions codeword_parity.
Print Assumptions codeword_sources.
Print Assumptions ldpc_end_to_end.
Print Assumptions ldpc_end_to_end_total.
Print Assumptions ldpc_all_received_recovers.
Print Assumptions p2d_end_to_end.
Print Assumptions p2d_end_to_end_total.
Print Assumptions p2d_all_received_recovers.
Print Assumptions p2d_create_end_to_end.
Print Assumptions p2d_create_end_to_end_total.
