(* C06 — encoders emit the canonical codeword.  LDPC-Staircase part (model LdpcEnc.v of
   of_ldpc_staircase_build_repair_symbol; the 2D parity encoder has the same text): after building
   the repair symbols in increasing ESI order every parity equation sums to zero, source symbols are
   untouched, and the repair values are the unique ones with that property.  Universal in the
   matrix (any staircase-shaped matrix), its size and the symbol group.
   Reed-Solomon part: RSEnc.v is the symbol-level model (repair symbol j = sum_i G[j][i] * source i,
   byte by byte; two field elements per byte for GF(2^4)) with G the canonical generator of RSCanon.v.
   Theorems: every byte of a model repair symbol is the canonical codeword element at position j of
   that byte column; G is systematic (restated here for GF(2^8); RSCanon.coef16_systematic is its twin); G is "obtained from the Vandermonde matrix on the points 0, 1,
   x, x^2, ...": its row j satisfies (row j) * V_k = (1, x_j, x_j^2, ..., x_j^(k-1)) and is the ONLY
   row vector doing so (so G = V_n * V_k^-1), for every k <= 2^m, in GF(2)[x]/(x^8+x^4+x^3+x^2+1) and
   GF(2)[x]/(x^4+x+1).  InvertVdm.v models how the C BUILDS its generator (of_rs_new /
   of_rs_2m_build_encoding_matrix: Vandermonde rows on the points, the fast in-place inversion
   of_invert_vdm of the top block, of_matmul) and proves that the result is this canonical generator for
   every 1 <= k <= n <= 2^m (the inversion routine is correct because its first point is 0, which is
   what the library always passes: a counterexample with a non-zero first point is in the file).
   The C encoders (both codecs; codec 1 and codec 2 with m=8 therefore byte compatible) and the
   generator matrices they build are compared with the extracted model on every run. *)
From Coq Require Import Arith List Bool.
From Coq Require Import NArith.
From OFV Require Import XorGroup LdpcEnc GF2Poly GFField RSCanon RSEnc GaussJordan InvertVdm.
Import ListNotations.

Theorem ldpc_encode_zero_sum :
  forall (Sy : Type) (sxor : Sy -> Sy -> Sy) (s0 : Sy),
  (forall a b c, sxor a (sxor b c) = sxor (sxor a b) c) -> (forall a b, sxor a b = sxor b a) ->
  (forall a, sxor a a = s0) ->
  forall r H (tab : nat -> Sy), stair r H ->
  let t' := encode_all Sy sxor s0 r H tab in
  (forall c, c < r -> rowsum Sy sxor s0 t' (nth c H []) = s0) /\ (forall x, r <= x -> t' x = tab x).
Proof. exact ldpc_encode_zero_sum_proof. Qed.

Theorem ldpc_encode_unique :
  forall (Sy : Type) (sxor : Sy -> Sy -> Sy) (s0 : Sy),
  (forall a b c, sxor a (sxor b c) = sxor (sxor a b) c) -> (forall a b, sxor a b = sxor b a) ->
  (forall a, sxor s0 a = a) -> (forall a, sxor a a = s0) ->
  forall r H (t1 t2 : nat -> Sy), stair r H ->
  (forall x, r <= x -> t1 x = t2 x) ->
  (forall c, c < r -> rowsum Sy sxor s0 t1 (nth c H []) = s0) -> (forall c, c < r -> rowsum Sy sxor s0 t2 (nth c H []) = s0) ->
  forall c, c < r -> t1 c = t2 c.
Proof. exact ldpc_encode_unique_proof. Qed.

Theorem rs256_repair_bytes_are_canonical :
  forall k L src j b, length src = k -> b < L ->
  nth b (rs8_repair k L (invdens 8 P256 mul256 inv256 k) src j) 0%N = elem256 k (byte_col src b) j.
Proof. exact rs8_repair_byte. Qed.

Theorem rs16_repair_bytes_are_canonical :
  forall k L src j b, length src = k -> b < L ->
  nth b (rs4_repair k L (invdens 4 P16 mul16 inv16 k) src j) 0%N =
  N.lor (N.shiftl (elem16 k (map (fun x => N.shiftr x 4) (byte_col src b)) j) 4)
        (elem16 k (map (fun x => N.land x 15) (byte_col src b)) j).
Proof. exact rs4_repair_byte. Qed.

Theorem rs256_generator_times_vandermonde :
  forall k j t, k <= 256 -> j < 256 -> t < k ->
  fold_right N.lxor 0%N (map (fun i => mul256 (coef256 k i j) (pow256 (rs_point 8 P256 i) t)) (seq 0 k)) = pow256 (rs_point 8 P256 j) t.
Proof.
  exact (coefN_vandermonde 8%N P256 mul256 inv256 256%N 256 (GF 256%N)
           F256_zero F256_one F256_add F256_mul F256_opp F256_inv F256_eq_dec
           F256_add_comm F256_add_assoc F256_add_0_l F256_add_opp_r F256_mul_comm F256_mul_assoc
           F256_mul_1_l F256_mul_add_distr_l F256_mul_inv_r F256_one_neq_zero val of_N256
           F256_val_zero F256_val_one F256_val_add F256_val_mul F256_val_opp F256_val_inv
           (val_inj 256%N) F256_val_lt of_N256_val_lt rs_point256_lt rs_point256_inj).
Qed.

Theorem rs256_generator_unique :
  forall k j g, k <= 256 -> j < 256 -> length g = k -> Forall (fun a => (a < 256)%N) g ->
  (forall t, t < k -> fold_right N.lxor 0%N (map (fun i => mul256 (nth i g 0%N) (pow256 (rs_point 8 P256 i) t)) (seq 0 k)) = pow256 (rs_point 8 P256 j) t) ->
  forall i, i < k -> nth i g 0%N = coef256 k i j.
Proof.
  exact (coefN_unique 8%N P256 mul256 inv256 256%N 256 (GF 256%N)
           F256_zero F256_one F256_add F256_mul F256_opp F256_inv F256_eq_dec
           F256_add_comm F256_add_assoc F256_add_0_l F256_add_opp_r F256_mul_comm F256_mul_assoc
           F256_mul_1_l F256_mul_add_distr_l F256_mul_inv_r F256_one_neq_zero val of_N256
           F256_val_zero F256_val_one F256_val_add F256_val_mul F256_val_opp F256_val_inv
           (val_inj 256%N) F256_val_lt of_N256_val_lt rs_point256_lt rs_point256_inj).
Qed.

Theorem rs16_generator_times_vandermonde :
  forall k j t, k <= 16 -> j < 16 -> t < k ->
  fold_right N.lxor 0%N (map (fun i => mul16 (coef16 k i j) (pow16 (rs_point 4 P16 i) t)) (seq 0 k)) = pow16 (rs_point 4 P16 j) t.
Proof.
  exact (coefN_vandermonde 4%N P16 mul16 inv16 16%N 16 (GF 16%N)
           F16_zero F16_one F16_add F16_mul F16_opp F16_inv F16_eq_dec
           F16_add_comm F16_add_assoc F16_add_0_l F16_add_opp_r F16_mul_comm F16_mul_assoc
           F16_mul_1_l F16_mul_add_distr_l F16_mul_inv_r F16_one_neq_zero val of_N16
           F16_val_zero F16_val_one F16_val_add F16_val_mul F16_val_opp F16_val_inv
           (val_inj 16%N) F16_val_lt of_N16_val_lt rs_point16_lt rs_point16_inj).
Qed.

Theorem rs16_generator_unique :
  forall k j g, k <= 16 -> j < 16 -> length g = k -> Forall (fun a => (a < 16)%N) g ->
  (forall t, t < k -> fold_right N.lxor 0%N (map (fun i => mul16 (nth i g 0%N) (pow16 (rs_point 4 P16 i) t)) (seq 0 k)) = pow16 (rs_point 4 P16 j) t) ->
  forall i, i < k -> nth i g 0%N = coef16 k i j.
Proof.
  exact (coefN_unique 4%N P16 mul16 inv16 16%N 16 (GF 16%N)
           F16_zero F16_one F16_add F16_mul F16_opp F16_inv F16_eq_dec
           F16_add_comm F16_add_assoc F16_add_0_l F16_add_opp_r F16_mul_comm F16_mul_assoc
           F16_mul_1_l F16_mul_add_distr_l F16_mul_inv_r F16_one_neq_zero val of_N16
           F16_val_zero F16_val_one F16_val_add F16_val_mul F16_val_opp F16_val_inv
           (val_inj 16%N) F16_val_lt of_N16_val_lt rs_point16_lt rs_point16_inj).
Qed.

Theorem rs256_generator_systematic :
  forall k i j, k <= 256 -> i < k -> j < k -> coef256 k i j = if Nat.eqb i j then 1%N else 0%N.
Proof.
  exact (coefN_systematic 8%N P256 mul256 inv256 256%N 256 (GF 256%N)
           F256_zero F256_one F256_add F256_mul F256_opp F256_inv F256_eq_dec
           F256_add_comm F256_add_assoc F256_add_0_l F256_add_opp_r F256_mul_comm F256_mul_assoc
           F256_mul_1_l F256_mul_add_distr_l F256_mul_inv_r F256_one_neq_zero val of_N256
           F256_val_zero F256_val_one F256_val_add F256_val_mul F256_val_opp F256_val_inv
           (val_inj 256%N) F256_val_lt of_N256_val_lt rs_point256_lt rs_point256_inj).
Qed.

Theorem rs256_library_construction_yields_the_canonical_generator :
  forall k n, k <= n <= 256 -> 1 <= k -> forall j i, j < n -> i < k ->
  GaussJordan.get N 0%N (build_enc256 k n) j i = if Nat.ltb j k then (if Nat.eqb i j then 1%N else 0%N) else coef256 k i j.
Proof. exact build_enc256_spec. Qed.

Theorem rs16_library_construction_yields_the_canonical_generator :
  forall k n, k <= n <= 16 -> 1 <= k -> forall j i, j < n -> i < k ->
  GaussJordan.get N 0%N (build_enc16 k n) j i = if Nat.ltb j k then (if Nat.eqb i j then 1%N else 0%N) else coef16 k i j.
Proof. exact build_enc16_spec. Qed.

Print Assumptions ldpc_encode_zero_sum.
Print Assumptions rs256_library_construction_yields_the_canonical_generator.
Print Assumptions rs16_library_construction_yields_the_canonical_generator.
Print Assumptions rs256_repair_bytes_are_canonical.
Print Assumptions rs16_repair_bytes_are_canonical.
Print Assumptions rs256_generator_times_vandermonde.
Print Assumptions rs256_generator_unique.
Print Assumptions rs16_generator_unique.
Print Assumptions ldpc_encode_unique.
