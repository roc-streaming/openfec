(* C18: correctness of the model of of_hweight_array (of_hamming_weight.c) and of
   of_mod2dense_row_weight_ignore_first (of_matrix_dense.c) given in HweightArray.v.
   - hweight_array ws size is the number of ones of the ceil(size/32) first words (whole words), it never wraps,
     depends only on those words, and is None exactly when the C would read past the array;
   - d_row_weight_ignore_first m i nb is the weight of row i restricted to the columns from the WORD boundary
     32*(nb/32) - not from nb itself unless 32 divides nb (Example ignore_first_counts_ignored_bits). *)
From Coq Require Import ZArith NArith Arith List Bool Lia ZifyBool ZifyNat ZifyN.
From OFV Require Import CSem ListAux Dense DenseProofs DenseCopyProofs PopcountProofs HweightArray.
From OFV.gen Require Import GenPopcount.
Import ListNotations.
Local Open Scope Z_scope.
Ltac Zify.zify_post_hook ::= Z.div_mod_to_equations.

Definition sum_popc (ws : list Z) : Z := fold_right (fun w acc => popc 32 w + acc) 0 ws.

Definition w32 (w : Z) : Prop := 0 <= w < 2 ^ 32.

Lemma sum_popc_cons : forall w ws, sum_popc (w :: ws) = popc 32 w + sum_popc ws.
Proof. reflexivity. Qed.

Lemma sum_popc_app : forall a b, sum_popc (a ++ b) = sum_popc a + sum_popc b.
Proof.
  induction a as [|w a IH]; intros b.
  - cbn [app]. unfold sum_popc at 2. cbn [fold_right]. lia.
  - cbn [app]. rewrite !sum_popc_cons, IH. lia.
Qed.

Lemma sum_popc_bound : forall ws, 0 <= sum_popc ws <= 32 * Z.of_nat (length ws).
Proof.
  induction ws as [|w ws IH].
  - unfold sum_popc. cbn [fold_right length]. lia.
  - rewrite sum_popc_cons. cbn [length]. pose proof (popc_nonneg 32 w) as Hp. lia.
Qed.

Theorem hw_words_spec : forall size, 0 <= size -> hw_words size = (size + 31) / 32.
Proof.
  intros size Hs. unfold hw_words.
  rewrite (shiftr_div size 5 32) by (try reflexivity; lia).
  destruct (0 <? size mod 32) eqn:E; lia.
Qed.

Lemma popc64_pair : forall w0 w1, w32 w0 -> w32 w1 ->
  of_popcount_3 c_of_m1 c_of_m2 c_of_m4 c_of_h01 (w0 + 4294967296 * w1) = Some (popc 32 w0 + popc 32 w1).
Proof.
  intros w0 w1 H0 H1. unfold w32 in H0, H1. change (2 ^ 32) with 4294967296 in H0, H1.
  rewrite popcount_3_correct by (change (2 ^ 64) with 18446744073709551616; lia).
  f_equal. exact (popc_split 32 32 w0 w1 H0).
Qed.

Lemma hw_loop64_spec : forall n ws acc, Forall w32 ws -> (2 * n <= length ws)%nat ->
  0 <= acc -> acc + 64 * Z.of_nat n < 4294967296 ->
  hw_loop64 n ws acc = Some (acc + sum_popc (firstn (2 * n) ws), skipn (2 * n) ws).
Proof.
  induction n as [|n IH]; intros ws acc Hws Hlen Hacc Hb.
  - change (2 * 0)%nat with 0%nat. cbn [firstn skipn hw_loop64]. unfold sum_popc. cbn [fold_right].
    f_equal. f_equal. lia.
  - replace (2 * S n)%nat with (S (S (2 * n))) in * by lia.
    destruct ws as [|w0 [|w1 t]]; cbn [length] in Hlen; try lia.
    inversion Hws as [|x0 l0 Hw0 Hws0]; subst x0 l0.
    inversion Hws0 as [|x1 l1 Hw1 Ht]; subst x1 l1.
    cbn [hw_loop64 firstn skipn]. rewrite popc64_pair by assumption.
    pose proof (popc_nonneg 32 w0) as P0. pose proof (popc_nonneg 32 w1) as P1.
    rewrite wrapu32_small by lia.
    rewrite IH by (try assumption; lia).
    rewrite !sum_popc_cons. f_equal. f_equal. lia.
Qed.

(* what a successful run of the loop says, with no hypothesis on the words *)
Lemma hw_loop64_rest : forall n ws acc a r, hw_loop64 n ws acc = Some (a, r) ->
  r = skipn (2 * n) ws /\ (2 * n <= length ws)%nat.
Proof.
  induction n as [|n IH]; intros ws acc a r H.
  - cbn [hw_loop64] in H. inversion H; subst. change (2 * 0)%nat with 0%nat. cbn [skipn]. split; [reflexivity|lia].
  - replace (2 * S n)%nat with (S (S (2 * n))) by lia.
    destruct ws as [|w0 [|w1 t]]; cbn [hw_loop64] in H; try discriminate.
    destruct (of_popcount_3 c_of_m1 c_of_m2 c_of_m4 c_of_h01 (w0 + 4294967296 * w1)) as [p|]; [|discriminate].
    apply IH in H. destruct H as [Hr Hl]. cbn [skipn length]. split; [exact Hr|lia].
Qed.

Lemma hw_loop64_firstn : forall n ws acc k, (2 * n <= k)%nat ->
  hw_loop64 n (firstn k ws) acc =
  match hw_loop64 n ws acc with Some (a, r) => Some (a, firstn (k - 2 * n) r) | None => None end.
Proof.
  induction n as [|n IH]; intros ws acc k Hk.
  - change (2 * 0)%nat with 0%nat. cbn [hw_loop64]. rewrite Nat.sub_0_r. reflexivity.
  - replace (2 * S n)%nat with (S (S (2 * n))) in * by lia.
    destruct k as [|[|k]]; try lia.
    destruct ws as [|w0 [|w1 t]]; cbn [firstn hw_loop64]; try reflexivity.
    destruct (of_popcount_3 c_of_m1 c_of_m2 c_of_m4 c_of_h01 (w0 + 4294967296 * w1)) as [p|]; [|reflexivity].
    rewrite IH by lia. reflexivity.
Qed.

(* the C's  n32 >> 1  and  n32 % 2, with n = n32 as a natural number *)
Lemma hweight_array_eq : forall ws size, 0 <= size -> forall n, n = Z.to_nat (hw_words size) ->
  hweight_array ws size =
  match hw_loop64 (n / 2) ws 0 with
  | None => None
  | Some (acc, rest) =>
    if (n mod 2 =? 0)%nat then Some acc
    else match rest with w :: _ => Some (wrapu32 (acc + hweight32_table w)) | [] => None end
  end.
Proof.
  intros ws size Hs n ->. assert (Hn : 0 <= hw_words size) by (rewrite hw_words_spec by lia; lia).
  unfold hweight_array. cbv zeta. rewrite (shiftr_div (hw_words size) 1 2) by (reflexivity || lia).
  replace (Z.to_nat (hw_words size / 2)) with (Z.to_nat (hw_words size) / 2)%nat by lia.
  replace (hw_words size mod 2 =? 0) with (Z.to_nat (hw_words size) mod 2 =? 0)%nat by lia. reflexivity.
Qed.

Theorem hweight_array_correct : forall ws size,
  Forall (fun w => 0 <= w < 2 ^ 32) ws -> 0 <= size < 2 ^ 31 -> hw_words size <= Z.of_nat (length ws) ->
  hweight_array ws size = Some (sum_popc (firstn (Z.to_nat (hw_words size)) ws)).
Proof.
  intros ws size Hws Hs Hlen. change (Forall w32 ws) in Hws.
  change (2 ^ 31) with 2147483648 in Hs.
  assert (Hn : 0 <= hw_words size <= 67108864) by (rewrite hw_words_spec by lia; lia).
  remember (Z.to_nat (hw_words size)) as n eqn:En. rewrite (hweight_array_eq ws size (proj1 Hs) n En).
  rewrite hw_loop64_spec, Z.add_0_l by (try assumption; lia).
  destruct (Nat.eqb_spec (n mod 2) 0) as [E|E].
  - replace (2 * (n / 2))%nat with n by lia. reflexivity.
  - destruct (skipn (2 * (n / 2)) ws) as [|w r] eqn:Er.
    + pose proof (skipn_length (2 * (n / 2)) ws) as Hl. rewrite Er in Hl. cbn [length] in Hl. lia.
    + pose proof (Forall_skipn w32 (2 * (n / 2)) ws Hws) as Hsk. rewrite Er in Hsk.
      inversion Hsk as [|x l Hw Hr]; subst x l.
      rewrite hweight32_table_correct by exact Hw.
      replace n with (S (2 * (n / 2))) at 2 by lia.
      rewrite (firstn_S_skipn _ _ _ _ Er), sum_popc_app, sum_popc_cons.
      pose proof (sum_popc_bound (firstn (2 * (n / 2)) ws)) as Hb. rewrite firstn_length in Hb.
      pose proof (popc_nonneg 32 w) as Hp.
      rewrite wrapu32_small by lia. f_equal. unfold sum_popc at 3. cbn [fold_right]. lia.
Qed.

Lemma hweight_array_firstn : forall ws size, 0 <= size ->
  hweight_array (firstn (Z.to_nat (hw_words size)) ws) size = hweight_array ws size.
Proof.
  intros ws size Hs. remember (Z.to_nat (hw_words size)) as n eqn:En.
  rewrite !(hweight_array_eq _ size Hs n En), hw_loop64_firstn by lia.
  destruct (hw_loop64 (n / 2) ws 0) as [[a r]|]; [|reflexivity].
  destruct (Nat.eqb_spec (n mod 2) 0) as [E|E]; [reflexivity|].
  replace (n - 2 * (n / 2))%nat with 1%nat by lia.
  destruct r as [|w r]; reflexivity.
Qed.

Theorem hweight_array_reads_only_its_words : forall ws ws' size, 0 <= size ->
  firstn (Z.to_nat (hw_words size)) ws = firstn (Z.to_nat (hw_words size)) ws' ->
  hweight_array ws size = hweight_array ws' size.
Proof.
  intros ws ws' size Hs H.
  rewrite <- (hweight_array_firstn ws size Hs), <- (hweight_array_firstn ws' size Hs), H. reflexivity.
Qed.

(* the model's way of saying that the C would read past the array *)
Theorem hweight_array_past_the_end : forall ws size, 0 <= size ->
  Z.of_nat (length ws) < hw_words size -> hweight_array ws size = None.
Proof.
  intros ws size Hs Hlen. rewrite (hweight_array_eq ws size Hs _ eq_refl).
  destruct (hw_loop64 _ ws 0) as [[a r]|] eqn:El; [|reflexivity].
  apply hw_loop64_rest in El. destruct El as [Er Hl].
  destruct (Nat.eqb_spec (Z.to_nat (hw_words size) mod 2) 0); [lia|].
  assert (Hr : length r = 0%nat) by (rewrite Er, skipn_length; lia).
  destruct r as [|w r]; [reflexivity|discriminate].
Qed.

Lemma popc_count (f : nat -> bool) s w : forall n,
  (forall b, (b < n)%nat -> f (s + b)%nat = Z.testbit w (Z.of_nat b)) ->
  popc n w = Z.of_nat (length (filter f (seq s n))).
Proof.
  induction n as [|n IH]; intros H.
  - reflexivity.
  - rewrite seq_S, filter_app, app_length. cbn [popc filter]. rewrite IH, H by auto.
    destruct (Z.testbit w (Z.of_nat n)); cbn [length]; lia.
Qed.

Theorem popc_bits : forall n w,
  popc n w = Z.of_nat (length (filter (fun b => Z.testbit w (Z.of_nat b)) (seq 0 n))).
Proof. intros n w. apply popc_count. reflexivity. Qed.

Corollary popc32_bits : forall w, 0 <= w < 2 ^ 32 ->
  popc 32 w = Z.of_nat (length (filter (fun b => Z.testbit w (Z.of_nat b)) (seq 0 32))).
Proof. intros w _. apply popc_bits. Qed.

Lemma word_popc : forall m i k n, (n <= 32)%nat ->
  popc n (Z.of_N (word m i k)) = Z.of_nat (length (filter (fun j => d_get m i j) (seq (32 * k) n))).
Proof.
  intros m i k n Hn. apply popc_count. intros b Hb.
  rewrite get_word by lia. rewrite <- nat_N_Z, N2Z.inj_testbit. reflexivity.
Qed.

Lemma words_popc : forall m i l off,
  (forall t, (t < length l)%nat -> nth t l 0%N = word m i (off + t)) ->
  sum_popc (map Z.of_N l) =
  Z.of_nat (length (filter (fun j => d_get m i j) (seq (32 * off) (32 * length l)))).
Proof.
  intros m i. induction l as [|w l IH]; intros off H.
  - reflexivity.
  - cbn [map length]. rewrite sum_popc_cons.
    replace (32 * S (length l))%nat with (32 + 32 * length l)%nat by lia.
    rewrite seq_app, filter_app, app_length, Nat2Z.inj_add.
    rewrite <- word_popc by lia.
    replace (32 * off + 32)%nat with (32 * S off)%nat by lia.
    rewrite <- IH.
    + pose proof (H 0%nat ltac:(cbn [length]; lia)) as H0. cbn [nth] in H0.
      rewrite Nat.add_0_r in H0. rewrite H0. reflexivity.
    + intros t Ht. pose proof (H (S t) ltac:(cbn [length]; lia)) as Hs. cbn [nth] in Hs.
      rewrite Hs. f_equal. lia.
Qed.

Theorem row_weight_ignore_first_correct : forall m i nb,
  WFd m -> words32 m -> padzero m -> (i < dr m)%nat -> (32 * (nb / 32) <= dc m)%nat -> Z.of_nat (dc m) < 2 ^ 31 ->
  d_row_weight_ignore_first m i nb =
  Some (Z.of_nat (length (filter (fun j => d_get m i j) (seq (32 * (nb / 32)) (dc m - 32 * (nb / 32)))))).
Proof.
  intros m i nb W B P Hi Hoff Hdc. change (2 ^ 31) with 2147483648 in Hdc.
  unfold d_row_weight_ignore_first. destruct (Nat.leb_spec (dr m) i) as [Hge|_]; [lia|]. cbv zeta.
  set (off := (nb / 32)%nat) in *. set (row := nth i (drows m) []).
  pose proof (wd_len m W i Hi : length row = dw m) as Hrow. pose proof (wfd_cols m W) as Hcov.
  assert (Hwords : hw_words (Z.of_nat (dc m) - 32 * Z.of_nat off) = Z.of_nat (dw m - off))
    by (rewrite hw_words_spec; lia).
  assert (Hlen : length (map Z.of_N (skipn off row)) = (dw m - off)%nat)
    by (rewrite map_length, skipn_length, Hrow; reflexivity).
  rewrite hweight_array_correct.
  - f_equal. rewrite Hwords, Nat2Z.id. rewrite firstn_all2 by (rewrite Hlen; lia).
    rewrite (words_popc m i (skipn off row) off).
    + rewrite skipn_length, Hrow.
      replace (32 * (dw m - off))%nat with ((dc m - 32 * off) + (32 * dw m - dc m))%nat by lia.
      rewrite seq_app, filter_app.
      rewrite (filter_none _ (seq (32 * off + (dc m - 32 * off)) (32 * dw m - dc m))).
      * rewrite app_nil_r. reflexivity.
      * intros j Hj. apply in_seq in Hj. apply P; [exact Hi|lia|lia].
    + intros t _. rewrite nth_skipn. reflexivity.
  - apply Forall_map, Forall_skipn, Forall_forall. intros y Hy. destruct (In_nth _ _ 0%N Hy) as (k & _ & <-).
    pose proof (B i k) as Bk. unfold word in Bk. change (2 ^ 32)%N with 4294967296%N in Bk.
    split; [lia|]. change (2 ^ 32) with 4294967296. subst row. lia.
  - change (2 ^ 31) with 2147483648. lia.
  - rewrite Hwords, Hlen. lia.
Qed.

(* when 32 divides nb_ignore the first nb_ignore columns are indeed the ones ignored *)
Corollary row_weight_ignore_first_aligned : forall m i nb,
  WFd m -> words32 m -> padzero m -> (i < dr m)%nat -> (nb mod 32 = 0)%nat -> (nb <= dc m)%nat ->
  Z.of_nat (dc m) < 2 ^ 31 ->
  d_row_weight_ignore_first m i nb =
  Some (Z.of_nat (length (filter (fun j => d_get m i j) (seq nb (dc m - nb))))).
Proof.
  intros m i nb W B P Hi Hmod Hnb Hdc.
  assert (E : (32 * (nb / 32) = nb)%nat) by lia.
  rewrite row_weight_ignore_first_correct by (try assumption; lia).
  rewrite E. reflexivity.
Qed.

(* otherwise the bits nb mod 32 .. 31 of the first counted word ARE counted: one row of 40 columns, bits 0 and 35 set,
   nb_ignore = 3: the function answers 2 although only one bit lies in the columns 3..39 *)
Example ignore_first_counts_ignored_bits :
  let m := {| dr := 1; dc := 40; dw := 2; drows := [[1%N; 8%N]] |} in
  d_get m 0 0 = true /\ d_get m 0 35 = true /\
  length (filter (fun j => d_get m 0 j) (seq 3 (40 - 3))) = 1%nat /\
  d_row_weight_ignore_first m 0 3 = Some 2 /\
  d_row_weight_ignore_first m 0 32 = Some 1.
Proof. vm_compute. repeat split; reflexivity. Qed.

(* UINT32(-1) for a row out of range *)
Theorem row_weight_ignore_first_bad_row : forall m i nb, (dr m <= i)%nat ->
  d_row_weight_ignore_first m i nb = Some 4294967295.
Proof.
  intros m i nb H. unfold d_row_weight_ignore_first. destruct (Nat.leb_spec (dr m) i); [reflexivity|lia].
Qed.

Corollary row_weight_ignore_first_0 : forall m i,
  WFd m -> words32 m -> padzero m -> (i < dr m)%nat -> Z.of_nat (dc m) < 2 ^ 31 ->
  d_row_weight_ignore_first m i 0 = Some (Z.of_nat (d_row_weight m i)).
Proof.
  intros m i W B P Hi Hdc.
  rewrite row_weight_ignore_first_aligned by (try assumption; try reflexivity; lia).
  rewrite Nat.sub_0_r. reflexivity.
Qed.

Print Assumptions hweight_array_correct.
Print Assumptions row_weight_ignore_first_correct.
Definition HweightArrayProofs_all :=
  (@hw_words_spec, @hweight_array_correct, @hweight_array_firstn, @hweight_array_reads_only_its_words,
   @hweight_array_past_the_end, @popc_bits, @popc32_bits, @row_weight_ignore_first_correct,
   @row_weight_ignore_first_aligned, @ignore_first_counts_ignored_bits, @row_weight_ignore_first_bad_row,
   @row_weight_ignore_first_0).
Print Assumptions HweightArrayProofs_all.
