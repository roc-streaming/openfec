(* The plain copies of of_matrix_sparse.c WITH their error exits: of_mod2sparse_copyrows / copycols clear the destination and then
   return at the first out-of-range index, keeping the rows (columns) copied before it.  Sparse.v's s_copyrows / s_copycols model the
   in-range case only (an out-of-range index reads as an empty row there); the stream `sparse` runs these checked versions, which
   coincide with them in range (copyrows_chk_inrange, copycols_chk_inrange). *)
From Coq Require Import Arith List Bool Lia.
From OFV Require Import ListAux Sparse SparseProofs SparseOpt SparseOptProofs.
Import ListNotations.

Definition s_copyrows_chk (m r : smat) (rows : list nat) : smat :=
  if nc r <? nc m then r else
  insert_all (s_clear r)
    (flat_map (fun i => map (fun j => (i, j)) (nth (nth i rows 0) (rws m) [])) (seq 0 (first_bad_row m rows (nr r)))).

Definition s_copycols_chk (m r : smat) (cols : list nat) : smat :=
  if nr r <? nr m then r else
  insert_all (s_clear r)
    (flat_map (fun j => map (fun i => (i, j)) (nth (nth j cols 0) (cls m) [])) (seq 0 (first_bad_col m cols (nc r)))).

Lemma copyrows_chk_inrange m r rows : (forall i, i < nr r -> nth i rows 0 < nr m) -> s_copyrows_chk m r rows = s_copyrows m r rows.
Proof.
  intros H. unfold s_copyrows_chk, s_copyrows, first_bad_row.
  rewrite (first_bad_all (nr m) rows (nr r) 0); [reflexivity|]. intros k Hk. apply H. lia.
Qed.

Lemma copycols_chk_inrange m r cols : (forall j, j < nc r -> nth j cols 0 < nc m) -> s_copycols_chk m r cols = s_copycols m r cols.
Proof.
  intros H. unfold s_copycols_chk, s_copycols, first_bad_col.
  rewrite (first_bad_all (nc m) cols (nc r) 0); [reflexivity|]. intros k Hk. apply H. lia.
Qed.
