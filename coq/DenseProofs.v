(* The operations of Dense.v on a well-formed matrix (WFd), each in terms of d_get: allocate, clear, set, flip,
   xor_rows, the weights and the emptiness test.  ZifyNat lets lia decide the goals about j / 32, j mod 32
   and nwords. *)
From Coq Require Import NArith Arith List Bool Lia ZifyNat.
From OFV Require Import ListAux Dense.
Import ListNotations.

Record WFd (m : dmat) : Prop := {
  wd_rows : length (drows m) = dr m;
  wd_len : forall i, i < dr m -> length (nth i (drows m) []) = dw m;
  wd_words : dw m = nwords (dc m) }.

(* generic list facts *)
Lemma existsb_eqb_seq i n : existsb (Nat.eqb i) (seq 0 n) = (i <? n).
Proof.
  destruct (Nat.ltb_spec i n) as [H|H].
  - apply existsb_eqb_In, in_seq. lia.
  - destruct (existsb _ _) eqn:E; [|reflexivity]. apply existsb_eqb_In, in_seq in E. lia.
Qed.

Lemma between_empty i k : (i <=? k) && (k <? i) = false.
Proof. destruct (Nat.leb_spec i k), (Nat.ltb_spec k i); try reflexivity; lia. Qed.

Lemma firstn_S_skipn {A} : forall j (l : list A) x r, skipn j l = x :: r -> firstn (S j) l = firstn j l ++ [x].
Proof.
  induction j as [|j IH]; intros l x r H.
  - cbn [skipn] in H. subst l. reflexivity.
  - destruct l as [|y l]; [discriminate|]. cbn [skipn] in H.
    change (firstn (S (S j)) (y :: l)) with (y :: firstn (S j) l).
    rewrite (IH l x r H). reflexivity.
Qed.

Lemma nwords_bound c j : j < c -> j / 32 < nwords c.
Proof. unfold nwords. lia. Qed.

(* every word of an all-zero matrix, in or out of range *)
Lemma word_zeros r w i k : nth k (nth i (repeat (repeat 0%N w) r) []) 0%N = 0%N.
Proof.
  destruct (nth_in_or_default i (repeat (repeat 0%N w) r) []) as [H| ->].
  - rewrite (repeat_spec _ _ _ H). apply nth_repeat.
  - destruct k; reflexivity.
Qed.

Lemma row_zeros r w i : i < r -> length (nth i (repeat (repeat 0%N w) r) []) = w.
Proof.
  intros H. rewrite (repeat_spec r (repeat 0%N w) (nth i _ [])) by (apply nth_In; rewrite repeat_length; exact H).
  apply repeat_length.
Qed.

Lemma get_word m i k n : n < 32 -> d_get m i (32 * k + n) = N.testbit (word m i k) (N.of_nat n).
Proof.
  intros H. unfold d_get. replace ((32 * k + n) / 32) with k by lia. replace ((32 * k + n) mod 32) with n by lia.
  reflexivity.
Qed.

Lemma word_allocate r c i k : word (d_allocate r c) i k = 0%N.
Proof. apply word_zeros. Qed.

Lemma word_clear m i k : word (d_clear m) i k = 0%N.
Proof. apply word_zeros. Qed.

Lemma allocate_wfd r c : WFd (d_allocate r c) /\ forall i j, d_get (d_allocate r c) i j = false.
Proof.
  split.
  - constructor; simpl; [apply repeat_length|apply row_zeros|reflexivity].
  - intros i j. unfold d_get. rewrite word_allocate. apply N.bits_0.
Qed.

Theorem get_clear m i j : d_get (d_clear m) i j = false.
Proof. unfold d_get. rewrite word_clear. apply N.bits_0. Qed.

Lemma word_set_word m i k w i' k' : i < length (drows m) -> k < length (nth i (drows m) []) ->
  word (set_word m i k w) i' k' = if (i' =? i) && (k' =? k) then w else word m i' k'.
Proof.
  intros Hi Hk. unfold word, set_word. simpl.
  destruct (Nat.eqb_spec i' i) as [->|Hni]; simpl.
  - rewrite nth_upd_eq by exact Hi. destruct (Nat.eqb_spec k' k) as [->|Hnk].
    + apply nth_upd_eq. exact Hk.
    + apply nth_upd_neq. lia.
  - rewrite nth_upd_neq by lia. reflexivity.
Qed.

Lemma set_in m i j v : i < dr m -> j < dc m ->
  d_set m i j v = set_word m i (j / 32) (let w := word m i (j / 32) in
                    if v then N.setbit w (N.of_nat (j mod 32)) else N.clearbit w (N.of_nat (j mod 32))).
Proof.
  intros Hi Hj. unfold d_set. destruct (Nat.leb_spec (dr m) i); [lia|]. destruct (Nat.leb_spec (dc m) j); [lia|]. reflexivity.
Qed.

Lemma set_cases m i j v : d_set m i j v = m \/ i < dr m /\ j < dc m.
Proof.
  unfold d_set. destruct (Nat.leb_spec (dr m) i); [now left|]. destruct (Nat.leb_spec (dc m) j); [now left|]. now right.
Qed.

Lemma testbit_assign w p (v : bool) q :
  N.testbit (if v then N.setbit w p else N.clearbit w p) q = if (q =? p)%N then v else N.testbit w q.
Proof.
  destruct v; [rewrite N.setbit_eqb|rewrite N.clearbit_eqb]; rewrite (N.eqb_sym p q); destruct (q =? p)%N;
    cbn [orb negb]; auto using andb_false_r, andb_true_r.
Qed.

Theorem get_set m i j v i' j' : WFd m -> i < dr m -> j < dc m ->
  d_get (d_set m i j v) i' j' = if (i' =? i) && (j' =? j) then v else d_get m i' j'.
Proof.
  intros W Hi Hj. rewrite set_in by assumption.
  unfold d_get at 1. rewrite word_set_word
    by (rewrite ?(wd_rows m W), ?(wd_len m W i Hi), ?(wd_words m W); auto using nwords_bound).
  destruct (Nat.eqb_spec i' i) as [->|Hni]; cbn [andb]; [|reflexivity].
  destruct (Nat.eqb_spec (j' / 32) (j / 32)) as [Eq|Hnq].
  - cbv zeta. rewrite testbit_assign. unfold d_get. rewrite Eq.
    destruct (N.eqb_spec (N.of_nat (j' mod 32)) (N.of_nat (j mod 32))), (Nat.eqb_spec j' j); try reflexivity; lia.
  - destruct (Nat.eqb_spec j' j) as [->|Hnj]; [congruence|reflexivity].
Qed.

Lemma set_wfd m i j v : WFd m -> WFd (d_set m i j v).
Proof.
  intros W. destruct (set_cases m i j v) as [->|(Hi & Hj)]; [exact W|]. rewrite set_in by assumption.
  constructor; cbn [set_word drows dr dc dw].
  - rewrite upd_length. apply (wd_rows m W).
  - intros i' Hi'. destruct (Nat.eq_dec i' i) as [->|Hne].
    + rewrite nth_upd_eq by (rewrite (wd_rows m W); exact Hi). rewrite upd_length. apply (wd_len m W i Hi).
    + rewrite nth_upd_neq by lia. apply (wd_len m W i' Hi').
  - apply (wd_words m W).
Qed.

(* also when (i, j) is out of range: both then leave m as it is *)
Lemma flip_fst m i j : fst (d_flip m i j) = d_set m i j (negb (d_get m i j)).
Proof. unfold d_flip, d_set. destruct ((dr m <=? i) || (dc m <=? j)); reflexivity. Qed.

Lemma nth_xor_words : forall a b k, length a = length b -> nth k (xor_words a b) 0%N = N.lxor (nth k a 0%N) (nth k b 0%N).
Proof.
  induction a as [|x a IH]; intros [|y b] k H; simpl in *; try discriminate.
  - destruct k; reflexivity.
  - destruct k as [|k]; [reflexivity|]. apply IH. lia.
Qed.

Lemma word_xor_rows m from to i k : WFd m -> from < dr m -> to < dr m ->
  word (d_xor_rows m from to) i k = if i =? to then N.lxor (word m to k) (word m from k) else word m i k.
Proof.
  intros W Hf Ht. unfold word, d_xor_rows. simpl.
  destruct (Nat.eqb_spec i to) as [->|Hne].
  - rewrite nth_upd_eq by (rewrite (wd_rows m W); exact Ht).
    apply nth_xor_words. rewrite !(wd_len m W); auto.
  - rewrite nth_upd_neq by lia. reflexivity.
Qed.

Theorem get_xor_rows m from to i j : WFd m -> from < dr m -> to < dr m ->
  d_get (d_xor_rows m from to) i j = if i =? to then xorb (d_get m to j) (d_get m from j) else d_get m i j.
Proof.
  intros W Hf Ht. unfold d_get. rewrite word_xor_rows by assumption.
  destruct (i =? to); [apply N.lxor_spec|reflexivity].
Qed.

Theorem row_weight_spec m i : d_row_weight m i = length (filter (fun j => d_get m i j) (seq 0 (dc m))).
Proof. reflexivity. Qed.
Theorem col_weight_spec m j : d_col_weight m j = length (filter (fun i => d_get m i j) (seq 0 (dr m))).
Proof. reflexivity. Qed.
Theorem row_is_empty_sound m i : d_row_is_empty m i = true -> forall j, d_get m i j = false.
Proof.
  intros H j. unfold d_row_is_empty in H. rewrite forallb_forall in H. unfold d_get, word.
  destruct (nth_in_or_default (j / 32) (nth i (drows m) []) 0%N) as [Hin| ->]; [|apply N.bits_0].
  apply H, N.eqb_eq in Hin. rewrite Hin. apply N.bits_0.
Qed.
