(* C07 — memory safety and read-only treatment of application buffers.
   What a Gallina model can carry of this property is the byte-level / table-level contract; it is
   stated here for the models that the correspondence ties to the C (kernels, encoders, decoders):
   - the symbol kernels change exactly the first `size` bytes of their destination(s) and their
     result does not depend on operand bytes at or beyond `size` (C13's theorems, restated);
   - the decoders never overwrite a symbol they hold: a table entry, once set (received buffer or
     decoded symbol), keeps its value through every later call of the streaming decoder, through the
     ML finish, and through every call of the Reed-Solomon API layer; the entry written for a fresh
     submission is the submitted buffer itself;
   - EVERY table access of the streaming decoder is in range (ITBounds.v): the models read with `nth i l default` and write
     with `upd`, which are total, so an index slip would be masked; decode_chk is a copy of the decoder whose every read and
     write of tab / ct / unk / enc / rws goes through accessors that FAIL out of range; it refines the plain model
     unconditionally, and from the initial state, for every history of submissions with ESIs below n, no call is ever
     OutOfBounds (nor stuck on an ill-shaped row) and every call computes exactly what the plain model computes; the
     hypotheses are needed (closed examples: a column >= n, a short table, a complete state with a corrupted row);
   - no dangling reference to a heap block (LdpcHeap.v, C08's ledger): in every reachable state every block named by a table
     slot is live - so the decoder never reads a partial sum, a stored repair symbol or a
     decoded source through a pointer to freed memory.
   (That the LDPC/2D encoder leaves every source symbol as it was is stated with C06, that the dense-matrix copies act
   only within the bounds of the matrices given with C18, that no block is freed twice with C08.)
   What NO model here can exhibit, and what the check decides at run time instead: pointer-level
   behaviour of the compiled C (out-of-bounds reads/writes, use after free, alignment) - every
   generated life cycle runs under AddressSanitizer/UBSan with exact-size heap buffers and every
   application buffer is compared before/after. *)
From Coq Require Import NArith Arith List Bool.
From OFV Require Import ListAux Kernels KernelProofs XorGroup LdpcEnc ITModel ITProofs MLModel RSApi RSApiProofs StableTables ITBounds LdpcHeap LdpcHeapProofs.
Import ListNotations.

Theorem kernels_write_nothing_beyond_size : forall f size l j, size <= j -> nth j (upd_range f 0 size l) 0%N = nth j l 0%N.
Proof. exact upd_range_frame_beyond. Qed.

Theorem kernels_read_nothing_beyond_size : forall dst from from' size,
  (forall i, i < size -> map (fun s => nth i s 0%N) from = map (fun s => nth i s 0%N) from') ->
  add_from_multiple dst from size = add_from_multiple dst from' size.
Proof. exact add_from_multiple_reads_only_size. Qed.

Theorem ldpc_decoder_never_overwrites_a_held_symbol :
  forall (Sy : Type) (sxor : Sy -> Sy -> Sy) (s0 : Sy) (H0 : list (list nat)) (R0 N0 : nat) fuel h1 h2 s1 s2,
  ITProofs.run Sy sxor s0 H0 R0 N0 fuel h1 = Some s1 -> ITProofs.run Sy sxor s0 H0 R0 N0 fuel (h1 ++ h2) = Some s2 ->
  forall e x, nth e (ITModel.tab s1) None = Some x -> nth e (ITModel.tab s2) None = Some x.
Proof. exact run_tab_stable. Qed.

Theorem ldpc_decoder_stores_the_submitted_symbol :
  forall (Sy : Type) (sxor : Sy -> Sy -> Sy) (s0 : Sy) fuel s c v s',
  ITModel.decode sxor s0 fuel s c v = Some s' -> c < length (ITModel.tab s) -> nth c (ITModel.tab s) None = None ->
  nth c (ITModel.tab s') None = Some v.
Proof. exact decode_stores_submitted. Qed.

Theorem ml_finish_never_overwrites_a_held_symbol :
  forall (Sy : Type) (sxor : Sy -> Sy -> Sy) (s0 : Sy) fuel perm s o,
  MLModel.ml_finish sxor s0 fuel perm s = Some o ->
  forall e x, nth e (ITModel.tab s) None = Some x -> nth e (ITModel.tab (MLModel.o_st o)) None = Some x.
Proof. exact ml_finish_tab_stable. Qed.

Theorem rs_api_never_overwrites_a_held_symbol :
  forall (B : Type) (core : nat -> list (option B) -> option (list B)) (cb : bool) (mk : nat -> B -> B) (k n : nat) (h1 h2 : list (nat * B)),
  forall e x, nth e (RSApi.tab (RSApiProofs.run B core cb mk k n h1)) None = Some x ->
              nth e (RSApi.tab (fst (RSApi.rs_finish core cb mk (RSApiProofs.run B core cb mk k n (h1 ++ h2))))) None = Some x.
Proof.
  intros B core cb mk k n h1 h2 e x Hx. apply rs_finish_tab_stable. revert Hx. apply rs_run_tab_stable.
Qed.

Theorem rs_api_stores_the_submitted_buffer :
  forall (B : Type) (core : nat -> list (option B) -> option (list B)) (cb : bool) (mk : nat -> B -> B) s esi b,
  RSApi.fin s = false -> esi < length (RSApi.tab s) -> nth esi (RSApi.tab s) None = None ->
  nth esi (RSApi.tab (fst (RSApi.rs_decode_with_new_symbol core cb mk s esi b))) None = Some b.
Proof. exact rs_step_stores_submitted. Qed.

Theorem checked_decoder_refines_the_model : forall (Sy : Type) (sxor : Sy -> Sy -> Sy) (s0 : Sy) fuel s c v,
  refines Sy (decode_chk sxor s0 fuel s c v) (ITModel.decode sxor s0 fuel s c v).
Proof. exact decode_chk_refines. Qed.

Theorem no_table_access_out_of_range_in_any_history :
  forall (Sy : Type) (sxor : Sy -> Sy -> Sy) (s0 : Sy) (H0 : list (list nat)) (R0 N0 : nat),
  length H0 = R0 -> (forall i, i < R0 -> NoDup (nth i H0 [])) -> (forall i c, i < R0 -> In c (nth i H0 []) -> c < N0) ->
  (forall i, i < R0 -> 2 <= length (nth i H0 [])) -> R0 <= N0 ->
  forall fuel hist, N0 < fuel -> (forall ev, In ev hist -> fst ev < N0) ->
  forall h1 ev h2, hist = h1 ++ ev :: h2 ->
  exists s s', run_chk Sy sxor s0 H0 R0 N0 fuel h1 = Ok s /\ GoodB Sy H0 R0 N0 s /\
               decode_chk sxor s0 fuel s (fst ev) (snd ev) = Ok s' /\ GoodB Sy H0 R0 N0 s'.
Proof. exact run_chk_every_call. Qed.

Theorem checked_run_equals_plain_run :
  forall (Sy : Type) (sxor : Sy -> Sy -> Sy) (s0 : Sy) (H0 : list (list nat)) (R0 N0 : nat),
  length H0 = R0 -> (forall i, i < R0 -> NoDup (nth i H0 [])) -> (forall i c, i < R0 -> In c (nth i H0 []) -> c < N0) ->
  (forall i, i < R0 -> 2 <= length (nth i H0 [])) -> R0 <= N0 ->
  forall fuel hist, (forall ev, In ev hist -> fst ev < N0) ->
  run_chk Sy sxor s0 H0 R0 N0 fuel hist = lift Sy (ITProofs.run Sy sxor s0 H0 R0 N0 fuel hist).
Proof. exact run_chk_eq. Qed.

(* the Reed-Solomon path and the encoder: same treatment (GJBounds.v, ApiBounds.v) *)
From OFV Require GaussJordan GJBounds ApiBounds.
(* the in-place Gauss-Jordan inversion (three textual copies in the library): every access to the k x k matrix and to
   indxc / indxr / ipiv / id_row in range, for every k and every k x k matrix; it refines the model unconditionally *)
Theorem rs_matrix_inversion_stays_in_its_arrays_gf256 : forall k A, GaussJordan.wfN k A ->
  GJBounds.invert_mat256_chk k A <> GJBounds.OutOfBounds.
Proof. exact GJBounds.invert_mat256_chk_never_oob. Qed.
Theorem rs_matrix_inversion_stays_in_its_arrays_gf16 : forall k A, GaussJordan.wfN k A ->
  GJBounds.invert_mat16_chk k A <> GJBounds.OutOfBounds.
Proof. exact GJBounds.invert_mat16_chk_never_oob. Qed.
Theorem rs_checked_inversion_is_the_model : forall k A, GaussJordan.wfN k A ->
  GJBounds.invert_mat256_chk k A = GJBounds.of_opt (GaussJordan.invert_mat256 k A).
Proof. exact GJBounds.invert_mat256_chk_safe. Qed.
(* the RS API layer: from the initial state, every call of any history (submissions with ESI < n, finish, tables of n
   entries) reads and writes the availability table in range and equals the model *)
Theorem rs_api_never_indexes_outside_its_table :
  forall (B : Type) (core : nat -> list (option B) -> option (list B)) (cb : bool) (mk : nat -> B -> B),
  (forall k t vals, core k t = Some vals -> length vals = k) ->
  forall (k n : nat) (h : list (ApiBounds.op B)), k <= n -> (forall o, In o h -> ApiBounds.op_ok B n o) ->
  forall h1 o h2, h = h1 ++ o :: h2 ->
  let s := ApiBounds.runs B core cb mk (RSApi.rs_init B k n) h1 in
  ApiBounds.RInv B s /\ RSApi.rn s = n /\
  ApiBounds.call_chk B core cb mk s o = ApiBounds.Ret B (ApiBounds.call B core cb mk s o) /\
  ApiBounds.RInv B (fst (ApiBounds.call B core cb mk s o)).
Proof. exact ApiBounds.rs_history_every_call. Qed.
(* the LDPC / 2D encoder: building the repair symbols reads only positions the matrix names, all below n *)
Theorem ldpc_encoder_reads_inside_the_symbol_table :
  forall (Sy : Type) (sxor : Sy -> Sy -> Sy) (s0 : Sy) (H : list (list nat)) (r n : nat),
  (forall i x, i < r -> In x (nth i H []) -> x < n) -> r <= n ->
  forall l : list Sy, length l = n -> ApiBounds.encode_all_chk Sy sxor s0 r H l <> ApiBounds.EOutOfBounds.
Proof. exact ApiBounds.encode_all_chk_never_oob. Qed.

Theorem every_block_a_table_names_is_live : forall s, HInv s ->
  forall b, In b (somes (hct s) ++ lib_blocks (htab s)) -> In b (live (hp s)).
Proof. intros s H b Hb. destruct H as (_ & _ & _ & _ & (Hl & _) & _). apply Hl. exact Hb. Qed.

Print Assumptions no_table_access_out_of_range_in_any_history.
Print Assumptions rs_matrix_inversion_stays_in_its_arrays_gf256.
Print Assumptions rs_api_never_indexes_outside_its_table.
Print Assumptions ldpc_encoder_reads_inside_the_symbol_table.
Print Assumptions checked_run_equals_plain_run.
Print Assumptions every_block_a_table_names_is_live.
Print Assumptions kernels_write_nothing_beyond_size.
Print Assumptions ldpc_decoder_never_overwrites_a_held_symbol.
Print Assumptions ml_finish_never_overwrites_a_held_symbol.
Print Assumptions rs_api_never_overwrites_a_held_symbol.
Print Assumptions rs_api_stores_the_submitted_buffer.
