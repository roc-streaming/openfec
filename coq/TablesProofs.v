(* The checkers of Tables.v are sound (chk_*_spec) and hold of the header tables by evaluation, except on the
   256 x 256 product table of GF(2^8): that one is compared with 256 rows spanned by 8 products each
   (gf28_mul_rows), and a spanned row is the row of products because the product is additive (mul_row_eq). *)
From Coq Require Import NArith Arith List Bool Lia.
From OFV Require Import ListAux GF2Poly GFField Tables.
From OFV.gen Require Import GenTables.
Import ListNotations.
Local Open Scope N_scope.

(* a two-level sweep `forallbi` over a q x r table, read back entry by entry *)
Lemma forallbi_get2 q r (f : nat -> nat -> N) tbl :
  Nat.eqb (length tbl) q &&
  forallbi (fun a row => Nat.eqb (length row) r && forallbi (fun b e => N.eqb e (f a b)) 0 row) 0 tbl = true ->
  forall a b, a < N.of_nat q -> b < N.of_nat r -> get2 tbl a b = f (N.to_nat a) (N.to_nat b).
Proof.
  intros H a b Ha Hb.
  apply andb_true_iff in H as [Hl H]. apply Nat.eqb_eq in Hl.
  pose proof (forallbi_nth _ _ [] _ H (N.to_nat a) ltac:(lia)) as Hr. simpl in Hr.
  apply andb_true_iff in Hr as [Hlr Hr]. apply Nat.eqb_eq in Hlr.
  pose proof (forallbi_nth _ _ 0 _ Hr (N.to_nat b) ltac:(lia)) as He. simpl in He.
  apply N.eqb_eq in He. exact He.
Qed.

Lemma chk_mul_spec q mul tbl : chk_mul q mul tbl = true ->
  forall a b, (a < N.of_nat q) -> (b < N.of_nat q) -> get2 tbl a b = mul a b.
Proof.
  intros H a b Ha Hb.
  rewrite (forallbi_get2 q q (fun a b => mul (N.of_nat a) (N.of_nat b)) tbl H a b Ha Hb).
  now rewrite !N2Nat.id.
Qed.

Definition mul_table (q : nat) (mul : N -> N -> N) : list (list N) :=
  map (fun a => map (fun b => mul (N.of_nat a) (N.of_nat b)) (seq 0 q)) (seq 0 q).

Lemma get2_mul_table q mul a b : a < N.of_nat q -> b < N.of_nat q -> get2 (mul_table q mul) a b = mul a b.
Proof.
  intros Ha Hb. unfold get2, getN, mul_table.
  rewrite (nth_map_seq _ 0 q), (nth_map_seq _ 0 q) by lia. cbn [Nat.add]. rewrite !N2Nat.id. reflexivity.
Qed.

(* row a of a product table, from the m products a * x^i alone: the rest follows by additivity *)
Definition mul_row (mul : N -> N -> N) (mn : nat) (a : N) : list N :=
  span (map (fun i => mul a (2 ^ N.of_nat i)) (rev (seq 0 mn))).

Lemma mul_row_eq m p mn a :
  mul_row (gfmul m p) mn a = map (fun b => gfmul m p a (N.of_nat b)) (seq 0 (2 ^ mn)).
Proof. exact (span_additive _ mn (gfmul_xor_r m p a)). Qed.

Lemma chk_exp_from_spec m p : forall l cur i0, cur = xpow m p i0 -> chk_exp_from m p cur l = true ->
  forall j, (j < length l)%nat -> nth j l 0 = xpow m p (i0 + j).
Proof.
  induction l as [|e t IH]; intros cur i0 Hc H j Hj; simpl in *; [lia|].
  apply andb_true_iff in H as [H1 H2]. apply N.eqb_eq in H1. destruct j as [|j].
  - rewrite Nat.add_0_r. congruence.
  - rewrite <- Nat.add_succ_comm. apply (IH (xtime m p cur) (S i0)); [simpl; congruence|exact H2|lia].
Qed.

Lemma chk_exp_spec n m p l : chk_exp n m p l = true ->
  length l = n /\ forall i, (i < n)%nat -> nth i l 0 = xpow m p i.
Proof.
  unfold chk_exp. intros H. apply andb_true_iff in H as [Hl H]. apply Nat.eqb_eq in Hl.
  split; [exact Hl|]. intros i Hi. apply (chk_exp_from_spec m p l 1 0%nat eq_refl H i). lia.
Qed.

Lemma chk_log_spec q m p l : chk_log q m p l = true ->
  (length l mod q = 0)%nat /\ (0 < length l)%nat /\
  forall i, (i < length l)%nat ->
    let a := (i mod q)%nat in let e := nth i l 0 in
    (a = 0%nat -> e = N.of_nat q - 1) /\
    (a <> 0%nat -> e < N.of_nat q - 1 /\ xpow m p (N.to_nat e) = N.of_nat a).
Proof.
  unfold chk_log. intros H. apply andb_true_iff in H as [H H3]. apply andb_true_iff in H as [H1 H2].
  apply Nat.eqb_eq in H2. apply negb_true_iff, Nat.eqb_neq in H1.
  split; [exact H2|]. split; [lia|]. intros i Hi.
  pose proof (forallbi_nth _ _ 0 _ H3 i Hi) as He. simpl in He.
  set (a := (i mod q)%nat) in *. set (e := nth i l 0) in *.
  destruct (Nat.eqb a 0) eqn:Ea.
  - apply Nat.eqb_eq in Ea. apply N.eqb_eq in He. split; [auto|congruence].
  - apply Nat.eqb_neq in Ea. apply andb_true_iff in He as [He1 He2].
    apply N.ltb_lt in He1. apply N.eqb_eq in He2. split; [congruence|auto].
Qed.

Lemma chk_inv_spec q mul l : chk_inv q mul l = true ->
  length l = q /\ getN l 0 = 0 /\
  forall a, 0 < a -> a < N.of_nat q -> getN l a < N.of_nat q /\ mul a (getN l a) = 1.
Proof.
  unfold chk_inv. intros H. apply andb_true_iff in H as [Hl H]. apply Nat.eqb_eq in Hl.
  split; [exact Hl|]. split.
  - destruct q as [|q]; [destruct l; [reflexivity|discriminate]|].
    pose proof (forallbi_nth _ _ 0 _ H 0%nat ltac:(lia)) as He. simpl in He. now apply N.eqb_eq in He.
  - intros a Ha0 Ha. pose proof (forallbi_nth _ _ 0 _ H (N.to_nat a) ltac:(lia)) as He. simpl in He.
    destruct (Nat.eqb (N.to_nat a) 0) eqn:E; [apply Nat.eqb_eq in E; lia|].
    apply andb_true_iff in He as [He1 He2]. apply N.ltb_lt in He1. apply N.eqb_eq in He2.
    rewrite N2Nat.id in He2. unfold getN. auto.
Qed.

Lemma chk_optmul_spec tbl : chk_optmul tbl = true ->
  forall c x, c < 16 -> x < 256 ->
    get2 tbl c x = N.lor (N.shiftl (mul16 c (N.shiftr x 4)) 4) (mul16 c (N.land x 15)).
Proof.
  intros H c x Hc Hx.
  rewrite (forallbi_get2 16 256 _ tbl H c x Hc Hx).
  now rewrite !N2Nat.id.
Qed.

(* the sweeps over the tables read from /repo *)
Lemma gf24_mul_ok : chk_mul 16 mul16 gf24_mul = true.        Proof. vm_compute. reflexivity. Qed.
Lemma gf24_optmul_ok : chk_optmul gf24_optmul = true.         Proof. vm_compute. reflexivity. Qed.
Lemma gf24_exp_ok : chk_exp 16 4 P16 gf24_exp = true.         Proof. vm_compute. reflexivity. Qed.
Lemma gf24_log_ok : chk_log 16 4 P16 gf24_log = true.         Proof. vm_compute. reflexivity. Qed.
Lemma gf24_inv_ok : chk_inv 16 mul16 gf24_inv = true.         Proof. vm_compute. reflexivity. Qed.
Lemma gf28_exp_ok : chk_exp 256 8 P256 gf28_exp = true.       Proof. vm_compute. reflexivity. Qed.
Lemma gf28_log_ok : chk_log 256 8 P256 gf28_log = true.       Proof. vm_compute. reflexivity. Qed.
Lemma gf28_inv_ok : chk_inv 256 mul256 gf28_inv = true.       Proof. vm_compute. reflexivity. Qed.

(* A checked VM cast: `vm_compute` would leave the 65536-entry normal form in the proof term. *)
Lemma gf28_mul_rows : gf28_mul = map (fun a => mul_row mul256 8 (N.of_nat a)) (seq 0 256).
Proof. exact (eq_refl gf28_mul <: gf28_mul = map (fun a => mul_row mul256 8 (N.of_nat a)) (seq 0 256)). Qed.

Lemma gf28_mul_table : gf28_mul = mul_table 256 mul256.
Proof. rewrite gf28_mul_rows. apply map_ext. intro a. apply mul_row_eq. Qed.

(* log tables of exactly q entries: per-element form *)
Lemma chk_log_spec1 q m p l : chk_log q m p l = true -> length l = q ->
  getN l 0 = N.of_nat q - 1 /\
  forall a, 0 < a -> a < N.of_nat q -> getN l a < N.of_nat q - 1 /\ xpow m p (N.to_nat (getN l a)) = a.
Proof.
  intros H Hl. destruct (chk_log_spec _ _ _ _ H) as (_ & Hpos & Hall). split.
  - destruct (Hall 0%nat Hpos) as [A _]. unfold getN. simpl. apply A.
    rewrite Hl in Hpos. now apply Nat.mod_0_l; lia.
  - intros a Ha0 Ha. destruct (Hall (N.to_nat a) ltac:(lia)) as [_ B].
    rewrite Nat.mod_small in B by lia. unfold getN.
    destruct (B ltac:(lia)) as [B1 B2]. rewrite N2Nat.id in B2. auto.
Qed.

Lemma gf24_tables_are_field_proof :
  (forall a b, a < 16 -> b < 16 -> get2 gf24_mul a b = mul16 a b) /\
  (forall c x, c < 16 -> x < 256 ->
     get2 gf24_optmul c x = N.lor (N.shiftl (mul16 c (N.shiftr x 4)) 4) (mul16 c (N.land x 15))) /\
  (length gf24_exp = 16%nat /\ forall i, (i < 16)%nat -> nth i gf24_exp 0 = xpow 4 P16 i) /\
  (length gf24_log = 16%nat /\ getN gf24_log 0 = 15 /\
     forall a, 0 < a -> a < 16 -> getN gf24_log a < 15 /\ xpow 4 P16 (N.to_nat (getN gf24_log a)) = a) /\
  (length gf24_inv = 16%nat /\ getN gf24_inv 0 = 0 /\
     forall a, 0 < a -> a < 16 -> getN gf24_inv a < 16 /\ mul16 a (getN gf24_inv a) = 1).
Proof.
  split; [exact (chk_mul_spec 16 mul16 _ gf24_mul_ok)|].
  split; [exact (chk_optmul_spec _ gf24_optmul_ok)|].
  split; [exact (chk_exp_spec _ _ _ _ gf24_exp_ok)|].
  split; [split; [reflexivity|exact (chk_log_spec1 16 _ _ _ gf24_log_ok eq_refl)]|].
  exact (chk_inv_spec 16 mul16 _ gf24_inv_ok).
Qed.

(* of_gf_2_8_log in algebra_2_8.h holds its 256 entries twice, hence the periodic form for this one table *)
Lemma gf28_tables_are_field_proof :
  (forall a b, a < 256 -> b < 256 -> get2 gf28_mul a b = mul256 a b) /\
  (length gf28_exp = 256%nat /\ forall i, (i < 256)%nat -> nth i gf28_exp 0 = xpow 8 P256 i) /\
  ((length gf28_log mod 256 = 0)%nat /\ (0 < length gf28_log)%nat /\
     forall i, (i < length gf28_log)%nat ->
       ((i mod 256 = 0)%nat -> nth i gf28_log 0 = 255) /\
       ((i mod 256 <> 0)%nat -> nth i gf28_log 0 < 255 /\
          xpow 8 P256 (N.to_nat (nth i gf28_log 0)) = N.of_nat (i mod 256))) /\
  (length gf28_inv = 256%nat /\ getN gf28_inv 0 = 0 /\
     forall a, 0 < a -> a < 256 -> getN gf28_inv a < 256 /\ mul256 a (getN gf28_inv a) = 1).
Proof.
  split; [rewrite gf28_mul_table; exact (get2_mul_table 256 mul256)|].
  split; [exact (chk_exp_spec _ _ _ _ gf28_exp_ok)|].
  split; [exact (chk_log_spec 256 _ _ _ gf28_log_ok)|].
  exact (chk_inv_spec 256 mul256 _ gf28_inv_ok).
Qed.
