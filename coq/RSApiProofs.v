(* The RS session of RSApi.v over any history of in-range events: the invariant Inv ties the session's
   counters and table to the set of distinct ESIs seen, so completion is "k distinct ESIs" and
   rs_finish reports it truthfully.  The core decoder enters only through core_ok. *)
From Coq Require Import Arith List Bool Lia.
From OFV Require Import ListAux RSApi.
Import ListNotations.

Lemma firstn_upd {A} (l : list A) i j x : firstn j (upd l i x) = if i <? j then upd (firstn j l) i x else firstn j l.
Proof.
  revert i j. induction l as [|y l IH]; intros i j.
  - destruct i, j; simpl; try reflexivity; destruct (_ <? _); reflexivity.
  - destruct i as [|i], j as [|j]; simpl; try reflexivity.
    rewrite IH. change (S i <? S j) with (i <? j). destruct (i <? j); reflexivity.
Qed.

Section Count.
Context {B : Type}.
Implicit Types t : list (option B).

Lemma count_some_firstn_le t j : count_some (firstn j t) <= count_some t.
Proof. rewrite <- (firstn_skipn j t) at 2. unfold count_some. rewrite filter_app, app_length. lia. Qed.

Lemma count_some_upd t i b : i < length t -> nth i t None = None -> count_some (upd t i (Some b)) = S (count_some t).
Proof.
  unfold count_some. revert i. induction t as [|x t IH]; intros [|i] Hi Hn; simpl in *; try lia.
  - subst x. reflexivity.
  - destruct (is_some x); simpl; rewrite (IH i) by (auto; lia); reflexivity.
Qed.

Lemma count_some_firstn_upd t i j b : i < length t -> nth i t None = None ->
  count_some (firstn j (upd t i (Some b))) = if i <? j then S (count_some (firstn j t)) else count_some (firstn j t).
Proof.
  intros Hi Hn. rewrite firstn_upd. destruct (Nat.ltb_spec i j) as [Hij|_]; [|reflexivity].
  apply count_some_upd; [rewrite firstn_length; lia|]. rewrite nth_firstn_lt by exact Hij. exact Hn.
Qed.

Lemma count_some_positions t (p : nat -> bool) a : (forall e, e < length t -> is_some (nth e t None) = p (a + e)) ->
  count_some t = length (filter p (seq a (length t))).
Proof.
  unfold count_some. revert a. induction t as [|x t IH]; intros a H; [reflexivity|].
  pose proof (H 0 ltac:(simpl; lia)) as H0. rewrite Nat.add_0_r in H0. cbn [length seq filter nth] in *. rewrite <- H0.
  destruct (is_some x); cbn [length]; rewrite (IH (S a)); try reflexivity;
    intros e He; rewrite Nat.add_succ_comm; apply (H (S e)); lia.
Qed.
End Count.

Section P.
Variable B : Type.
Variable core : nat -> list (option B) -> option (list B).
Variable cb : bool. Variable mk : nat -> B -> B.

Definition step (s : rs B) (ev : nat * B) : rs B := fst (rs_decode_with_new_symbol core cb mk s (fst ev) (snd ev)).

Lemma fill_length : forall vals t i ev, length (fst (fill cb mk vals t i ev)) = length t.
Proof.
  induction vals as [|v vals IH]; intros [|e t] i ev; cbn [fill]; try reflexivity.
  destruct e; [specialize (IH t (S i) ev)|specialize (IH t (S i) (if cb then ev ++ [i] else ev))];
    destruct (fill cb mk vals t (S i) _); simpl in *; now rewrite IH.
Qed.

Lemma rs_finish_fields (s : rs B) : let s' := fst (rs_finish core cb mk s) in
  rk s' = rk s /\ rn s' = rn s /\ length (tab s') = length (tab s).
Proof.
  cbv zeta. unfold rs_finish. destruct (fin s); [auto|]. destruct (navail s <? rk s); [auto|].
  destruct (navail_src s =? rk s); [auto|].
  destruct (core (rk s) (tab s)) as [vals|]; [|auto].
  pose proof (fill_length vals (tab s) 0 (evs s)) as Hl.
  destruct (fill cb mk vals (tab s) 0 (evs s)) as [t2 ev2]. simpl in *. auto.
Qed.

Lemma finish_few (s : rs B) : fin s = false -> navail s < rk s -> rs_finish core cb mk s = (s, FAILURE).
Proof. intros Hf Hlt. unfold rs_finish. rewrite Hf. apply Nat.ltb_lt in Hlt. rewrite Hlt. reflexivity. Qed.

Lemma finish_done (s : rs B) : fin s = true -> rs_finish core cb mk s = (s, OK).
Proof. intros Hf. unfold rs_finish. rewrite Hf. reflexivity. Qed.

(* holds of a session while it is open *)
Definition counted (s : rs B) : Prop :=
  navail s = count_some (tab s) /\ navail_src s = count_some (firstn (rk s) (tab s)).

Lemma step_ignored (s : rs B) e b : fin s = true \/ nth e (tab s) None <> None -> step s (e, b) = s.
Proof.
  intros H. unfold step, rs_decode_with_new_symbol. cbn [fst snd]. destruct (fin s); [reflexivity|].
  destruct (nth e (tab s) None); [reflexivity|]. destruct H as [H|H]; [discriminate H|destruct (H eq_refl)].
Qed.

(* A fresh symbol on an open session: of_set_available_symbols with the updated table, then
   of_finish_decoding if k symbols are there.  The C trigger tests navail_src = k first; on a counted
   state that implies k <= navail, and rs_finish does the same thing in that case. *)
Lemma step_fresh (s : rs B) e b : fin s = false -> counted s -> e < length (tab s) -> nth e (tab s) None = None ->
  step s (e, b) = let s1 := fst (rs_set_available s (upd (tab s) e (Some b))) in
                  if rk s <=? navail s1 then fst (rs_finish core cb mk s1) else s1.
Proof.
  intros Hf [Hna Hns] He Hx. unfold step, rs_decode_with_new_symbol, rs_set_available. cbn [fst snd].
  rewrite Hf, Hx. cbv zeta. cbn [rk rn tab navail navail_src fin evs].
  rewrite count_some_upd, count_some_firstn_upd, <- Hna, <- Hns by assumption.
  set (a := S (navail s)). set (a' := if e <? rk s then S (navail_src s) else navail_src s).
  assert (Ha : a' = rk s -> rk s <= a).
  { pose proof (count_some_firstn_le (tab s) (rk s)). unfold a', a. destruct (e <? rk s); lia. }
  unfold rs_finish. cbn [rk rn tab navail navail_src fin evs].
  destruct (Nat.eqb_spec a' (rk s)) as [Eq|Ne].
  - destruct (Nat.leb_spec (rk s) a); [|lia]. destruct (Nat.ltb_spec a (rk s)); [lia|reflexivity].
  - destruct (rk s <=? a); [|reflexivity]. destruct (a <? rk s); [reflexivity|].
    destruct (core (rk s) (upd (tab s) e (Some b))); [|reflexivity].
    destruct (fill cb mk _ _ _ _). reflexivity.
Qed.

Variables k n : nat.

Definition run (h : list (nat * B)) : rs B := fold_left step h (rs_init B k n).

Definition present (h : list nat) (e : nat) : bool := existsb (Nat.eqb e) h.
(* number of distinct ESIs of 0..n-1 occurring in h *)
Definition ndistinct (h : list nat) : nat := length (filter (present h) (seq 0 n)).

Lemma present_app h e x : present (h ++ [x]) e = present h e || (e =? x).
Proof. unfold present. rewrite existsb_app. simpl. now rewrite orb_false_r. Qed.

Lemma ndistinct_mono h x : ndistinct h <= ndistinct (h ++ [x]).
Proof.
  apply filter_length_mono. intros e _ He. rewrite present_app, He. reflexivity.
Qed.

Lemma nth_repeat_none (m e : nat) : nth e (repeat (@None B) m) None = None.
Proof. apply nth_repeat. Qed.

Lemma count_some_repeat_none (m j : nat) : count_some (firstn j (repeat (@None B) m)) = 0.
Proof. unfold count_some. revert j; induction m; intros [|j]; simpl; auto. Qed.

Lemma init_counted : counted (rs_init B k n).
Proof.
  split; cbn; symmetry; [|apply count_some_repeat_none].
  rewrite <- (firstn_all (repeat None n)). apply count_some_repeat_none.
Qed.

Hypothesis k_le_n : k <= n.
(* MDS + correct inversion (C02a): with at least k symbols present the core decoder succeeds and
   returns k values *)
Hypothesis core_ok : forall t, length t = n -> k <= count_some t -> exists vals, core k t = Some vals /\ length vals = k.

Lemma ndistinct_dup h x : present h x = true -> ndistinct (h ++ [x]) = ndistinct h.
Proof using k_le_n. (* keeps k <= n a premise once the section is closed *)
  intros Hp. unfold ndistinct. f_equal. apply filter_ext. intros e. rewrite present_app.
  destruct (Nat.eqb_spec e x) as [->|]; [rewrite Hp; reflexivity|now rewrite orb_false_r].
Qed.

Lemma finish_enough (s : rs B) : fin s = false -> rk s = k -> length (tab s) = n -> navail s = count_some (tab s) ->
  k <= navail s -> let r := rs_finish core cb mk s in snd r = OK /\ fin (fst r) = true.
Proof.
  intros Hf Hk Hl Hn Hge. cbv zeta. unfold rs_finish. rewrite Hf, Hk.
  destruct (Nat.ltb_spec (navail s) k); [lia|]. destruct (navail_src s =? k); [split; reflexivity|].
  destruct (core_ok (tab s) Hl ltac:(lia)) as (vals & -> & _).
  destruct (fill cb mk vals (tab s) 0 (evs s)). split; reflexivity.
Qed.

(* invariant along a history of of_decode_with_new_symbol calls *)
Record Inv (s : rs B) (h : list nat) : Prop := {
  i_len : length (tab s) = n; i_k : rk s = k;
  i_open : fin s = false ->
     counted s /\ navail s < k /\ forall e, e < n -> is_some (nth e (tab s) None) = present h e;
  i_done : fin s = true -> k <= ndistinct h }.

Lemma tabrel_count (t : list (option B)) h : length t = n ->
  (forall e, e < n -> is_some (nth e t None) = present h e) -> count_some t = ndistinct h.
Proof. intros Hl Hr. unfold ndistinct. rewrite <- Hl. apply count_some_positions. rewrite Hl. exact Hr. Qed.

Lemma inv_open_count s h : Inv s h -> fin s = false -> navail s = ndistinct h /\ navail s < k.
Proof.
  intros I Hf. destruct (i_open _ _ I Hf) as ((Hna & _) & Hlt & Hrel).
  rewrite Hna at 1. split; [apply tabrel_count; [apply I|exact Hrel]|exact Hlt].
Qed.

Lemma init_inv : 1 <= k -> Inv (rs_init B k n) [].
Proof.
  intros Hk. constructor; simpl; auto; [apply repeat_length| |discriminate].
  intros _. split; [apply init_counted|]. split; [lia|]. intros e _. now rewrite nth_repeat_none.
Qed.

Lemma step_inv s h ev : Inv s h -> fst ev < n -> Inv (step s ev) (h ++ [fst ev]).
Proof.
  intros I He. destruct ev as [e b]. cbn [fst] in *.
  destruct (fin s) eqn:Hf.
  - rewrite step_ignored by (left; exact Hf).
    constructor; try apply I; [congruence|]. intros _. pose proof (i_done _ _ I Hf). pose proof (ndistinct_mono h e). lia.
  - destruct (i_open _ _ I Hf) as (Hc & Hlt & Hrel).
    destruct (nth e (tab s) None) as [x|] eqn:Hx.
    + rewrite step_ignored by (right; congruence).
      constructor; try apply I; [|congruence]. intros _. split; [exact Hc|]. split; [exact Hlt|].
      intros e' He'. rewrite present_app, <- Hrel by exact He'.
      destruct (Nat.eqb_spec e' e) as [->|]; [rewrite Hx; reflexivity|now rewrite orb_false_r].
    + (* fresh symbol *)
      rewrite step_fresh by (rewrite ?(i_len _ _ I); assumption). cbv zeta.
      set (t1 := upd (tab s) e (Some b)). set (s1 := fst (rs_set_available s t1)).
      change (navail s1) with (count_some t1). rewrite (i_k _ _ I).
      assert (Hl1 : length t1 = n) by (unfold t1; rewrite upd_length; apply I).
      assert (Hrel1 : forall e', e' < n -> is_some (nth e' t1 None) = present (h ++ [e]) e').
      { intros e' He'. rewrite present_app. unfold t1. destruct (Nat.eqb_spec e' e) as [->|Hne].
        - rewrite nth_upd_eq by (rewrite (i_len _ _ I); exact He). now rewrite orb_true_r.
        - rewrite nth_upd_neq by lia. rewrite orb_false_r. apply Hrel. exact He'. }
      pose proof (tabrel_count t1 _ Hl1 Hrel1) as Hnd.
      destruct (Nat.leb_spec k (count_some t1)) as [Hge|Hlt1].
      * destruct (rs_finish_fields s1) as (K2 & _ & L2).
        destruct (finish_enough s1 Hf (i_k _ _ I) Hl1 eq_refl Hge) as (_ & F2).
        constructor; [rewrite L2; exact Hl1|rewrite K2; apply I|congruence|]. intros _. lia.
      * constructor; [exact Hl1|apply I| |change (fin s1) with (fin s); congruence]. intros _.
        split; [split; reflexivity|]. split; [exact Hlt1|exact Hrel1].
Qed.

Lemma run_inv : 1 <= k -> forall h, (forall ev, In ev h -> fst ev < n) -> Inv (run h) (map fst h).
Proof.
  intros Hk h. unfold run. change (map fst h) with ([] ++ map fst h).
  generalize (init_inv Hk). generalize (rs_init B k n) (@nil nat).
  induction h as [|ev h IH]; intros s hs I Hr; cbn [fold_left map].
  - now rewrite app_nil_r.
  - change (hs ++ fst ev :: map fst h) with (hs ++ [fst ev] ++ map fst h). rewrite app_assoc.
    apply IH; [apply step_inv; [exact I|]|]; intros; apply Hr; simpl; auto.
Qed.

(* C02 (b)+(c) / C10 for the incremental API: after any history of of_decode_with_new_symbol calls
   (any order, duplicates), decoding is complete iff at least k distinct symbols were submitted *)
Theorem rs_complete_iff_k_distinct_proof (h : list (nat * B)) : 1 <= k -> (forall ev, In ev h -> fst ev < n) ->
  (rs_is_complete (run h) = true <-> k <= ndistinct (map fst h)).
Proof.
  intros Hk Hr. pose proof (run_inv Hk h Hr) as I. unfold rs_is_complete. split; [apply I|].
  intros Hd. destruct (fin (run h)) eqn:Hf; [reflexivity|]. destruct (inv_open_count _ _ I Hf). lia.
Qed.

(* of_finish_decoding after such a history: OK iff complete afterwards, FAILURE iff fewer than k *)
Theorem rs_finish_truthful_proof (h : list (nat * B)) : 1 <= k -> (forall ev, In ev h -> fst ev < n) ->
  let r := rs_finish core cb mk (run h) in
  ((snd r = OK) <-> (rs_is_complete (fst r) = true)) /\ ((snd r = FAILURE) <-> (rs_is_complete (fst r) = false)) /\
  ((rs_is_complete (fst r) = true) <-> (k <= ndistinct (map fst h))).
Proof.
  intros Hk Hr. pose proof (run_inv Hk h Hr) as I. cbv zeta. unfold rs_is_complete.
  destruct (fin (run h)) eqn:Hf.
  - rewrite finish_done by exact Hf. cbn [fst snd]. rewrite Hf.
    split; [tauto|]. split; [split; discriminate|]. split; [intros _; apply (i_done _ _ I Hf)|auto].
  - destruct (inv_open_count _ _ I Hf) as (Hnd & Hlt).
    rewrite finish_few by (rewrite ?(i_k _ _ I); assumption). cbn [fst snd]. rewrite Hf.
    split; [split; discriminate|]. split; [tauto|]. split; [discriminate|lia].
Qed.

(* callback events of the copy-out loop (C11, RS part) *)
(* the callbacks of the loop started at position i, as positions i, i+1, ... of the whole table *)
Lemma fill_events : forall vals t i ev,
  snd (fill cb mk vals t i ev) =
  ev ++ (if cb then filter (fun j => negb (is_some (nth (j - i) t None))) (seq i (Nat.min (length vals) (length t))) else []).
Proof.
  induction vals as [|v vals IH]; intros t i ev.
  - simpl. destruct cb; now rewrite app_nil_r.
  - destruct t as [|e t]; [simpl; destruct cb; now rewrite app_nil_r|].
    cbn [fill length Nat.min seq filter]. rewrite Nat.sub_diag. cbn [nth].
    rewrite (filter_ext_in _ (fun j => negb (is_some (nth (j - S i) t None))) (seq (S i) _))
      by (intros j Hj; apply in_seq in Hj; replace (j - i) with (S (j - S i)) by lia; reflexivity).
    destruct e as [b|]; cbn [is_some negb].
    + specialize (IH t (S i) ev). destruct (fill cb mk vals t (S i) ev) as [t2 ev2]. exact IH.
    + specialize (IH t (S i) (if cb then ev ++ [i] else ev)).
      destruct (fill cb mk vals t (S i) (if cb then ev ++ [i] else ev)) as [t2 ev2]. cbn [snd] in *.
      rewrite IH. destruct cb; [|reflexivity]. rewrite <- app_assoc. reflexivity.
Qed.

(* one callback per source symbol that is still missing when decoding happens, in increasing ESI
   order, none for a symbol that was received, none without a registered callback *)
Theorem rs_callback_events_proof (s : rs B) vals : length vals = k -> length (tab s) = n -> fin s = false ->
  navail_src s <> rk s -> k <= navail s -> rk s = k -> core k (tab s) = Some vals ->
  evs (fst (rs_finish core cb mk s)) =
  evs s ++ (if cb then filter (fun j => negb (is_some (nth j (tab s) None))) (seq 0 k) else []).
Proof.
  intros Hv Hl Hf Hns Hna Hk Hc. unfold rs_finish. rewrite Hf, Hk.
  destruct (Nat.ltb_spec (navail s) k); [lia|]. destruct (Nat.eqb_spec (navail_src s) k); [congruence|].
  rewrite Hc. pose proof (fill_events vals (tab s) 0 (evs s)) as HE.
  destruct (fill cb mk vals (tab s) 0 (evs s)) as [t2 ev2]. simpl in *. rewrite HE.
  rewrite Hv, Hl, Nat.min_l by exact k_le_n. destruct cb; [|reflexivity]. f_equal.
  apply filter_ext. intros j. now rewrite Nat.sub_0_r.
Qed.
End P.
Arguments counted {B} s.
