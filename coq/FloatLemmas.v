(* Real-analysis facts about binary64 round-to-nearest used by the float layers of C19 and C20. *)
From Flocq Require Import Core Relative.
From Coq Require Import Reals ZArith Lia Lra Psatz.
Local Open Scope R_scope.

Definition rnd64 := round radix2 (FLT_exp (-1074) 53) ZnearestE.

Lemma pow2_53 : bpow radix2 53 = 9007199254740992.
Proof. rewrite <- IZR_Zpower by lia. reflexivity. Qed.

Lemma Rabs_div_le a b m : 0 <= a <= m -> 1 <= b -> Rabs (a / b) <= m.
Proof.
  intros Ha Hb. rewrite Rabs_pos_eq by (apply Rle_mult_inv_pos; lra).
  apply Rle_trans with (a / 1); [apply Rmult_le_compat_l; [lra|apply Rinv_le_contravar; lra]|lra].
Qed.

(* relative error 2^-53 of round-to-nearest, for v in the normal range *)
Lemma rnd64_rel_err v : / 9007199254740992 <= v -> Rabs (rnd64 v - v) <= / 9007199254740992 * v.
Proof.
  intros Hv.
  assert (Hbig : bpow radix2 (-1074 + 53 - 1) <= Rabs v).
  { rewrite Rabs_pos_eq by lra. apply Rle_trans with (/ 9007199254740992); [|exact Hv].
    rewrite <- pow2_53, <- bpow_opp. apply bpow_le. lia. }
  pose proof (relative_error_N_FLT radix2 (-1074) 53 ltac:(lia) (fun z => negb (Z.even z)) v Hbig) as Herr.
  change (round radix2 (FLT_exp (-1074) 53) (Znearest (fun z => negb (Z.even z))) v) with (rnd64 v) in Herr.
  rewrite (Rabs_pos_eq v) in Herr by lra.
  replace (/ 2 * bpow radix2 (- (53) + 1)) with (/ 9007199254740992) in Herr; [exact Herr|].
  change (- (53) + 1)%Z with (- (52))%Z. rewrite bpow_opp.
  replace (bpow radix2 52) with 4503599627370496 by (rewrite <- IZR_Zpower by lia; reflexivity). lra.
Qed.

(* A correctly rounded quotient of integers a/b with a < 2^53 stays strictly between the
   integers enclosing the exact quotient. *)
Lemma quotient_stays_between :
  forall a b m : Z, (0 < a < 2^53)%Z -> (0 < b < 2^53)%Z ->
    (m * b < a < (m + 1) * b)%Z ->
    IZR m < rnd64 (IZR a / IZR b) < IZR (m + 1).
Proof.
  intros a b m Ha Hb Hm.
  assert (Hb' : 0 < IZR b < 9007199254740992) by (split; apply IZR_lt; lia).
  assert (Ha' : 1 <= IZR a < 9007199254740992) by (split; [apply IZR_le|apply IZR_lt]; lia).
  assert (Hlo : IZR m * IZR b + 1 <= IZR a) by (rewrite <- mult_IZR, <- plus_IZR; apply IZR_le; lia).
  assert (Hhi : IZR a + 1 <= IZR (m + 1) * IZR b) by (rewrite <- mult_IZR, <- plus_IZR; apply IZR_le; lia).
  set (x := IZR a / IZR b).
  assert (Hxb : x * IZR b = IZR a) by (unfold x; field; lra).
  assert (Hx : / 9007199254740992 <= x).
  { apply Rmult_le_reg_r with (IZR b); [lra|]. rewrite Hxb. lra. }
  (* the rounding error times b is at most 2^-53 * a < 1, the distance of a to the multiples of b *)
  pose proof (rnd64_rel_err x Hx) as Herr. apply Rabs_le_inv in Herr.
  split; apply Rmult_lt_reg_r with (IZR b); try lra; nra.
Qed.

Lemma int_is_double : forall z : Z, (Z.abs z <= 2^53)%Z -> generic_format radix2 (FLT_exp (-1074) 53) (IZR z).
Proof.
  intros z Hz. apply generic_format_FLT.
  destruct (Z.eq_dec (Z.abs z) (2^53)) as [E|NE].
  - destruct (Z.abs_spec z) as [[_ Hz']|[_ Hz']].
    + exists (Float radix2 1 53); [|simpl; lia|simpl; lia].
      unfold F2R; simpl Fnum; simpl Fexp. rewrite pow2_53. replace z with (9007199254740992)%Z by lia. lra.
    + exists (Float radix2 (-1) 53); [|simpl; lia|simpl; lia].
      unfold F2R; simpl Fnum; simpl Fexp. rewrite pow2_53. replace z with (-9007199254740992)%Z by lia. lra.
  - exists (Float radix2 z 0); [unfold F2R; simpl; ring | simpl; lia | simpl; lia].
Qed.

Lemma rnd64_int : forall z : Z, (Z.abs z <= 2^53)%Z -> rnd64 (IZR z) = IZR z.
Proof. intros z Hz. apply round_generic; [apply valid_rnd_N | apply int_is_double, Hz]. Qed.

(* the quotient theorem in floor / ceiling form: an exact quotient is kept, an inexact one stays
   strictly inside its unit interval *)
Lemma rnd64_quotient : forall a b : Z, (0 <= a < 2^53)%Z -> (0 < b < 2^53)%Z ->
  ((a mod b)%Z = 0%Z -> rnd64 (IZR a / IZR b) = IZR (a / b)) /\
  ((a mod b)%Z <> 0%Z -> IZR (a / b) < rnd64 (IZR a / IZR b) < IZR (a / b + 1)).
Proof.
  intros a b Ha Hb.
  pose proof (Z.div_mod a b ltac:(lia)) as Hdm. pose proof (Z.mod_pos_bound a b ltac:(lia)) as Hr.
  assert (Hq : (0 <= a / b)%Z) by (apply Z.div_pos; lia). split; intros Hr0.
  - replace (IZR a / IZR b) with (IZR (a / b)).
    + apply rnd64_int. rewrite Z.abs_eq by lia. nia.
    + rewrite Hdm at 2. rewrite Hr0, Z.add_0_r, mult_IZR. field. apply not_0_IZR. lia.
  - apply quotient_stays_between; [|exact Hb|]; nia.
Qed.

Lemma rnd64_quotient_floor : forall a b : Z, (0 <= a < 2^53)%Z -> (0 < b < 2^53)%Z ->
  Zfloor (rnd64 (IZR a / IZR b)) = (a / b)%Z.
Proof.
  intros a b Ha Hb. destruct (rnd64_quotient a b Ha Hb) as [H0 H1].
  destruct (Z.eq_dec (a mod b) 0) as [Hr|Hr].
  - rewrite H0 by exact Hr. apply Zfloor_IZR.
  - apply Zfloor_imp. split; [apply Rlt_le|]; apply H1, Hr.
Qed.

Lemma rnd64_quotient_ceil : forall a b : Z, (0 <= a < 2^53)%Z -> (0 < b < 2^53)%Z ->
  Zceil (rnd64 (IZR a / IZR b)) = ((a + b - 1) / b)%Z.
Proof.
  intros a b Ha Hb. destruct (rnd64_quotient a b Ha Hb) as [H0 H1].
  pose proof (Z.div_mod a b ltac:(lia)) as Hdm. pose proof (Z.mod_pos_bound a b ltac:(lia)) as Hb'.
  destruct (Z.eq_dec (a mod b) 0) as [Hr|Hr].
  - rewrite H0, Zceil_IZR by exact Hr. apply Z.div_unique with (b - 1)%Z; lia.
  - replace ((a + b - 1) / b)%Z with (a / b + 1)%Z by (apply Z.div_unique with (a mod b - 1)%Z; lia).
    apply Zceil_imp. replace (a / b + 1 - 1)%Z with (a / b)%Z by lia. split; [|apply Rlt_le]; apply H1, Hr.
Qed.
