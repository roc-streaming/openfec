(* Model M of of_ldpc_staircase_build_repair_symbol (and the 2D parity one: same text): the repair
   symbol of matrix column c is the XOR of the other symbols of row c.  C06 for LDPC-Staircase: after
   building the repair symbols in increasing ESI order every parity equation sums to zero, the source
   symbols are untouched, and these are the only repair values with that property. *)
From Coq Require Import Arith List Bool Lia.
From OFV Require Import ListAux XorGroup.
Import ListNotations.

Section E.
Variable Sy : Type. Variable sxor : Sy -> Sy -> Sy. Variable s0 : Sy.
Hypothesis sxor_assoc : forall a b c, sxor a (sxor b c) = sxor (sxor a b) c.
Hypothesis sxor_comm : forall a b, sxor a b = sxor b a.
Hypothesis sxor_0_l : forall a, sxor s0 a = a.
Hypothesis sxor_nilp : forall a, sxor a a = s0.
Notation xsum := (xsum Sy sxor s0).

Definition others (row : list nat) (c : nat) : list nat := filter (fun x => negb (x =? c)) row.
(* memset(parity, 0); for every entry e of row c with e->col != c: parity ^= tab[e->col] *)
Definition build (H : list (list nat)) (c : nat) (tab : nat -> Sy) : nat -> Sy :=
  fun x => if x =? c then xsum (map tab (others (nth c H []) c)) else tab x.
Definition encode_all (r : nat) (H : list (list nat)) (tab : nat -> Sy) : nat -> Sy :=
  fold_left (fun t c => build H c t) (seq 0 r) tab.
Definition rowsum (tab : nat -> Sy) (row : list nat) : Sy := xsum (map tab row).

(* staircase shape: row c contains column c; its other entries are sources (>= r) or earlier repairs *)
Definition stair (r : nat) (H : list (list nat)) : Prop :=
  length H = r /\ forall c, c < r -> NoDup (nth c H []) /\ In c (nth c H []) /\
                  forall x, In x (nth c H []) -> x <> c -> (r <= x \/ x < c).

Lemma In_others x row c : In x (others row c) <-> In x row /\ x <> c.
Proof. unfold others. now rewrite filter_In, negb_true_iff, Nat.eqb_neq. Qed.

Lemma others_notin row c : ~ In c row -> others row c = row.
Proof. intros Hc. apply filter_all. intros x Hx. apply negb_true_iff, Nat.eqb_neq. now intros ->. Qed.

Lemma rowsum_split tab row c : NoDup row -> In c row -> rowsum tab row = sxor (tab c) (xsum (map tab (others row c))).
Proof.
  unfold rowsum, others. induction row as [|x row IH]; intros Hnd Hin; [inversion Hin|].
  inversion Hnd as [|? ? Hx Hnd']; subst. simpl. destruct (Nat.eqb_spec x c) as [->|Hne]; simpl.
  - fold (others row c). now rewrite (others_notin row c Hx).
  - destruct Hin as [E|Hin]; [congruence|]. rewrite (IH Hnd' Hin). rewrite !sxor_assoc. f_equal. apply sxor_comm.
Qed.

Lemma xsum_ext (f g : nat -> Sy) l : (forall x, In x l -> f x = g x) -> xsum (map f l) = xsum (map g l).
Proof. intros H. f_equal. apply map_ext_in. exact H. Qed.

Lemma build_other H c tab x : x <> c -> build H c tab x = tab x.
Proof. intros Hne. unfold build. destruct (Nat.eqb_spec x c); [congruence|reflexivity]. Qed.

Lemma encode_frame (H : list (list nat)) : forall cnt a tab x, (x < a \/ a + cnt <= x) ->
  fold_left (fun t c => build H c t) (seq a cnt) tab x = tab x.
Proof.
  induction cnt as [|cnt IH]; intros a tab x Hx; simpl; auto.
  rewrite IH by lia. apply build_other. lia.
Qed.

(* the value stored at column c when it is built, and never changed afterwards *)
Lemma encode_value r H : stair r H -> forall cnt a tab c, a <= c < a + cnt -> a + cnt <= r ->
  let t' := fold_left (fun t c => build H c t) (seq a cnt) tab in
  t' c = xsum (map t' (others (nth c H []) c)).
Proof.
  intros (_ & Hst). induction cnt as [|cnt IH]; intros a tab c Hc Hr; [lia|]. cbv zeta. simpl.
  destruct (Nat.eq_dec c a) as [->|Hne].
  - (* built first; later builds touch only columns > a, none of which occurs in row a besides sources *)
    rewrite encode_frame by lia. unfold build at 1. rewrite Nat.eqb_refl.
    apply xsum_ext. intros x Hx. apply In_others in Hx as (Hx & Hxa).
    destruct (Hst a ltac:(lia)) as (_ & _ & Hsh).
    rewrite encode_frame by (destruct (Hsh x Hx Hxa); lia). symmetry. apply build_other. exact Hxa.
  - apply (IH (S a) (build H a tab) c); lia.
Qed.

(* C06, LDPC-Staircase: zero-sum, frame, uniqueness *)
Theorem ldpc_encode_zero_sum_proof r H tab : stair r H ->
  let t' := encode_all r H tab in
  (forall c, c < r -> rowsum t' (nth c H []) = s0) /\ (forall x, r <= x -> t' x = tab x).
Proof.
  intros Hs. cbv zeta. split.
  - intros c Hc. destruct (proj2 Hs c Hc) as (Hnd & Hin & _).
    rewrite (rowsum_split _ _ c Hnd Hin). unfold encode_all.
    rewrite (encode_value r H Hs r 0 tab c ltac:(lia) ltac:(lia)). apply sxor_nilp.
  - intros x Hx. unfold encode_all. apply (encode_frame H). lia.
Qed.

Theorem ldpc_encode_unique_proof r H (t1 t2 : nat -> Sy) : stair r H ->
  (forall x, r <= x -> t1 x = t2 x) ->
  (forall c, c < r -> rowsum t1 (nth c H []) = s0) -> (forall c, c < r -> rowsum t2 (nth c H []) = s0) ->
  forall c, c < r -> t1 c = t2 c.
Proof.
  intros (_ & Hst) Hsrc H1 H2. induction c as [c IH] using lt_wf_ind. intros Hc.
  destruct (Hst c Hc) as (Hnd & Hin & Hsh).
  pose proof (H1 c Hc) as E1. pose proof (H2 c Hc) as E2.
  rewrite (rowsum_split t1 _ c Hnd Hin) in E1. rewrite (rowsum_split t2 _ c Hnd Hin) in E2.
  assert (Eo : xsum (map t1 (others (nth c H []) c)) = xsum (map t2 (others (nth c H []) c))).
  { apply xsum_ext. intros x Hx. apply In_others in Hx as (Hx & Hxc).
    destruct (Hsh x Hx Hxc) as [Hs|Hlt]; [apply Hsrc; exact Hs|apply IH; lia]. }
  rewrite Eo in E1.
  apply (sxor_move Sy sxor s0 sxor_assoc sxor_comm sxor_0_l sxor_nilp) in E1.
  apply (sxor_move Sy sxor s0 sxor_assoc sxor_comm sxor_0_l sxor_nilp) in E2. congruence.
Qed.
End E.

(* what the decoder and session theorems (ITProofs, MLSession) ask of a parity-check matrix with r rows
   over columns 0..N-1, the first r of them repair symbols *)
Definition decodable (H : list (list nat)) (r N : nat) : Prop :=
  length H = r /\
  (forall i, i < r -> NoDup (nth i H [])) /\
  (forall i c, i < r -> In c (nth i H []) -> c < N) /\
  (forall i, i < r -> 2 <= length (nth i H [])) /\
  r <= N /\
  (forall c, c < N -> exists i, i < r /\ In c (nth i H [])) /\
  stair r H.
