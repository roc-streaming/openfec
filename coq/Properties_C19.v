(* C19 — the RFC 5170 pseudo-random generator is the Park-Miller minimal standard.
   of_rfc5170_rand / of_rfc5170_srand below are NOT hand-written: gen/GenPrng.v is produced from
   /repo's of_rand.c by tools/c2gallina.py on every run (UINT64 arithmetic with explicit wrap,
   binary64 arithmetic through Flocq), so these theorems are re-checked against the C text. *)
From Coq Require Import ZArith Bool Lia.
From OFV Require Import CSem Prng PrngProofs.
From OFV.gen Require Import GenPrng.
Local Open Scope Z_scope.

(* (a) from any state in 1..2^31-2 the generator moves to 16807*s mod (2^31-1), which is again in
   1..2^31-2, and returns RFC 5170's reference expression evaluated in binary64 *)
Theorem rand_is_park_miller : forall s maxv, 1 <= s <= PM_P - 1 ->
  of_rfc5170_rand s maxv = bind (scale_ref (pm_next s) maxv) (fun o => Some (o, pm_next s))
  /\ 1 <= pm_next s <= PM_P - 1.
Proof. exact rand_is_park_miller_proof. Qed.

(* (b) seeding accepts exactly 1..2^31-2 (and otherwise leaves the state alone) *)
Theorem srand_range : forall g s, 0 <= s < 2 ^ 64 ->
  of_rfc5170_srand g s = Some (if (1 <=? s) && (s <=? PM_P - 1) then s else g).
Proof. exact srand_range_proof. Qed.

(* (c) the 10,000th state after seed 1, through the generated function itself *)
Theorem ten_thousandth : gen_iter (Z.to_nat 10000) 1 = Some 1043618065.
Proof. rewrite gen_iter_pm by (unfold PM_P; lia). rewrite ten_thousandth_pm. reflexivity. Qed.

(* (d) the value is in 0..maxv-1 for every state and every maxv up to 2^24 (> 255*50000) ... *)
Theorem scale_in_range : forall s' maxv, 1 <= s' <= PM_P - 1 -> 1 <= maxv <= 2 ^ 24 ->
  exists o, scale_ref s' maxv = Some o /\ 0 <= o < maxv.
Proof. exact scale_range_proof. Qed.

(* ... and equals the exact floor whenever s' * maxv < 2^53 *)
Theorem scale_exact_below_2p53 : forall s' maxv, 1 <= s' <= PM_P - 1 -> 0 <= maxv -> s' * maxv < 2 ^ 53 ->
  scale_ref s' maxv = Some ((s' * maxv) / PM_P).
Proof. exact scale_exact_proof. Qed.

(* non-vacuity: the generated function on concrete states *)
Example rand_from_1 : of_rfc5170_rand 1 100 = Some (0, 16807).  Proof. vm_compute. reflexivity. Qed.
Example rand_big : of_rfc5170_rand 2147483646 12750000 = Some (12749900, 2147466840).
Proof. vm_compute. reflexivity. Qed.

Print Assumptions rand_is_park_miller.
Print Assumptions srand_range.
Print Assumptions ten_thousandth.
Print Assumptions scale_in_range.
Print Assumptions scale_exact_below_2p53.
