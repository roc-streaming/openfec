(* C13 — symbol kernels are exact for every length, operand count (and, in the byte-list model,
   independently of alignment).  upd_range f 0 size l applies f to bytes 0..size-1 of l and leaves
   every other byte alone, so each statement says: the first `size` bytes become the bytewise
   definition and nothing else changes.  No bound on size or on the number of operands. *)
From Coq Require Import NArith ZArith List.
From OFV Require Import GF2Poly Kernels KernelProofs KernelGF RS28GenProofs WordBytes.
From OFV.gen Require Import GenTables.
Local Open Scope N_scope.

Theorem xor_one_into_one : forall dst from size,
  add_to_symbol dst from size = upd_range (fun i x => N.lxor x (nth i from 0)) 0 size dst.
Proof. intros dst from size. apply xor_block_spec. Qed.

Theorem xor_many_into_one : forall dst from size,
  add_from_multiple dst from size = upd_range (fx from) 0 size dst.
Proof. exact add_from_multiple_spec. Qed.

Theorem xor_one_into_many : forall tos from size,
  add_to_multiple tos from size = map (upd_range (fun i x => N.lxor x (nth i from 0)) 0 size) tos.
Proof. exact add_to_multiple_spec. Qed.

(* nothing at or beyond `size` is read: the result does not depend on those operand bytes *)
Theorem xor_reads_only_size : forall dst from from' size,
  (forall i, (i < size)%nat -> map (fun s => nth i s 0) from = map (fun s => nth i s 0) from') ->
  add_from_multiple dst from size = add_from_multiple dst from' size.
Proof. exact add_from_multiple_reads_only_size. Qed.

(* nothing at or beyond `size` is written *)
Theorem frame_beyond_size : forall f size l j, (size <= j)%nat -> nth j (upd_range f 0 size l) 0 = nth j l 0.
Proof. exact upd_range_frame_beyond. Qed.

(* multiply-accumulate by a constant: any table row *)
Theorem addmul_any_row : forall mulc dst src sz, (0 <= sz)%Z ->
  addmul1 mulc dst src sz = upd_range (fun i x => N.lxor x (mulc (nth i src 0))) 0 (Z.to_nat sz) dst.
Proof. exact addmul1_spec. Qed.

(* ... with the rows of /repo's tables: GF(2^8), both codecs *)
Theorem addmul_gf256_precomputed : forall c dst src sz, (0 <= sz)%Z -> c < 256 -> Forall (fun b => b < 256) src ->
  addmul1 (get2 gf28_mul c) dst src sz = upd_range (fun i x => N.lxor x (mul256 c (nth i src 0))) 0 (Z.to_nat sz) dst.
Proof.
  intros c dst src sz Hsz Hc. apply addmul1_row; [exact Hsz|reflexivity|]. intros s.
  apply TablesProofs.gf28_tables_are_field_proof, Hc.
Qed.
Theorem addmul_gf256_generated : forall c dst src sz, (0 <= sz)%Z -> c < 256 -> Forall (fun b => b < 256) src ->
  addmul1 (get2 rs28_mulm c) dst src sz = upd_range (fun i x => N.lxor x (mul256 c (nth i src 0))) 0 (Z.to_nat sz) dst.
Proof.
  intros c dst src sz Hsz Hc. apply addmul1_row; [exact Hsz|reflexivity|]. intros s.
  apply rs28_generated_tables_are_field_proof, Hc.
Qed.
Theorem addmul_gf16_bytes : forall c dst src sz, (0 <= sz)%Z -> c < 16 -> Forall (fun b => b < 16) src ->
  addmul1 (get2 gf24_mul c) dst src sz = upd_range (fun i x => N.lxor x (mul16 c (nth i src 0))) 0 (Z.to_nat sz) dst.
Proof.
  intros c dst src sz Hsz Hc. apply addmul1_row; [exact Hsz|reflexivity|]. intros s.
  apply TablesProofs.gf24_tables_are_field_proof, Hc.
Qed.

(* packed two-per-byte GF(2^4): main loop through the packed table, tail through the nibble formula *)
Theorem addmul_gf16_compact : forall c dst src sz, (0 <= sz)%Z -> c < 16 ->
  Forall (fun b => b < 256) dst -> Forall (fun b => b < 256) src ->
  addmul1_compact (get2 gf24_optmul c) dst src sz =
  upd_range (fun i x => N.lxor x (pack16 c (nth i src 0))) 0 (Z.to_nat sz) dst.
Proof. exact addmul1_compact_gf16. Qed.

(* The word accesses (WordBytes.v).
   Kernels.v applies the operation of a 64-/32-bit access to the bytes the access covers.  That this is what a
   little-endian machine does is proved: `le` is the value of a word whose bytes are given,
   `bytes_of w` the w bytes a store writes, `pack_from 0` the C expression b0 | b1<<8 | ... | b7<<56 of the
   multiply-accumulate loops.  The word-level kernels (every 8-/4-byte access = load, word operation, store; byte tails
   unchanged) return exactly what the byte-level model returns, for every size and operand count. *)
Theorem word_store_load_roundtrip : forall bs, Forall (fun b => b < 256) bs -> bytes_of (length bs) (le bs) = bs.
Proof. exact bytes_of_le. Qed.
Theorem word_xor_is_bytewise_xor : forall a b, length a = length b -> Forall (fun x => x < 256) a -> Forall (fun x => x < 256) b ->
  N.lxor (le a) (le b) = le (map (fun p => N.lxor (fst p) (snd p)) (combine a b)).
Proof. exact le_lxor. Qed.
Theorem shift_or_packing_is_the_little_endian_word : forall l, Forall (fun b => b < 256) l -> pack_from 0 l = le l.
Proof. exact pack_is_le. Qed.
Theorem word_level_xor_one_into_one : forall dst from size, (size <= length dst)%nat -> (size <= length from)%nat -> bytes dst -> bytes from ->
  wadd_to_symbol dst from size = add_to_symbol dst from size.
Proof. exact wadd_to_symbol_eq. Qed.
Theorem word_level_xor_many_into_one : forall dst from size, (size <= length dst)%nat -> bytes dst -> group_ok size from ->
  wadd_from_multiple dst from size = add_from_multiple dst from size.
Proof. exact wadd_from_multiple_eq. Qed.
Theorem word_level_xor_one_into_many : forall tos from size, (size <= length from)%nat -> bytes from -> group_ok size tos ->
  wadd_to_multiple tos from size = add_to_multiple tos from size.
Proof. exact wadd_to_multiple_eq. Qed.
Theorem word_level_addmul : forall mulc dst src sz, (forall x, mulc x < 256) -> (sz <= Z.of_nat (length src))%Z -> (sz <= Z.of_nat (length dst))%Z -> bytes dst ->
  waddmul1 mulc dst src sz = addmul1 mulc dst src sz.
Proof. intros. apply waddmul_gen_eq; assumption. Qed.
Theorem word_level_addmul_compact : forall optrow dst src sz, (forall x, optrow x < 256) -> (sz <= Z.of_nat (length src))%Z -> (sz <= Z.of_nat (length dst))%Z -> bytes dst ->
  waddmul1_compact optrow dst src sz = addmul1_compact optrow dst src sz.
Proof. intros. apply waddmul_gen_eq; assumption. Qed.

Print Assumptions xor_many_into_one.
Print Assumptions word_level_xor_many_into_one.
Print Assumptions word_level_xor_one_into_many.
Print Assumptions word_level_addmul.
Print Assumptions word_level_addmul_compact.
Print Assumptions xor_one_into_many.
Print Assumptions addmul_gf256_generated.
Print Assumptions addmul_gf16_compact.
