(* RSEndToEnd: the Reed-Solomon session theorems at the level of real symbols.

   RSSession proves the session theorems with one field element per symbol.  Here a symbol is a
   vector of L bytes; the encoder is the model of RSEnc (rs8_repair / rs4_repair: every byte
   column is encoded independently, for GF(2^4) every byte carries two field elements), the
   decoder applies the decoding core of RSCore to every byte column (for GF(2^4): to the high
   and to the low nibble column) and transposes the result back, and the API layer is the model
   of RSApi instantiated with B := sym.  core*_sym_correct and core*_sym_core_ok make the
   symbol-level core a Code in the sense of RSSession; the session theorems (R1 - R3' there) are
   RSSession's generic ones at B := sym. *)
From Coq Require Import List Arith NArith Bool Lia.
From OFV Require Import ListAux RSApi RSApiProofs GF2Poly RSSpec GFField RSCanon RSEnc RSCore RSSession.
Import ListNotations.

Definition sym := list N.   (* a symbol: L bytes *)

(* Some of all the values if every entry is present *)
Fixpoint opt_all {A : Type} (l : list (option A)) : option (list A) :=
  match l with
  | [] => Some []
  | None :: _ => None
  | Some x :: r => match opt_all r with Some xs => Some (x :: xs) | None => None end
  end.

Lemma opt_all_map_some : forall (A C : Type) (f : C -> option A) (g : C -> A) (l : list C),
  (forall x, In x l -> f x = Some (g x)) -> opt_all (map f l) = Some (map g l).
Proof.
  intros A C f g l. induction l as [|x l IH]; intros H.
  - reflexivity.
  - cbn [map opt_all]. rewrite (H x (or_introl eq_refl)).
    rewrite IH by (intros y Hy; apply H; right; exact Hy). reflexivity.
Qed.

Lemma opt_all_total : forall (A C : Type) (f : C -> option A) (l : list C),
  (forall x, In x l -> exists v, f x = Some v) ->
  exists vs, opt_all (map f l) = Some vs.
Proof.
  intros A C f l. induction l as [|x l IH]; intros H.
  - exists []. reflexivity.
  - destruct (H x (or_introl eq_refl)) as [v Ev].
    destruct (IH (fun y Hy => H y (or_intror Hy))) as [vs Evs].
    exists (v :: vs). cbn [map opt_all]. rewrite Ev, Evs. reflexivity.
Qed.

(* byte b of symbol i = element i of byte column b *)
Lemma nth_byte_col : forall (src : list sym) (b i : nat),
  nth i (byte_col src b) 0%N = nth b (nth i src []) 0%N.
Proof.
  intros src b i. unfold byte_col. revert i. induction src as [|s src IH]; intros i.
  - destruct i; destruct b; reflexivity.
  - destruct i as [|i]; cbn [map nth]; [reflexivity|apply IH].
Qed.

Lemma byte_col_length : forall (src : list sym) b, length (byte_col src b) = length src.
Proof. intros src b. unfold byte_col. apply map_length. Qed.

(* the column table of byte b: what the decoder sees of the availability table in column b *)
Definition col_tab (f : sym -> N) (t : list (option sym)) : list (option N) :=
  map (option_map f) t.

Lemma col_tab_length : forall f t, length (col_tab f t) = length t.
Proof. intros f t. unfold col_tab. apply map_length. Qed.

Lemma col_tab_nth : forall f t e, nth e (col_tab f t) None = option_map f (nth e t None).
Proof. intros f t e. unfold col_tab. exact (map_nth (option_map f) t None e). Qed.

Lemma col_tab_count : forall f t, count_some (col_tab f t) = count_some t.
Proof.
  intros f t. unfold count_some, col_tab. induction t as [|x t IH].
  - reflexivity.
  - cbn [map filter]. destruct x as [s|]; cbn [option_map is_some length]; rewrite IH; reflexivity.
Qed.

(* symbols from columns: symbol i = the list over the columns of their value i *)
Definition transpose_cols (k' : nat) (cols : list (list N)) : list sym :=
  map (fun i => map (fun c => nth i c 0%N) cols) (seq 0 k').

Lemma transpose_cols_length : forall k' cols, length (transpose_cols k' cols) = k'.
Proof. intros k' cols. unfold transpose_cols. now rewrite map_length, seq_length. Qed.

(* a column of a table of codeword symbols is a table of codeword elements of that column: the core
   of the column code decodes it *)
Lemma col_decode : forall (d : N) core k n col el (f : sym -> N) (enc : nat -> sym) t,
  Code d core k n col el -> (forall e, e < n -> f (enc e) = el e) -> CW n enc t -> k <= count_some t ->
  core k (col_tab f t) = Some col.
Proof.
  intros d core k n col el f enc t C Hf [HL Ht] Hc. apply (c_cw C); [split|rewrite col_tab_count; exact Hc].
  - rewrite col_tab_length. exact HL.
  - intros e He. rewrite col_tab_nth. destruct (Ht e He) as [-> | ->]; [left; reflexivity|right].
    cbn [option_map]. rewrite Hf by exact He. reflexivity.
Qed.

(* decoding column by column (c b: the decoded byte column b) and transposing back.  core8_sym and
   core4_sym below are `colwise` at their column decoder, written out in full; the lemmas about
   colwise apply to them by conversion. *)
Definition colwise (c : nat -> option (list N)) (L k' : nat) : option (list sym) :=
  match opt_all (map c (seq 0 L)) with
  | None => None
  | Some cols => Some (transpose_cols k' cols)
  end.

Lemma colwise_ok : forall c L k', (forall b, b < L -> exists v, c b = Some v) ->
  exists vals, colwise c L k' = Some vals /\ length vals = k'.
Proof.
  intros c L k' H. unfold colwise. destruct (opt_all_total _ _ c (seq 0 L)) as [cols ->].
  - intros b Hb. apply in_seq in Hb. apply H. lia.
  - eexists. split; [reflexivity|]. apply transpose_cols_length.
Qed.

(* the decoded buffer holds the decoded value *)
Definition mkidB (B : Type) : nat -> B -> B := fun _ v => v.

(* GF(2^8): one field element per byte *)
(* a block of well-formed symbols: L bytes each *)
Definition wf_block (L : nat) (src : list sym) : Prop :=
  Forall (fun s : sym => length s = L /\ Forall (fun a => (a < 256)%N) s) src.

Lemma byte_col_below : forall L src b, wf_block L src -> b < L ->
  Forall (fun a => (a < 256)%N) (byte_col src b).
Proof.
  intros L src b Hwf Hb. apply Forall_map. revert Hwf. apply Forall_impl. intros s [HL HF].
  rewrite Forall_forall in HF. apply HF, nth_In. rewrite HL. exact Hb.
Qed.

(* the columns of a block, transposed back, are the block *)
Lemma transpose_byte_cols : forall L k src, wf_block L src -> length src = k ->
  transpose_cols k (map (byte_col src) (seq 0 L)) = src.
Proof.
  intros L k src Hwf Hls. apply (nth_ext _ _ [] []).
  - rewrite transpose_cols_length. symmetry. exact Hls.
  - intros i Hi. rewrite transpose_cols_length in Hi. unfold transpose_cols.
    rewrite nth_map_seq by exact Hi. rewrite map_map.
    rewrite (map_ext _ (fun b => nth b (nth i src []) 0%N)) by (intros b; apply nth_byte_col).
    assert (HL : length (nth i src []) = L).
    { unfold wf_block in Hwf. rewrite Forall_forall in Hwf. apply Hwf, nth_In.
      rewrite <- Hls in Hi. exact Hi. }
    rewrite <- HL. apply map_nth_seq.
Qed.

Lemma colwise_correct : forall c L k src, wf_block L src -> length src = k ->
  (forall b, b < L -> c b = Some (byte_col src b)) -> colwise c L k = Some src.
Proof.
  intros c L k src Hwf Hls H. unfold colwise. rewrite (opt_all_map_some _ _ _ (byte_col src)).
  - rewrite (transpose_byte_cols L k src Hwf Hls). reflexivity.
  - intros b Hb. apply in_seq in Hb. apply H. lia.
Qed.

(* the encoding symbol with ESI e of the block src (k source symbols of L bytes) *)
Definition encode8 (k n L : nat) (src : list sym) (e : nat) : sym :=
  if e <? k then nth e src [] else rs8_repair k L (invdens 8 P256 mul256 inv256 k) src e.

Lemma encode8_systematic : forall k n L src e, e < k -> encode8 k n L src e = nth e src [].
Proof.
  intros k n L src e He. unfold encode8.
  destruct (Nat.ltb_spec e k) as [_|H]; [reflexivity|lia].
Qed.

(* byte b of the encoding symbol e = element e of the codeword of byte column b *)
Lemma encode8_byte : forall k n L src e b, k <= 256 -> length src = k -> wf_block L src ->
  b < L -> nth b (encode8 k n L src e) 0%N = elem256 k (byte_col src b) e.
Proof.
  intros k n L src e b Hk Hls Hwf Hb. unfold encode8.
  destruct (Nat.ltb_spec e k) as [He|He].
  - rewrite elem256_systematic.
    + symmetry. apply nth_byte_col.
    + exact Hk.
    + rewrite byte_col_length. exact Hls.
    + apply (byte_col_below L); assumption.
    + exact He.
  - apply rs8_repair_byte; assumption.
Qed.

(* the decoding core at symbol level: the core of RSCore applied to each of the L byte columns
   of the table, transposed back; None if any column fails *)
Definition core8_sym (L n k' : nat) (t : list (option sym)) : option (list sym) :=
  match opt_all (map (fun b => rs_core256 k' n (col_tab (fun s => nth b s 0%N) t)) (seq 0 L)) with
  | None => None
  | Some cols => Some (transpose_cols k' cols)
  end.

Theorem core8_sym_correct : forall k n L (src : list sym) (t : list (option sym)),
  1 <= k <= n -> n <= 256 -> length src = k -> wf_block L src ->
  length t = n ->
  (forall e, e < n -> nth e t None = None \/ nth e t None = Some (encode8 k n L src e)) ->
  k <= count_some t ->
  core8_sym L n k t = Some src.
Proof.
  intros k n L src t Hk Hn Hls Hwf HL Ht Hc. apply (colwise_correct _ L k src Hwf Hls). intros b Hb.
  apply (col_decode 0%N (fun k' t' => rs_core256 k' n t') k n _ (elem256 k (byte_col src b)) _ (encode8 k n L src) t).
  - apply code256; [exact Hk|exact Hn|rewrite byte_col_length; exact Hls|apply (byte_col_below L); assumption].
  - intros e He. apply encode8_byte; [lia|assumption..].
  - split; assumption.
  - exact Hc.
Qed.

(* the core succeeds on every table with at least k entries *)
Theorem core8_sym_core_ok : forall L k n, n <= 256 ->
  forall t : list (option sym), length t = n -> k <= count_some t ->
  exists vals, core8_sym L n k t = Some vals /\ length vals = k.
Proof.
  intros L k n Hn t HL Hc. apply colwise_ok. intros b _.
  destruct (rs_core256_core_ok k n Hn (col_tab (fun s => nth b s 0%N) t)) as [v [Ev _]].
  - rewrite col_tab_length. exact HL.
  - rewrite col_tab_count. exact Hc.
  - exists v. exact Ev.
Qed.

Theorem core8_sym_none : forall L k n (t : list (option sym)), 1 <= L ->
  length t = n -> count_some t < k -> core8_sym L n k t = None.
Proof.
  intros L k n t HL1 HL Hc. unfold core8_sym. destruct L as [|L]; [lia|].
  cbn [seq map opt_all]. rewrite rs_core256_none; [reflexivity| |].
  - rewrite col_tab_length. exact HL.
  - rewrite col_tab_count. exact Hc.
Qed.

Lemma code8 : forall k n L src, 1 <= k <= n -> n <= 256 -> length src = k -> wf_block L src ->
  Code [] (core8_sym L n) k n src (encode8 k n L src).
Proof.
  intros k n L src Hk Hn Hls Hwf. constructor; [lia|lia|exact Hls| |apply core8_sym_core_ok; exact Hn|].
  - intros e He. apply encode8_systematic. exact He.
  - intros t [HL Ht] Hc. apply (core8_sym_correct k n L src t); assumption.
Qed.

(* a history of submissions of encoding symbols of the block src *)
Definition enc8_hist (k n L : nat) (src : list sym) (h : list (nat * sym)) : Prop :=
  forall ev, In ev h -> fst ev < n /\ snd ev = encode8 k n L src (fst ev).

Section Sym8.
  Variables (cb : bool) (k n L : nat) (src : list sym).
  Hypothesis Hk : 1 <= k <= n.
  Hypothesis Hn : n <= 256.
  Hypothesis Hls : length src = k.
  Hypothesis Hwf : wf_block L src.

  Let core := core8_sym L n.
  Let mk := mkidB sym.

  Theorem rs8_sym_run_table : forall h, enc8_hist k n L src h ->
    forall s : rs sym,
    s = run sym core cb mk k n h \/ s = fst (rs_finish core cb mk (run sym core cb mk k n h)) ->
    length (tab s) = n /\
    forall e, e < n ->
      (nth e (tab s) None = None \/ nth e (tab s) None = Some (encode8 k n L src e)) /\
      (e < k -> nth e (tab s) None = None \/ nth e (tab s) None = Some (nth e src [])).
  Proof.
    intros h Hh s Hs.
    exact (gen_run_table sym [] core cb mk k n src _ (fun _ _ => eq_refl) (code8 k n L src Hk Hn Hls Hwf) h Hh s Hs).
  Qed.

  (* R2 without of_finish_decoding *)
  Theorem rs8_sym_run_recovers_the_sources : forall h, enc8_hist k n L src h ->
    k <= ndistinct n (map fst h) ->
    rs_is_complete (run sym core cb mk k n h) = true /\
    rs_source_tab (run sym core cb mk k n h) = Some (map Some src).
  Proof.
    intros h Hh Hd.
    exact (gen_run_complete sym [] core cb mk k n src _ (fun _ _ => eq_refl) (code8 k n L src Hk Hn Hls Hwf) h Hh Hd).
  Qed.

  Theorem rs8_sym_session_recovers_the_sources : forall h, enc8_hist k n L src h ->
    k <= ndistinct n (map fst h) ->
    let r := rs_finish core cb mk (run sym core cb mk k n h) in
    snd r = OK /\ rs_source_tab (fst r) = Some (map Some src).
  Proof.
    intros h Hh Hd.
    exact (gen_session_recovers sym [] core cb mk k n src _ (fun _ _ => eq_refl) (code8 k n L src Hk Hn Hls Hwf) h Hh Hd).
  Qed.

  Theorem rs8_sym_session_too_few : forall h, enc8_hist k n L src h ->
    ndistinct n (map fst h) < k ->
    let r := rs_finish core cb mk (run sym core cb mk k n h) in
    snd r = FAILURE /\ rs_source_tab (fst r) = None /\
    rs_is_complete (run sym core cb mk k n h) = false.
  Proof.
    intros h Hh Hd.
    exact (gen_session_too_few sym core cb mk k n (proj1 Hk) (proj2 Hk)
             (core8_sym_core_ok L k n Hn) h (fun ev Hin => proj1 (Hh ev Hin)) Hd).
  Qed.

  (* R2': of_set_available_symbols (the whole table at once) then of_finish_decoding *)
  Theorem rs8_sym_avail_recovers_the_sources : forall t : list (option sym), length t = n ->
    (forall e, e < n -> nth e t None = None \/ nth e t None = Some (encode8 k n L src e)) ->
    k <= count_some t ->
    let r := rs_finish core cb mk (fst (rs_set_available (rs_init sym k n) t)) in
    snd r = OK /\ rs_is_complete (fst r) = true /\
    rs_source_tab (fst r) = Some (map Some src).
  Proof.
    intros t HL Ht Hc.
    exact (gen_avail_recovers sym [] core cb mk k n src _ (fun _ _ => eq_refl) (code8 k n L src Hk Hn Hls Hwf) t HL Ht Hc).
  Qed.
End Sym8.

(* R3': whatever the table holds *)
Theorem rs8_sym_avail_too_few :
  forall (cb : bool) (mk : nat -> sym -> sym) (k n L : nat) (t : list (option sym)),
  count_some t < k ->
  let r := rs_finish (core8_sym L n) cb mk (fst (rs_set_available (rs_init sym k n) t)) in
  snd r = FAILURE /\ rs_is_complete (fst r) = false /\ rs_source_tab (fst r) = None.
Proof.
  intros cb mk k n L t Hc. exact (gen_avail_too_few sym (core8_sym L n) cb mk k n t Hc).
Qed.

(* GF(2^4): two field elements per byte.  rs4_repair and core4_col write N.shiftr _ 4 and N.land _ 15
   where the lemmas say hi4 and lo4. *)
Definition hi4 (x : N) : N := N.shiftr x 4.
Definition lo4 (x : N) : N := N.land x 15.
Definition join4 (h l : N) : N := N.lor (N.shiftl h 4) l.

Lemma join4_hi_lo : forall x, join4 (hi4 x) (lo4 x) = x.
Proof.
  intros x. unfold join4, hi4, lo4. change 15%N with (N.ones 4).
  rewrite <- N.ldiff_ones_r. apply N.lor_ldiff_and.
Qed.

Lemma hi4_join4 : forall a b, (b < 16)%N -> hi4 (join4 a b) = a.
Proof.
  intros a b Hb. unfold join4, hi4. rewrite N.shiftr_lor.
  rewrite N.shiftr_shiftl_l by lia. change (4 - 4)%N with 0%N. rewrite N.shiftl_0_r.
  rewrite (N.shiftr_div_pow2 b 4). change (2 ^ 4)%N with 16%N.
  rewrite N.div_small by exact Hb. apply N.lor_0_r.
Qed.

Lemma lo4_join4 : forall a b, (b < 16)%N -> lo4 (join4 a b) = b.
Proof.
  intros a b Hb. unfold join4, lo4. change 15%N with (N.ones 4).
  rewrite N.land_lor_distr_l, !N.land_ones, N.shiftl_mul_pow2, N.mod_mul by discriminate.
  apply N.mod_small. exact Hb.
Qed.

Lemma hi4_lt : forall x, (x < 256)%N -> (hi4 x < 16)%N.
Proof.
  intros x Hx. unfold hi4. rewrite N.shiftr_div_pow2. change (2 ^ 4)%N with 16%N.
  apply N.div_lt_upper_bound; lia.
Qed.

Lemma lo4_lt : forall x, (lo4 x < 16)%N.
Proof.
  intros x. unfold lo4. change 15%N with (N.ones 4). rewrite N.land_ones.
  change (2 ^ 4)%N with 16%N. apply N.mod_lt. lia.
Qed.

(* the codeword elements are field elements *)
Lemma elem16_lt : forall k src j, k <= 16 -> Forall (fun a => (a < 16)%N) src -> j < 16 ->
  (elem16 k src j < 16)%N.
Proof.
  intros k src j Hk HF Hj.
  assert (E : exists g : GF 16, elem16 k src j = @val 16 g).
  { eexists. unfold elem16.
    apply (elemN_phi 4 P16 mul16 inv16 16%N 16 (GF 16)
             F16_zero F16_one F16_add F16_mul F16_opp F16_inv)
      with (phi := @val 16) (psi := of_N16);
      first [field16 | assumption]. }
  destruct E as [g E]. rewrite E. apply F16_val_lt.
Qed.

Definition join_cols (hs ls : list N) : list N :=
  map (fun hl => join4 (fst hl) (snd hl)) (combine hs ls).

Lemma join_cols_hi_lo : forall col : list N, join_cols (map hi4 col) (map lo4 col) = col.
Proof.
  intros col. unfold join_cols. induction col as [|x col IH].
  - reflexivity.
  - cbn [map combine fst snd]. rewrite join4_hi_lo, IH. reflexivity.
Qed.

Lemma Forall_map_hi4 : forall l : list N, Forall (fun a => (a < 256)%N) l ->
  Forall (fun a => (a < 16)%N) (map hi4 l).
Proof. intros l H. apply Forall_map. revert H. apply Forall_impl. exact hi4_lt. Qed.

Lemma Forall_map_lo4 : forall l : list N, Forall (fun a => (a < 16)%N) (map lo4 l).
Proof. intros l. apply Forall_map, Forall_forall. intros x _. apply lo4_lt. Qed.

(* the encoding symbol with ESI e *)
Definition encode4 (k n L : nat) (src : list sym) (e : nat) : sym :=
  if e <? k then nth e src [] else rs4_repair k L (invdens 4 P16 mul16 inv16 k) src e.

Lemma encode4_systematic : forall k n L src e, e < k -> encode4 k n L src e = nth e src [].
Proof.
  intros k n L src e He. unfold encode4.
  destruct (Nat.ltb_spec e k) as [_|H]; [reflexivity|lia].
Qed.

(* byte b of the encoding symbol e: its high (low) nibble is element e of the codeword of the
   high (low) nibbles of byte column b *)
Lemma encode4_byte : forall k n L src e b, k <= 16 -> e < 16 -> length src = k ->
  wf_block L src -> b < L ->
  hi4 (nth b (encode4 k n L src e) 0%N) = elem16 k (map hi4 (byte_col src b)) e /\
  lo4 (nth b (encode4 k n L src e) 0%N) = elem16 k (map lo4 (byte_col src b)) e.
Proof.
  intros k n L src e b Hk He16 Hls Hwf Hb. unfold encode4.
  pose proof (byte_col_below L src b Hwf Hb) as HF.
  destruct (Nat.ltb_spec e k) as [He|He].
  - rewrite !elem16_systematic
      by (try apply Forall_map_lo4; try apply Forall_map_hi4; rewrite ?map_length, ?byte_col_length; assumption).
    rewrite (map_nth hi4 _ 0%N), (map_nth lo4 _ 0%N), nth_byte_col. split; reflexivity.
  - rewrite (rs4_repair_byte k L src e b Hls Hb).
    assert (Hlo : (elem16 k (map lo4 (byte_col src b)) e < 16)%N).
    { apply elem16_lt; [exact Hk|apply Forall_map_lo4|exact He16]. }
    split.
    + exact (hi4_join4 _ _ Hlo).
    + exact (lo4_join4 _ _ Hlo).
Qed.

(* one byte column: the high and the low nibble columns are decoded separately and recombined *)
Definition core4_col (n k' b : nat) (t : list (option sym)) : option (list N) :=
  match rs_core16 k' n (col_tab (fun s => N.shiftr (nth b s 0%N) 4) t),
        rs_core16 k' n (col_tab (fun s => N.land (nth b s 0%N) 15) t) with
  | Some hs, Some ls => Some (join_cols hs ls)
  | _, _ => None
  end.

Definition core4_sym (L n k' : nat) (t : list (option sym)) : option (list sym) :=
  match opt_all (map (fun b => core4_col n k' b t) (seq 0 L)) with
  | None => None
  | Some cols => Some (transpose_cols k' cols)
  end.

Theorem core4_sym_correct : forall k n L (src : list sym) (t : list (option sym)),
  1 <= k <= n -> n <= 16 -> length src = k -> wf_block L src ->
  length t = n ->
  (forall e, e < n -> nth e t None = None \/ nth e t None = Some (encode4 k n L src e)) ->
  k <= count_some t ->
  core4_sym L n k t = Some src.
Proof.
  intros k n L src t Hk Hn Hls Hwf HL Ht Hc. apply (colwise_correct _ L k src Hwf Hls). intros b Hb.
  assert (D : forall (f : sym -> N) col, length col = length (byte_col src b) -> Forall (fun a => (a < 16)%N) col ->
            (forall e, e < n -> f (encode4 k n L src e) = elem16 k col e) ->
            rs_core16 k n (col_tab f t) = Some col).
  { intros f col Hlen HF Hf. rewrite byte_col_length, Hls in Hlen.
    exact (col_decode 0%N _ k n _ _ f _ t (code16 k n col Hk Hn Hlen HF) Hf (conj HL Ht) Hc). }
  unfold core4_col.
  rewrite (D _ (map hi4 (byte_col src b))), (D _ (map lo4 (byte_col src b))).
  - rewrite join_cols_hi_lo. reflexivity.
  - apply map_length.
  - apply Forall_map_lo4.
  - intros e He. apply encode4_byte; [lia|lia|assumption..].
  - apply map_length.
  - apply Forall_map_hi4. apply (byte_col_below L); assumption.
  - intros e He. apply encode4_byte; [lia|lia|assumption..].
Qed.

Theorem core4_sym_core_ok : forall L k n, n <= 16 ->
  forall t : list (option sym), length t = n -> k <= count_some t ->
  exists vals, core4_sym L n k t = Some vals /\ length vals = k.
Proof.
  intros L k n Hn t HL Hc. apply colwise_ok. intros b _. unfold core4_col.
  destruct (rs_core16_core_ok k n Hn (col_tab (fun s => N.shiftr (nth b s 0%N) 4) t)) as [hs [-> _]];
    [rewrite col_tab_length; exact HL|rewrite col_tab_count; exact Hc|].
  destruct (rs_core16_core_ok k n Hn (col_tab (fun s => N.land (nth b s 0%N) 15) t)) as [ls [-> _]];
    [rewrite col_tab_length; exact HL|rewrite col_tab_count; exact Hc|].
  eexists. reflexivity.
Qed.

Lemma code4 : forall k n L src, 1 <= k <= n -> n <= 16 -> length src = k -> wf_block L src ->
  Code [] (core4_sym L n) k n src (encode4 k n L src).
Proof.
  intros k n L src Hk Hn Hls Hwf. constructor; [lia|lia|exact Hls| |apply core4_sym_core_ok; exact Hn|].
  - intros e He. apply encode4_systematic. exact He.
  - intros t [HL Ht] Hc. apply (core4_sym_correct k n L src t); assumption.
Qed.

Definition enc4_hist (k n L : nat) (src : list sym) (h : list (nat * sym)) : Prop :=
  forall ev, In ev h -> fst ev < n /\ snd ev = encode4 k n L src (fst ev).

Section Sym4.
  Variables (cb : bool) (k n L : nat) (src : list sym).
  Hypothesis Hk : 1 <= k <= n.
  Hypothesis Hn : n <= 16.
  Hypothesis Hls : length src = k.
  Hypothesis Hwf : wf_block L src.

  Let core := core4_sym L n.
  Let mk := mkidB sym.

  Theorem rs4_sym_run_table : forall h, enc4_hist k n L src h ->
    forall s : rs sym,
    s = run sym core cb mk k n h \/ s = fst (rs_finish core cb mk (run sym core cb mk k n h)) ->
    length (tab s) = n /\
    forall e, e < n ->
      (nth e (tab s) None = None \/ nth e (tab s) None = Some (encode4 k n L src e)) /\
      (e < k -> nth e (tab s) None = None \/ nth e (tab s) None = Some (nth e src [])).
  Proof.
    intros h Hh s Hs.
    exact (gen_run_table sym [] core cb mk k n src _ (fun _ _ => eq_refl) (code4 k n L src Hk Hn Hls Hwf) h Hh s Hs).
  Qed.

  Theorem rs4_sym_run_recovers_the_sources : forall h, enc4_hist k n L src h ->
    k <= ndistinct n (map fst h) ->
    rs_is_complete (run sym core cb mk k n h) = true /\
    rs_source_tab (run sym core cb mk k n h) = Some (map Some src).
  Proof.
    intros h Hh Hd.
    exact (gen_run_complete sym [] core cb mk k n src _ (fun _ _ => eq_refl) (code4 k n L src Hk Hn Hls Hwf) h Hh Hd).
  Qed.

  Theorem rs4_sym_session_recovers_the_sources : forall h, enc4_hist k n L src h ->
    k <= ndistinct n (map fst h) ->
    let r := rs_finish core cb mk (run sym core cb mk k n h) in
    snd r = OK /\ rs_source_tab (fst r) = Some (map Some src).
  Proof.
    intros h Hh Hd.
    exact (gen_session_recovers sym [] core cb mk k n src _ (fun _ _ => eq_refl) (code4 k n L src Hk Hn Hls Hwf) h Hh Hd).
  Qed.

  Theorem rs4_sym_session_too_few : forall h, enc4_hist k n L src h ->
    ndistinct n (map fst h) < k ->
    let r := rs_finish core cb mk (run sym core cb mk k n h) in
    snd r = FAILURE /\ rs_source_tab (fst r) = None /\
    rs_is_complete (run sym core cb mk k n h) = false.
  Proof.
    intros h Hh Hd.
    exact (gen_session_too_few sym core cb mk k n (proj1 Hk) (proj2 Hk)
             (core4_sym_core_ok L k n Hn) h (fun ev Hin => proj1 (Hh ev Hin)) Hd).
  Qed.

  Theorem rs4_sym_avail_recovers_the_sources : forall t : list (option sym), length t = n ->
    (forall e, e < n -> nth e t None = None \/ nth e t None = Some (encode4 k n L src e)) ->
    k <= count_some t ->
    let r := rs_finish core cb mk (fst (rs_set_available (rs_init sym k n) t)) in
    snd r = OK /\ rs_is_complete (fst r) = true /\
    rs_source_tab (fst r) = Some (map Some src).
  Proof.
    intros t HL Ht Hc.
    exact (gen_avail_recovers sym [] core cb mk k n src _ (fun _ _ => eq_refl) (code4 k n L src Hk Hn Hls Hwf) t HL Ht Hc).
  Qed.
End Sym4.

Theorem rs4_sym_avail_too_few :
  forall (cb : bool) (mk : nat -> sym -> sym) (k n L : nat) (t : list (option sym)),
  count_some t < k ->
  let r := rs_finish (core4_sym L n) cb mk (fst (rs_set_available (rs_init sym k n) t)) in
  snd r = FAILURE /\ rs_is_complete (fst r) = false /\ rs_source_tab (fst r) = None.
Proof.
  intros cb mk k n L t Hc. exact (gen_avail_too_few sym (core4_sym L n) cb mk k n t Hc).
Qed.

(* encode8 / encode4: the source symbols followed by the repair symbols of rs_repairs (the
   function the extracted model runs against the C encoders) *)
Lemma nth_src_repairs : forall (m8 : bool) k n L src e, length src = k -> e < n ->
  nth e (src ++ rs_repairs m8 k n L src) [] =
  if e <? k then nth e src []
  else if m8 then rs8_repair k L (invdens 8 P256 mul256 inv256 k) src e
       else rs4_repair k L (invdens 4 P16 mul16 inv16 k) src e.
Proof.
  intros m8 k n L src e Hls He. destruct (Nat.ltb_spec e k) as [Hek|Hek]; [apply app_nth1; lia|].
  rewrite app_nth2, Hls by lia. unfold rs_repairs.
  destruct m8; rewrite nth_map_seq by lia; f_equal; lia.
Qed.

Theorem encode8_rs_repairs : forall k n L src e, length src = k -> e < n ->
  encode8 k n L src e = nth e (src ++ rs_repairs true k n L src) [].
Proof. intros k n L src e Hls He. rewrite (nth_src_repairs true) by assumption. reflexivity. Qed.

Theorem encode4_rs_repairs : forall k n L src e, length src = k -> e < n ->
  encode4 k n L src e = nth e (src ++ rs_repairs false k n L src) [].
Proof. intros k n L src e Hls He. rewrite (nth_src_repairs false) by assumption. reflexivity. Qed.

(* k = 2, n = 4, L = 3 *)
Example session8_2_4 :
  let src := [[5; 7; 200]; [1; 2; 3]]%N in
  let enc := encode8 2 4 3 src in
  let s := run sym (core8_sym 3 4) true (mkidB sym) 2 4 [(3, enc 3); (3, enc 3); (2, enc 2)] in
  rs_is_complete s = true /\ rs_source_tab s = Some (map Some src) /\ evs s = [0; 1].
Proof. vm_compute. repeat split; reflexivity. Qed.

Example session4_2_4 :
  let src := [[5; 7; 200]; [1; 2; 3]]%N in
  let enc := encode4 2 4 3 src in
  let s := run sym (core4_sym 3 4) true (mkidB sym) 2 4 [(3, enc 3); (0, enc 0)] in
  rs_is_complete s = true /\ rs_source_tab s = Some (map Some src) /\ evs s = [1].
Proof. vm_compute. repeat split; reflexivity. Qed.

Example session8_2_4_few :
  let src := [[5; 7; 200]; [1; 2; 3]]%N in
  let enc := encode8 2 4 3 src in
  let s := run sym (core8_sym 3 4) true (mkidB sym) 2 4 [(3, enc 3); (3, enc 3)] in
  rs_is_complete s = false /\ snd (rs_finish (core8_sym 3 4) true (mkidB sym) s) = FAILURE.
Proof. vm_compute. split; reflexivity. Qed.

Print Assumptions core8_sym_correct.
Print Assumptions core8_sym_core_ok.
Print Assumptions rs8_sym_run_table.
Print Assumptions rs8_sym_run_recovers_the_sources.
Print Assumptions rs8_sym_session_recovers_the_sources.
Print Assumptions rs8_sym_session_too_few.
Print Assumptions rs8_sym_avail_recovers_the_sources.
Print Assumptions rs8_sym_avail_too_few.
Print Assumptions core4_sym_correct.
Print Assumptions core4_sym_core_ok.
Print Assumptions rs4_sym_run_table.
Print Assumptions rs4_sym_run_recovers_the_sources.
Print Assumptions rs4_sym_session_recovers_the_sources.
Print Assumptions rs4_sym_session_too_few.
Print Assumptions rs4_sym_avail_recovers_the_sources.
Print Assumptions rs4_sym_avail_too_few.
Print Assumptions encode8_rs_repairs.
Print Assumptions encode4_rs_repairs.
