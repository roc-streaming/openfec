(* C16: the generic decoder/encoder theorems instantiated with the 2D parity matrix model (Pchk2D.v). *)
From Coq Require Import List Arith Bool Lia.
From OFV Require Import ListAux XorGroup LdpcEnc ITModel ITLemmas ITProofs ITCorollaries Pchk2D MLModel MLFinish MLSession.
Import ListNotations.

Section P2D.
Variable Sy : Type. Variable sxor : Sy -> Sy -> Sy. Variable s0 : Sy.
Hypothesis sxor_assoc : forall a b c, sxor a (sxor b c) = sxor (sxor a b) c.
Hypothesis sxor_comm : forall a b, sxor a b = sxor b a.
Hypothesis sxor_0_l : forall a, sxor s0 a = a.
Hypothesis sxor_nilp : forall a, sxor a a = s0.
Variables d l : nat.
Hypothesis d_pos : 1 <= d. Hypothesis l_pos : 1 <= l.
Let H := rows2d d l. Let R := d + l. Let N := d * l + d + l.

(* the hypotheses of the generic theorems, at this matrix *)
Let hl : length H = R := p2d_len d l.
Let hnd : forall i, i < R -> NoDup (nth i H []) := p2d_nodup d l.
Let hrg : forall i c, i < R -> In c (nth i H []) -> c < N := p2d_range d l.
Let hdg : forall i, i < R -> 2 <= length (nth i H []) := p2d_deg d l d_pos l_pos.
Let hrn : R <= N := p2d_R_le_N d l d_pos l_pos.
Let hcov : forall c, c < N -> exists i, i < R /\ In c (nth i H []) := p2d_covered d l d_pos l_pos.
Let hst : stair R H := p2d_stair d l d_pos l_pos.

Lemma p2d_encode_zero_sum (tab : nat -> Sy) :
  let t' := encode_all Sy sxor s0 R H tab in
  (forall c, c < R -> rowsum Sy sxor s0 t' (nth c H []) = s0) /\ (forall x, R <= x -> t' x = tab x).
Proof. apply ldpc_encode_zero_sum_proof; auto. Qed.

Lemma p2d_decoder_values (cw : nat -> Sy) :
  (forall i, i < R -> fold_right sxor s0 (map cw (nth i H [])) = s0) ->
  forall fuel (hist : list (nat * Sy)) (s : st Sy),
  (forall ev, In ev hist -> fst ev < N /\ snd ev = cw (fst ev)) -> run Sy sxor s0 H R N fuel hist = Some s ->
  forall c v, nth c (tab s) None = Some v -> v = cw c.
Proof.
  intros Hp. apply (run_values Sy sxor s0 H R N hl hnd hrg hdg hrn
                     sxor_assoc sxor_comm sxor_0_l sxor_nilp cw Hp).
Qed.

Lemma p2d_decoder_is_peeling (hist : list (nat * Sy)) :
  (forall ev, In ev hist -> fst ev < N) ->
  exists s, run Sy sxor s0 H R N (S N) hist = Some s /\
    let Rc := fun e => In e (map fst hist) in
    (forall c, R <= c < N -> (known s c = true <-> peel H R Rc c)) /\
    ((forall c, R <= c < N -> known s c = true) <-> (forall c, R <= c < N -> peel H R Rc c)).
Proof.
  apply (it_closure_full Sy sxor s0 H R N hl hnd hrg hdg hrn).
Qed.

(* any single loss is recovered by the streaming decoder, whatever the arrival order *)
Lemma p2d_any_single_loss_recovered (e : nat) (hist : list (nat * Sy)) :
  e < N -> (forall ev, In ev hist -> fst ev < N) -> (forall c, c < N -> c <> e -> In c (map fst hist)) ->
  exists s, run Sy sxor s0 H R N (S N) hist = Some s /\ fst (is_complete s) = true /\ forall c, R <= c < N -> known s c = true.
Proof.
  intros He Hr Hall. destruct (p2d_decoder_is_peeling hist Hr) as (s & Hs & _ & Hk). exists s. split; [exact Hs|].
  assert (Hsrc : forall c, R <= c < N -> known s c = true).
  { apply Hk. intros c Hc. apply (peel_ext H R (fun c' => c' < N /\ c' <> e)).
    - intros c' (A & B). apply Hall; assumption.
    - apply p2d_single_loss; auto; lia. }
  split; [|exact Hsrc].
  apply (run_complete_flag Sy sxor s0 H R N hl hnd hrg hdg hrn (S N) hist s Hr Hs).
  exact Hsrc.
Qed.

(* of_finish_decoding (ML) on the 2D matrix: sound, truthful, and it recovers exactly the patterns the
   checks determine uniquely *)
Lemma p2d_session_finish (Hnt : exists a : Sy, a <> s0) (cw : nat -> Sy) :
  (forall i, i < R -> fold_right sxor s0 (map cw (nth i H [])) = s0) ->
  forall (hist : list (nat * Sy)) (s : st Sy) (fuel : nat) (perm : list nat) (o : outcome Sy),
  (forall ev, In ev hist -> fst ev < N /\ snd ev = cw (fst ev)) ->
  run Sy sxor s0 H R N (S N) hist = Some s ->
  N < fuel -> (forall c, c < R -> In c perm) -> (forall c, In c perm -> c < R) ->
  ml_finish sxor s0 fuel perm s = Some o ->
  (forall c v, nth c (tab (o_st o)) None = Some v -> v = cw c) /\
  (forall c x, nth c (tab s) None = Some x -> nth c (tab (o_st o)) None = Some x) /\
  (o_ok o = true <-> (forall c, R <= c < N -> known (o_st o) c = true)) /\
  ((forall c, R <= c < N -> known (o_st o) c = true) <->
   (forall z : nat -> bool, (forall i, i < R -> fold_right xorb false (map z (nth i H [])) = false) ->
      (forall c, In c (map fst hist) -> z c = false) -> forall c, R <= c < N -> z c = false)).
Proof.
  intros Hp. exact (ldpc_session_finish Sy sxor s0 sxor_assoc sxor_comm sxor_0_l sxor_nilp H R N hl hnd hrg hdg hrn hcov hst Hnt cw Hp).
Qed.

Lemma p2d_session_total (Hnt : exists a : Sy, a <> s0) (cw : nat -> Sy) :
  (forall i, i < R -> fold_right sxor s0 (map cw (nth i H [])) = s0) ->
  forall (hist : list (nat * Sy)) (fuel : nat) (perm : list nat),
  (forall ev, In ev hist -> fst ev < N /\ snd ev = cw (fst ev)) ->
  N < fuel -> (forall c, c < R -> In c perm) -> (forall c, In c perm -> c < R) ->
  exists (s : st Sy) (o : outcome Sy), run Sy sxor s0 H R N (S N) hist = Some s /\ ml_finish sxor s0 fuel perm s = Some o.
Proof.
  intros Hp. exact (ldpc_session_total Sy sxor s0 sxor_assoc sxor_comm sxor_0_l sxor_nilp H R N hl hnd hrg hdg hrn hcov hst Hnt cw Hp).
Qed.
End P2D.
