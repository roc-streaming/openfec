(* Facts about the operators of CSem.v: when they are exact, what real number they denote. *)
From Flocq Require Import Core Relative IEEE754.BinarySingleNaN.
From Coq Require Import Reals ZArith Lia Lra Bool.
From OFV Require Import CSem FloatLemmas.
Local Open Scope Z_scope.

Lemma wrapu_small n z : 0 <= z < 2 ^ n -> wrapu n z = z.
Proof. intros H. unfold wrapu. apply Z.mod_small. exact H. Qed.
Lemma wrapu64_small z : 0 <= z < 2 ^ 64 -> wrapu64 z = z.  Proof. apply wrapu_small. Qed.
Lemma wrapu32_small z : 0 <= z < 2 ^ 32 -> wrapu32 z = z.  Proof. apply wrapu_small. Qed.
Lemma chk_shift_ok w a v : 0 <= a < w -> chk_shift w a v = Some v.
Proof. intros H. unfold chk_shift. destruct (Z.leb_spec 0 a), (Z.ltb_spec a w); simpl; auto; lia. Qed.

Local Open Scope R_scope.
Definition fin (x : binary64) := is_finite x = true.
Definition R64 (x : binary64) : R := B2R x.

Lemma fexp64 : SpecFloat.fexp prec64 emax64 = FLT_exp (-1074) 53.
Proof. reflexivity. Qed.

Lemma rnd64_le_format v z : generic_format radix2 (FLT_exp (-1074) 53) z -> v <= z -> rnd64 v <= z.
Proof.
  intros Hz H. unfold rnd64. apply round_le_generic;
    [apply FLT_exp_valid; reflexivity|apply valid_rnd_N|exact Hz|exact H].
Qed.

Lemma rnd64_ge_format v z : generic_format radix2 (FLT_exp (-1074) 53) z -> z <= v -> z <= rnd64 v.
Proof.
  intros Hz H. unfold rnd64. apply round_ge_generic;
    [apply FLT_exp_valid; reflexivity|apply valid_rnd_N|exact Hz|exact H].
Qed.

Lemma rnd64_ge_0 v : 0 <= v -> 0 <= rnd64 v.
Proof. apply rnd64_ge_format, generic_format_0. Qed.

Lemma rnd64_abs_le_bpow e v : (-1074 <= e)%Z -> Rabs v <= bpow radix2 e -> Rabs (rnd64 v) <= bpow radix2 e.
Proof.
  intros He H. apply abs_round_le_generic; [apply FLT_exp_valid; reflexivity | apply valid_rnd_N | | exact H].
  apply generic_format_bpow. unfold FLT_exp. lia.
Qed.

(* The Flocq operations return the rounded exact result unless it overflows; every quantity of the
   development stays below 2^1000, which settles that test once. *)
Lemma no_overflow v : Rabs v <= bpow radix2 1000 ->
  Rlt_bool (Rabs (round radix2 (SpecFloat.fexp prec64 emax64) (round_mode mode_NE) v)) (bpow radix2 emax64) = true.
Proof.
  intros H. apply Rlt_bool_true. apply Rle_lt_trans with (bpow radix2 1000); [|apply bpow_lt; reflexivity].
  apply (rnd64_abs_le_bpow 1000 v); [lia|exact H].
Qed.

Lemma below_2p1000 v : Rabs v <= 9007199254740992 -> Rabs v <= bpow radix2 1000.
Proof. intros H. apply Rle_trans with (bpow radix2 53); [rewrite pow2_53; exact H|apply bpow_le; lia]. Qed.

Lemma d_mul_rounded x y : fin x -> fin y -> Rabs (R64 x * R64 y) <= bpow radix2 1000 ->
  R64 (d_mul x y) = rnd64 (R64 x * R64 y) /\ fin (d_mul x y).
Proof.
  intros Fx Fy Hb. unfold d_mul, R64, fin in *.
  pose proof (Bmult_correct prec64 emax64 prec64_gt_0 prec64_lt_emax mode_NE x y) as H.
  rewrite no_overflow, Fx, Fy in H by exact Hb. destruct H as (A & B & _). split; assumption.
Qed.

Lemma d_div_rounded x y : fin x -> fin y -> R64 y <> 0 -> Rabs (R64 x / R64 y) <= bpow radix2 1000 ->
  R64 (d_div x y) = rnd64 (R64 x / R64 y) /\ fin (d_div x y).
Proof.
  intros Fx Fy Hy Hb. unfold d_div, R64, fin in *.
  pose proof (Bdiv_correct prec64 emax64 prec64_gt_0 prec64_lt_emax mode_NE x y Hy) as H.
  rewrite no_overflow, Fx in H by exact Hb. destruct H as (A & B & _). split; assumption.
Qed.

Lemma d_sub_rounded x y : fin x -> fin y -> Rabs (R64 x - R64 y) <= bpow radix2 1000 ->
  R64 (d_sub x y) = rnd64 (R64 x - R64 y) /\ fin (d_sub x y).
Proof.
  intros Fx Fy Hb. unfold d_sub, R64, fin in *.
  pose proof (Bminus_correct prec64 emax64 prec64_gt_0 prec64_lt_emax mode_NE x y Fx Fy) as H.
  rewrite no_overflow in H by exact Hb. destruct H as (A & B & _). split; assumption.
Qed.

Lemma d_of_Z_exact z : (Z.abs z <= 2^53)%Z -> R64 (d_of_Z z) = IZR z /\ fin (d_of_Z z).
Proof.
  intros Hz. unfold d_of_Z, R64, fin.
  pose proof (binary_normalize_correct prec64 emax64 prec64_gt_0 prec64_lt_emax mode_NE z 0 false) as H.
  cbv zeta in H. replace (F2R (Float radix2 z 0)) with (IZR z) in H by (unfold F2R; simpl; ring).
  rewrite no_overflow in H.
  - destruct H as (A & B & _). split; [|exact B]. rewrite A. apply rnd64_int, Hz.
  - apply below_2p1000. rewrite <- abs_IZR. apply (IZR_le _ (2^53)), Hz.
Qed.

Lemma round_FIX0 (rnd : R -> Z) x : round radix2 (FIX_exp 0) rnd x = IZR (rnd x).
Proof. unfold round, F2R, scaled_mantissa, FIX_exp. simpl. rewrite !Rmult_1_r. reflexivity. Qed.

Lemma Btrunc_R x : Btrunc x = Ztrunc (R64 x).
Proof. apply eq_IZR. rewrite Btrunc_correct by exact prec64_lt_emax. apply round_FIX0. Qed.

Lemma d_to_int_ok lo hi x : fin x -> (lo <= Ztrunc (R64 x) <= hi)%Z ->
  d_to_int lo hi x = Some (Ztrunc (R64 x)).
Proof.
  intros Fx Hr. unfold d_to_int, fin in *. rewrite Fx, Btrunc_R.
  destruct (Z.leb_spec lo (Ztrunc (R64 x))), (Z.leb_spec (Ztrunc (R64 x)) hi); simpl; auto; lia.
Qed.

Lemma d_to_u32_of_int x (z : Z) : fin x -> R64 x = IZR z -> (0 <= z < 2^32)%Z -> d_to_u32 x = Some z.
Proof.
  intros Fx Hx Hz. unfold d_to_u32. rewrite (d_to_int_ok _ _ x Fx); rewrite Hx, Ztrunc_IZR; [reflexivity|].
  change (2^32 - 1)%Z with 4294967295%Z. lia.
Qed.

Lemma d_nearbyint_R m x : fin x ->
  R64 (Bnearbyint m x) = IZR (round_mode m (R64 x)) /\ fin (Bnearbyint m x).
Proof.
  intros Fx. unfold R64, fin in *.
  destruct (Bnearbyint_correct prec64 emax64 prec64_lt_emax m x) as (A & B & _).
  rewrite round_FIX0 in A. rewrite B. split; assumption.
Qed.

Lemma d_ceil_R x : fin x -> R64 (d_ceil x) = IZR (Zceil (R64 x)) /\ fin (d_ceil x).
Proof. exact (d_nearbyint_R mode_UP x). Qed.

Lemma d_floor_R x : fin x -> R64 (d_floor x) = IZR (Zfloor (R64 x)) /\ fin (d_floor x).
Proof. exact (d_nearbyint_R mode_DN x). Qed.

Lemma d_fabs_R x : R64 (d_fabs x) = Rabs (R64 x) /\ (fin x -> fin (d_fabs x)).
Proof. unfold d_fabs, R64, fin. rewrite B2R_Babs, is_finite_Babs. auto. Qed.

Lemma d_lt_R x y : fin x -> fin y -> d_lt x y = Rlt_bool (R64 x) (R64 y).
Proof. intros. apply Bltb_correct; assumption. Qed.

Lemma quot_R a b : (0 <= a < 2^32)%Z -> (0 < b < 2^32)%Z ->
  R64 (d_div (d_of_Z a) (d_of_Z b)) = rnd64 (IZR a / IZR b) /\ fin (d_div (d_of_Z a) (d_of_Z b)).
Proof.
  intros Ha Hb. destruct (d_of_Z_exact a ltac:(lia)) as [Ra Fa]. destruct (d_of_Z_exact b ltac:(lia)) as [Rb Fb].
  rewrite <- Ra, <- Rb. apply d_div_rounded; try assumption; rewrite ?Ra, Rb.
  - apply not_0_IZR. lia.
  - assert (0 <= IZR a < 4294967296) by (split; [apply IZR_le|apply (IZR_lt a 4294967296)]; lia).
    assert (1 <= IZR b) by (apply (IZR_le 1 b); lia).
    apply below_2p1000, Rabs_div_le; lra.
Qed.

Lemma u32_ceil_quot a b : (0 <= a < 2^32)%Z -> (0 < b < 2^32)%Z ->
  d_to_u32 (d_ceil (d_div (d_of_Z a) (d_of_Z b))) = Some ((a + b - 1) / b)%Z.
Proof.
  intros Ha Hb. destruct (quot_R a b Ha Hb) as [Rq Fq]. destruct (d_ceil_R _ Fq) as [Rc Fc].
  rewrite Rq, rnd64_quotient_ceil in Rc by lia. apply (d_to_u32_of_int _ _ Fc Rc).
  split; [apply Z.div_pos; lia|apply Z.div_lt_upper_bound; nia].
Qed.

Lemma u32_floor_quot a b : (0 <= a < 2^32)%Z -> (0 < b < 2^32)%Z ->
  d_to_u32 (d_floor (d_div (d_of_Z a) (d_of_Z b))) = Some (a / b)%Z.
Proof.
  intros Ha Hb. destruct (quot_R a b Ha Hb) as [Rq Fq]. destruct (d_floor_R _ Fq) as [Rc Fc].
  rewrite Rq, rnd64_quotient_floor in Rc by lia. apply (d_to_u32_of_int _ _ Fc Rc).
  split; [apply Z.div_pos; lia|apply Z.div_lt_upper_bound; nia].
Qed.
