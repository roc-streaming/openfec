(* The maximum-likelihood finish of the LDPC erasure decoder model (MLModel.v: ml_finish), in two halves:
   reduce_main for the simplification phase (red), tail_spec (Section Tail) for the dense system solved after it.
   finish_spec joins them, for any state that prepar turns into one satisfying MLInv; it is what the session
   theorems (MLSession.v, InterleaveObs.v, SolveBounds.v) start from.  Section Main reads it from a state
   satisfying MLPre:
     ml_finish_total         the finish always returns an outcome
     ml_finish_values        never a wrong symbol; knowledge only grows; received/decoded symbols are kept
     ml_finish_complete_iff  it reports OK iff all source symbols are available
                             iff the source symbols are uniquely determined by the known symbols
     Det_known_ext           the success only depends on the set of known columns
   That no entry of the table is lost or changed is StableTables.ml_finish_tab_stable.
   The symbol type is assumed to have at least two elements (Sy_nontrivial); it is used to transport a
   GF(2) kernel vector z of the parity-check matrix to a second codeword cw + z*a. *)
From Coq Require Import List Arith Bool Lia.
From OFV Require Import ListAux XorGroup ITModel ITLemmas ITProofs MLModel MLSimplify
  DenseSolve DenseSolveProofs DenseSolveNZ DenseSolveComplete LdpcEnc.
From OFV Require StableTables.
Import ListNotations.

Definition mem (c : nat) (l : list nat) : bool := existsb (Nat.eqb c) l.

Lemma mem_In c l : mem c l = true <-> In c l.
Proof. apply existsb_eqb_In. Qed.

Lemma mem_false c l : mem c l = false <-> ~ In c l.
Proof. rewrite <- mem_In. symmetry. apply not_true_iff_false. Qed.

(* position of a column in a list of columns *)
Fixpoint idx (c : nat) (l : list nat) : nat :=
  match l with [] => 0 | x :: t => if x =? c then 0 else S (idx c t) end.

Lemma idx_nth l : NoDup l -> forall j, j < length l -> idx (nth j l 0) l = j.
Proof.
  induction l as [|x l IH]; intros ND j Hj; [simpl in Hj; lia|].
  inversion ND as [|? ? Hx ND']; subst. destruct j as [|j]; cbn [nth idx].
  - now rewrite Nat.eqb_refl.
  - simpl in Hj. destruct (Nat.eqb_spec x (nth j l 0)) as [E|E].
    + exfalso. apply Hx. rewrite E. apply nth_In. lia.
    + f_equal. apply IH; [exact ND'|lia].
Qed.

Lemma filter_seq_pos (f : nat -> bool) c m : c < m -> f c = true ->
  let p := length (filter f (seq 0 c)) in
  p < length (filter f (seq 0 m)) /\ nth p (filter f (seq 0 m)) 0 = c.
Proof.
  intros Hc Hf p. replace m with (c + S (m - S c)) by lia.
  rewrite seq_app, filter_app. cbn [seq filter plus]. rewrite Hf, app_length. split; [cbn [length]; lia|].
  rewrite app_nth2 by lia. unfold p. now rewrite Nat.sub_diag.
Qed.

(* Sums over duplicate-free lists in an abelian group of exponent 2 *)
Section Grp.
Variable T : Type. Variable op : T -> T -> T. Variable e : T.
Hypothesis op_assoc : forall a b c, op a (op b c) = op (op a b) c.
Hypothesis op_comm : forall a b, op a b = op b a.
Hypothesis op_0_l : forall a, op e a = a.
Notation gs := (xs T op e).

(* a sum over l, written as a sum over a list cols that contains l *)
Lemma gs_mem f : forall cols l, NoDup cols -> NoDup l -> incl l cols ->
  gs (fun c => if mem c l then f c else e) cols = gs f l.
Proof.
  induction cols as [|x cols IH]; intros l NDc NDl Hincl.
  - destruct l as [|y l]; [reflexivity|]. exfalso. apply (Hincl y). now left.
  - inversion NDc as [|? ? Hx NDc']; subst.
    change (gs (fun c => if mem c l then f c else e) (x :: cols))
      with (op (if mem x l then f x else e) (gs (fun c => if mem c l then f c else e) cols)).
    destruct (mem x l) eqn:Ex.
    + apply mem_In in Ex. rewrite (xs_rm T op e op_assoc op_comm f x l NDl Ex). f_equal.
      rewrite <- (IH (rm x l)).
      * apply xsum_ext. intros c Hc. replace (mem c (rm x l)) with (mem c l); [reflexivity|].
        apply eq_true_iff_eq. rewrite !mem_In, rm_In. split; [|tauto]. intros H. split; [exact H|]. intros ->. now apply Hx.
      * exact NDc'.
      * now apply NoDup_filter.
      * intros c Hc. apply rm_In in Hc. destruct Hc as (Hc & Hne).
        destruct (Hincl c Hc) as [->|H]; [now elim Hne|exact H].
    + apply mem_false in Ex. rewrite op_0_l. apply IH; [exact NDc'|exact NDl|].
      intros c Hc. destruct (Hincl c Hc) as [->|H]; [now elim Ex|exact H].
Qed.

(* the same sum written over the positions of cols, as the dense solver does *)
Lemma gs_positions f cols l (X : nat -> T) : NoDup cols -> NoDup l -> incl l cols ->
  (forall j, j < length cols -> X j = f (nth j cols 0)) ->
  fold_right op e (map (fun j => if bit (map (fun c => mem c l) cols) j then X j else e) (seq 0 (length cols))) = gs f l.
Proof.
  intros NDc NDl Hincl HX. rewrite <- (gs_mem f cols l NDc NDl Hincl).
  unfold xs. rewrite <- (map_nth_seq cols 0) at 2. rewrite map_map. f_equal.
  apply map_ext_in. intros j Hj. apply in_seq in Hj.
  unfold bit. rewrite (nth_map_lt (fun c => mem c l) cols j 0 false) by lia.
  rewrite HX by lia. reflexivity.
Qed.
End Grp.

Section TW.
Variable Sy : Type. Variable s0 : Sy.

Lemma take_ct_cons j rest (ctl : list (option Sy)) :
  take_ct (j :: rest) ctl = (nth j ctl None :: fst (take_ct rest (upd ctl j None)), snd (take_ct rest (upd ctl j None))).
Proof. cbn [take_ct]. destruct (take_ct rest (upd ctl j None)) as [b c]. reflexivity. Qed.

Lemma take_ct_length : forall idxl (ctl : list (option Sy)),
  length (fst (take_ct idxl ctl)) = length idxl /\ length (snd (take_ct idxl ctl)) = length ctl.
Proof.
  induction idxl as [|j rest IH]; intros ctl; [split; reflexivity|].
  rewrite take_ct_cons. cbn [fst snd length]. destruct (IH (upd ctl j None)) as (A & B).
  rewrite A, B, upd_length. split; reflexivity.
Qed.

(* the entries taken through a duplicate-free prefix of the index list are the original ones *)
Lemma take_ct_prefix l2 : forall l1 (ctl : list (option Sy)) k, NoDup l1 -> k < length l1 ->
  nth k (fst (take_ct (l1 ++ l2) ctl)) None = nth (nth k l1 0) ctl None.
Proof.
  induction l1 as [|j l1 IH]; intros ctl k ND Hk; [simpl in Hk; lia|].
  inversion ND as [|? ? Hj ND']; subst.
  change ((j :: l1) ++ l2) with (j :: (l1 ++ l2)). rewrite take_ct_cons. cbn [fst].
  destruct k as [|k]; [reflexivity|]. cbn [nth]. simpl in Hk.
  rewrite IH by (auto; lia). apply nth_upd_neq.
  intros ->. apply Hj. apply nth_In. lia.
Qed.

Definition unkt (tb : list (option Sy)) (c : nat) : bool := match nth c tb None with None => true | Some _ => false end.

(* write_back only fills entries that are empty (StableTables.write_back_tab), leaves the columns outside
   srcs alone, and gives the j-th column of a range, if empty, the unknown whose index is pos plus the
   number of empty columns before it in the range *)
Lemma write_back_out (x : list Sy) c : forall srcs pos (tb : list (option Sy)), ~ In c srcs ->
  nth c (write_back s0 srcs x pos tb) None = nth c tb None.
Proof.
  induction srcs as [|a srcs IH]; intros pos tb Hc; [reflexivity|].
  cbn [write_back]. destruct (nth a tb None); rewrite IH by (intros H; apply Hc; now right); [reflexivity|].
  apply nth_upd_neq. intros ->. apply Hc. now left.
Qed.

Lemma write_back_unknown (x : list Sy) : forall m a pos (tb : list (option Sy)) j, a + m <= length tb -> j < m ->
  nth (a + j) tb None = None ->
  nth (a + j) (write_back s0 (seq a m) x pos tb) None = Some (nth (pos + length (filter (unkt tb) (seq a j))) x s0).
Proof.
  induction m as [|m IH]; intros a pos tb j Hlen Hj Hc; [lia|].
  cbn [seq write_back]. destruct j as [|j].
  - rewrite Nat.add_0_r in *. rewrite Hc. cbn [seq filter length]. rewrite Nat.add_0_r.
    apply StableTables.write_back_tab, nth_upd_eq. lia.
  - replace (a + S j) with (S a + j) in * by lia. cbn [seq filter]. unfold unkt at 1.
    destruct (nth a tb None) as [w|] eqn:Ea; [now apply IH; try lia|].
    rewrite IH; [|rewrite upd_length; lia|lia|rewrite nth_upd_neq by lia; exact Hc].
    cbn [length]. rewrite (filter_ext_in (unkt (upd tb a (Some (nth pos x s0)))) (unkt tb)).
    + f_equal. f_equal. lia.
    + intros y Hy. apply in_seq in Hy. unfold unkt. now rewrite nth_upd_neq by lia.
Qed.

Lemma write_back_length (x : list Sy) : forall srcs pos (tb : list (option Sy)),
  length (write_back s0 srcs x pos tb) = length tb.
Proof.
  induction srcs as [|c srcs IH]; intros pos tb; [reflexivity|].
  cbn [write_back]. destruct (nth c tb None); rewrite IH; [reflexivity|apply upd_length].
Qed.
End TW.

Section MLF.
Variable Sy : Type. Variable sxor : Sy -> Sy -> Sy. Variable s0 : Sy.
Hypothesis sxor_assoc : forall a b c, sxor a (sxor b c) = sxor (sxor a b) c.
Hypothesis sxor_comm : forall a b, sxor a b = sxor b a.
Hypothesis sxor_0_l : forall a, sxor s0 a = a.
Hypothesis sxor_nilp : forall a, sxor a a = s0.

Variable H0 : list (list nat).
Variable R0 N0 : nat.
Hypothesis H0_len : length H0 = R0.
Hypothesis H0_nodup : forall i, i < R0 -> NoDup (nth i H0 []).
Hypothesis H0_range : forall i c, i < R0 -> In c (nth i H0 []) -> c < N0.
Hypothesis H0_deg : forall i, i < R0 -> 2 <= length (nth i H0 []).
Hypothesis R_le_N : R0 <= N0.

Variable cw : nat -> Sy.
Hypothesis parity : forall i, i < R0 -> xs Sy sxor s0 cw (nth i H0 []) = s0.

Hypothesis H0_cols : forall c, c < N0 -> exists i, i < R0 /\ In c (nth i H0 []).
Hypothesis H0_stair : stair R0 H0.
Hypothesis Sy_nontrivial : exists a : Sy, a <> s0.

(* GF(2) kernel vectors of the parity-check matrix *)
Definition hker (z : nat -> bool) : Prop :=
  forall i, i < R0 -> fold_right xorb false (map z (nth i H0 [])) = false.
(* the sources are uniquely determined by the symbols known in state s *)
Definition Det (s : st Sy) : Prop :=
  forall z, hker z -> (forall c, c < N0 -> known s c = true -> z c = false) -> forall c, R0 <= c < N0 -> z c = false.

Notation st := (st Sy).
Notation WF := (WF Sy R0 N0).
Notation Kmono := (Kmono Sy).
Notation iscomp := (iscomp Sy R0 N0).
Notation Inv cwx := (MLInv Sy sxor s0 H0 R0 N0 cwx).
Notation Pre cwx := (MLPre Sy H0 R0 N0 cwx).
Notation gs := (xs Sy sxor s0).
Notation bs := (xs bool xorb false).
Notation s0r := (XorGroup.sxor_0_r Sy sxor s0 sxor_comm sxor_0_l).

(* the GF(2) sum of Z over what is left of row i is its sum over the original row, when Z vanishes on the
   known columns: the entries that have gone are known *)
Lemma bs_rows (cwx : nat -> Sy) (s : st) (Z : nat -> bool) i : Inv cwx s -> i < R0 ->
  (forall c, c < N0 -> known s c = true -> Z c = false) ->
  bs Z (nth i (rws s) []) = bs Z (nth i H0 []).
Proof.
  intros I Hi HZ. destruct (ml_sub Sy sxor s0 H0 R0 N0 cwx s I i Hi) as (ND & Incl).
  rewrite <- (gs_mem bool xorb false bx_assoc bx_comm bx_0_l Z (nth i H0 []) (nth i (rws s) []) (H0_nodup i Hi) ND Incl).
  apply xsum_ext. intros c Hc. destruct (mem c (nth i (rws s) [])) eqn:Em; [reflexivity|].
  apply mem_false in Em. symmetry. apply HZ; [exact (H0_range i c Hi Hc)|].
  destruct (known s c) eqn:Hk; [reflexivity|]. exfalso. apply Em.
  now apply I.
Qed.

(* a kernel vector z gives a second codeword cw + z*a (that it satisfies the checks is not needed) ... *)
Definition cw2 (z : nat -> bool) (a : Sy) : nat -> Sy := fun c => if z c then sxor (cw c) a else cw c.

Lemma sxor4 p a X b : sxor (sxor p a) (sxor X b) = sxor (sxor p X) (sxor a b).
Proof.
  rewrite sxor_assoc. rewrite <- (sxor_assoc p a X). rewrite (sxor_comm a X). rewrite (sxor_assoc p X a).
  now rewrite <- sxor_assoc.
Qed.

Lemma gs_cw2 z a l : gs (cw2 z a) l = sxor (gs cw l) (if bs z l then a else s0).
Proof.
  induction l as [|c l IH].
  - unfold xs. simpl. now rewrite sxor_0_l.
  - change (gs (cw2 z a) (c :: l)) with (sxor (cw2 z a c) (gs (cw2 z a) l)).
    change (gs cw (c :: l)) with (sxor (cw c) (gs cw l)).
    change (bs z (c :: l)) with (xorb (z c) (bs z l)).
    rewrite IH. unfold cw2 at 1. destruct (z c).
    + rewrite sxor4. destruct (bs z l); cbn [xorb negb].
      * now rewrite sxor_nilp.
      * now rewrite s0r.
    + rewrite sxor_assoc. destruct (bs z l); reflexivity.
Qed.

(* ... with which a state is compatible as well, if z vanishes on its known columns *)
Lemma MLInv_cw2 (s : st) z a : Inv cw s -> hker z -> (forall c, c < N0 -> known s c = true -> z c = false) ->
  Inv (cw2 z a) s.
Proof.
  intros I Hz Hv. pose proof I as [W Isub Iunk Ieq Itab Ikeep]. constructor; auto.
  - intros i Hi Hne. rewrite (Ieq i Hi Hne), gs_cw2, (bs_rows cw s z i I Hi Hv).
    replace (bs z (nth i H0 [])) with false by (symmetry; exact (Hz i Hi)). symmetry. apply s0r.
  - intros c v Hc. rewrite (Itab c v Hc). unfold cw2.
    destruct (Nat.lt_ge_cases c N0) as [Hlt|Hge].
    + rewrite (Hv c Hlt); [reflexivity|]. exact (known_some s c _ Hc).
    + rewrite nth_overflow in Hc by (rewrite (wf_tab Sy R0 N0 s W); exact Hge). discriminate Hc.
Qed.

(* the simplification phase, for any codeword compatible with the table *)
Definition red (fuel : nat) (perm : list nat) (s : st) : option st :=
  fold_left (inject sxor fuel) perm
    (fold_left (inject sxor fuel) (map (fun i => r (prepar s) + i) (seq 0 (n s - r s))) (Some (prepar s))).

Definition RC (s1 : st) : Prop :=
  forall i c, i < R0 -> (In c (nth i (rws s1) []) <-> In c (nth i H0 []) /\ known s1 c = false).

Lemma reduce_inv (cwx : nat -> Sy) fuel perm (s : st) :
  Inv cwx (prepar s) -> N0 < fuel -> (forall c, c < R0 -> In c perm) ->
  exists s1, red fuel perm s = Some s1 /\ Inv cwx s1 /\ Kmono s s1
    /\ (forall c, known s c = true -> nth c (tab s1) None = nth c (tab s) None)
    /\ (iscomp s1 \/ RC s1).
Proof.
  intros I0 Hf Hp1.
  pose proof (ml_wf Sy sxor s0 H0 R0 N0 cwx (prepar s) I0) as W.
  assert (Er : r s = R0) by exact (wf_r Sy R0 N0 (prepar s) W).
  assert (En : n s = N0) by exact (wf_n Sy R0 N0 (prepar s) W).
  unfold red. change (r (prepar s)) with (r s). rewrite Er, En, map_add_seq, Nat.add_0_r, <- fold_left_app.
  set (cs := seq R0 (N0 - R0) ++ perm).
  assert (Hcs2 : forall c, c < N0 -> In c cs).
  { intros c Hc. apply in_or_app. destruct (Nat.lt_ge_cases c R0) as [Hlt|Hge]; [right; now apply Hp1|left; apply in_seq; lia]. }
  exact (inject_every Sy sxor s0 sxor_assoc sxor_comm sxor_0_l sxor_nilp H0 R0 N0 H0_len H0_nodup H0_range H0_deg R_le_N
           cwx cs fuel (prepar s) I0 Hcs2 Hf).
Qed.

(* the states reached for cw and for cw + z*a are the same state: so z vanishes where a symbol is stored *)
Lemma reduce_main fuel perm (s : st) :
  Inv cw (prepar s) -> N0 < fuel -> (forall c, c < R0 -> In c perm) ->
  exists s1, red fuel perm s = Some s1 /\ Inv cw s1 /\ Kmono s s1
    /\ (forall c, known s c = true -> nth c (tab s1) None = nth c (tab s) None)
    /\ (iscomp s1 \/ RC s1)
    /\ (forall z, hker z -> (forall c, c < N0 -> known s c = true -> z c = false) ->
        forall c, known s1 c = true -> z c = false).
Proof.
  intros I0 Hf Hp1.
  destruct (reduce_inv cw fuel perm s I0 Hf Hp1) as (s1 & Hs1 & I1 & M & T & X).
  exists s1. split; [exact Hs1|]. split; [exact I1|]. split; [exact M|]. split; [exact T|]. split; [exact X|].
  intros z Hz Hv c Hk.
  destruct Sy_nontrivial as (a & Ha).
  destruct (reduce_inv (cw2 z a) fuel perm s (MLInv_cw2 (prepar s) z a I0 Hz Hv) Hf Hp1)
    as (s1' & Hs1' & I1' & _).
  rewrite Hs1 in Hs1'. injection Hs1' as <-.
  destruct (known_inv s1 c Hk) as (v & Ev).
  pose proof (ml_tab Sy sxor s0 H0 R0 N0 cw s1 I1 c v Ev) as E1.
  pose proof (ml_tab Sy sxor s0 H0 R0 N0 (cw2 z a) s1 I1' c v Ev) as E2.
  unfold cw2 in E2. destruct (z c); [|reflexivity]. exfalso. apply Ha.
  apply (XorGroup.sxor_cancel Sy sxor s0 sxor_assoc sxor_0_l sxor_nilp (cw c)). rewrite s0r. congruence.
Qed.

(* the part of ml_finish that follows the injections *)
Definition give_up (s : st) : option (outcome Sy) :=
  let '(b, s') := is_complete s in Some {| o_st := s'; o_ok := b; o_solved := false |}.

Definition cols_of (s : st) : list nat := filter (fun c => negb (is_nil (rows_with s c))) (seq 0 (n s)).
Definition rows_of (s : st) : list nat := filter (fun i => negb (is_nil (nth i (rws s) []))) (seq 0 (r s)).
Definition rowvec (s : st) (cols : list nat) (i : nat) : list bool := map (fun c => mem c (nth i (rws s) [])) cols.
Definition matA (s : st) : list (list bool) :=
  map (rowvec s (cols_of s)) (rows_of s) ++ repeat (repeat false (length (cols_of s))) (r s - length (rows_of s)).
Definition idx_of (s : st) : list nat := rows_of s ++ seq (length (rows_of s)) (r s - length (rows_of s)).
Definition with_ct (s : st) (ct' : list (option Sy)) : st := mk (r s) (n s) (rws s) (unk s) (enc s) ct' (tab s) (fnd s).
Definition nrep_of (s : st) : nat := length (filter (unkt Sy (tab s)) (seq 0 (r s))).

Definition ml_tail (k : nat) (s : st) : option (outcome Sy) :=
  if (length (cols_of s) =? 0) || (length (rows_of s) <? length (cols_of s)) then give_up s else
  let s2 := with_ct s (snd (take_ct (idx_of s) (ct s))) in
  match solve Sy sxor s0 (r s) (length (cols_of s)) (Build_sys (matA s) (fst (take_ct (idx_of s) (ct s)))) with
  | None => give_up s2
  | Some x =>
    Some {| o_st := mk (r s) (n s) (rws s) (unk s) (enc s) (ct s2)
                       (write_back s0 (map (fun i => r s + i) (seq 0 k)) x (nrep_of s) (tab s)) (fnd s);
            o_ok := true; o_solved := true |}
  end.

Lemma ml_finish_eq fuel perm (s : st) :
  ml_finish sxor s0 fuel perm s = match red fuel perm s with None => None | Some s1 => ml_tail (n s - r s) s1 end.
Proof.
  unfold ml_finish, red. destruct (fold_left _ perm _) as [s1|]; [|reflexivity].
  unfold ml_tail, give_up. fold (cols_of s1). fold (rows_of s1).
  destruct ((length (cols_of s1) =? 0) || (length (rows_of s1) <? length (cols_of s1))); [reflexivity|].
  fold (idx_of s1). destruct (take_ct (idx_of s1) (ct s1)) as [b ct']. reflexivity.
Qed.

(* what a correct outcome o of the finish from s is (that no entry of the table is lost or changed is
   StableTables.ml_finish_tab_stable, which needs no hypothesis) *)
Definition Correct (s : st) (o : outcome Sy) : Prop :=
  (forall c v, nth c (tab (o_st o)) None = Some v -> v = cw c) /\
  (o_ok o = true <-> iscomp (o_st o)) /\
  (iscomp (o_st o) <-> Det s).

Lemma Stab_known (s s' : st) : StableTables.Stab (tab s) (tab s') ->
  Kmono s s' /\ forall c, known s c = true -> nth c (tab s') None = nth c (tab s) None.
Proof.
  intros H.
  assert (T : forall c, known s c = true -> nth c (tab s') None = nth c (tab s) None).
  { intros c Hc. destruct (known_inv s c Hc) as (v & E). rewrite E. exact (H c v E). }
  split; [|exact T]. intros c Hc. destruct (known_inv s c Hc) as (v & E). exact (known_some s' c v (H c v E)).
Qed.

(* s1: the state after the injections *)
Section Tail.
Variable s1 : st.
Hypothesis I1 : Inv cw s1.
Notation cols := (cols_of s1).
Notation rows := (rows_of s1).
Notation q := (length (cols_of s1)).

Lemma W1 : WF s1.
Proof. exact (ml_wf Sy sxor s0 H0 R0 N0 cw s1 I1). Qed.
Lemma r1 : r s1 = R0.
Proof. exact (wf_r Sy R0 N0 s1 W1). Qed.
Lemma n1 : n s1 = N0.
Proof. exact (wf_n Sy R0 N0 s1 W1). Qed.

Lemma rows_In i : In i rows <-> i < R0 /\ nth i (rws s1) [] <> [].
Proof.
  unfold rows_of. rewrite filter_In, in_seq, r1. split.
  - intros (A & B). split; [lia|]. intros E. rewrite E in B. discriminate B.
  - intros (A & B). split; [lia|]. destruct (nth i (rws s1) []); [now elim B|reflexivity].
Qed.

Lemma rows_nodup : NoDup rows.
Proof. apply NoDup_filter, seq_NoDup. Qed.

Lemma rows_len : length rows <= R0.
Proof.
  unfold rows_of. rewrite r1.
  pose proof (filter_length_split (fun i => negb (is_nil (nth i (rws s1) []))) (seq 0 R0)) as E.
  rewrite seq_length in E. lia.
Qed.

Lemma cols_In c : In c cols <-> c < N0 /\ exists i, i < R0 /\ In c (nth i (rws s1) []).
Proof.
  unfold cols_of. rewrite filter_In, in_seq, n1.
  assert (RS : forall i, In i (rows_with s1 c) <-> i < R0 /\ In c (nth i (rws s1) [])).
  { intros i. apply (rows_with_spec Sy H0 R0 N0 H0_len H0_nodup H0_range H0_deg R_le_N). exact r1. }
  split.
  - intros (A & B). split; [lia|]. destruct (rows_with s1 c) as [|i l]; [discriminate B|].
    exists i. apply RS. now left.
  - intros (A & i & B). split; [lia|]. apply RS in B. destruct (rows_with s1 c); [destruct B|reflexivity].
Qed.

Lemma cols_nodup : NoDup cols.
Proof. apply NoDup_filter, seq_NoDup. Qed.

Lemma rw_nodup i : i < R0 -> NoDup (nth i (rws s1) []).
Proof. intros Hi. now apply I1. Qed.

Lemma rw_cols i : i < R0 -> incl (nth i (rws s1) []) cols.
Proof.
  intros Hi c Hc. apply cols_In. split; [apply (H0_range i c Hi); now apply I1|].
  exists i. split; [exact Hi|exact Hc].
Qed.

(* the dense system: the non-empty rows over the non-empty columns, then zero rows *)
Lemma matA_length : length (matA s1) = R0.
Proof. unfold matA. rewrite app_length, map_length, repeat_length, r1. pose proof rows_len. lia. Qed.

Lemma getrow_lo k : k < length rows -> getrow (matA s1) k = rowvec s1 cols (nth k rows 0).
Proof.
  intros Hk. unfold getrow, matA. rewrite app_nth1 by (now rewrite map_length).
  apply nth_map_lt. exact Hk.
Qed.

Lemma getrow_hi k : length rows <= k < R0 -> getrow (matA s1) k = repeat false q.
Proof.
  intros Hk. unfold getrow, matA. rewrite app_nth2 by (rewrite map_length; lia). rewrite map_length.
  rewrite (nth_indep _ [] (repeat false q)) by (rewrite repeat_length, r1; lia). apply nth_repeat.
Qed.

Lemma bit_repeat_false m c : bit (repeat false m) c = false.
Proof.
  unfold bit. destruct (Nat.lt_ge_cases c m); [apply nth_repeat|apply nth_overflow; now rewrite repeat_length].
Qed.

Lemma matA_WF (b : list (option Sy)) : length b = R0 -> WFs Sy R0 q (Build_sys (matA s1) b).
Proof using H0_len R_le_N I1. (* the premises of the closed statement, whatever lia picks up below *)
  intros Hb. constructor; cbn [sA sb]; [apply matA_length|exact Hb|].
  intros k Hk. destruct (Nat.lt_ge_cases k (length rows)) as [Hlo|Hhi].
  - rewrite getrow_lo by exact Hlo. apply map_length.
  - rewrite getrow_hi by lia. apply repeat_length.
Qed.

Lemma rhs_length : length (fst (take_ct (idx_of s1) (ct s1))) = R0.
Proof using H0_len R_le_N I1. (* as for matA_WF *)
  rewrite (proj1 (take_ct_length Sy _ _)). unfold idx_of. rewrite app_length, seq_length, r1. pose proof rows_len. lia.
Qed.

Lemma nth_rows k : k < length rows -> nth k rows 0 < R0 /\ nth (nth k rows 0) (rws s1) [] <> [].
Proof. intros Hk. apply rows_In. apply nth_In. exact Hk. Qed.

(* the equations of the non-empty rows, read over the positions of cols *)
Lemma row_sum_Sy i (X : list Sy) : i < R0 -> (forall j, j < q -> nth j X s0 = cw (nth j cols 0)) ->
  dot Sy sxor s0 q (rowvec s1 cols i) X = gs cw (nth i (rws s1) []).
Proof.
  intros Hi HX. unfold dot, xsum, rowvec.
  apply (gs_positions Sy sxor s0 sxor_assoc sxor_comm sxor_0_l cw cols (nth i (rws s1) []) (fun j => nth j X s0)
           cols_nodup (rw_nodup i Hi) (rw_cols i Hi) HX).
Qed.

Lemma row_sum_bool i (Z : nat -> bool) : i < R0 ->
  (forall c, c < N0 -> known s1 c = true -> Z c = false) ->
  bdot q (rowvec s1 cols i) (fun j => Z (nth j cols 0)) = bs Z (nth i H0 []).
Proof.
  intros Hi HZ. rewrite <- (bs_rows cw s1 Z i I1 Hi HZ). unfold bdot.
  rewrite (map_ext (fun c => bit (rowvec s1 cols i) c && Z (nth c cols 0))
                   (fun j => if bit (rowvec s1 cols i) j then Z (nth j cols 0) else false))
    by (intros j; destruct (bit (rowvec s1 cols i) j); reflexivity).
  exact (gs_positions bool xorb false bx_assoc bx_comm bx_0_l Z cols (nth i (rws s1) []) (fun j => Z (nth j cols 0))
           cols_nodup (rw_nodup i Hi) (rw_cols i Hi) (fun j _ => eq_refl)).
Qed.

(* the solver returns the codeword: it satisfies every non-zero row of the dense system *)
Lemma solved_values x : solve Sy sxor s0 R0 q (Build_sys (matA s1) (fst (take_ct (idx_of s1) (ct s1)))) = Some x ->
  forall j, j < q -> nth j x s0 = cw (nth j cols 0).
Proof.
  intros Hs j Hj.
  destruct (solve_sound_nz Sy sxor s0 sxor_assoc sxor_comm sxor_0_l sxor_nilp R0 q _ x (matA_WF _ rhs_length) Hs) as (_ & Hag).
  rewrite (Hag (map cw cols)); [now apply nth_map_lt|clear j Hj|exact Hj].
  intros k Hk Hnz. cbn [sA] in *.
  destruct (Nat.lt_ge_cases k (length rows)) as [Hlo|Hhi].
  - destruct (nth_rows k Hlo) as (Hi & Hne).
    rewrite getrow_lo by exact Hlo. rewrite row_sum_Sy; [|exact Hi|intros j Hj; now apply nth_map_lt].
    unfold DenseSolveProofs.vb, idx_of. cbn [sb]. rewrite (take_ct_prefix Sy _ _ _ _ rows_nodup Hlo).
    symmetry. now apply I1.
  - destruct Hnz as (c & _ & Hc). rewrite getrow_hi, bit_repeat_false in Hc by lia. discriminate Hc.
Qed.

Lemma unkt_known (s : st) c : unkt Sy (tab s) c = negb (known s c).
Proof. unfold unkt, known. destruct (nth c (tab s) None); reflexivity. Qed.

Section WithRC.
Hypothesis HRC : RC s1.

Lemma cols_unknown c : In c cols <-> c < N0 /\ known s1 c = false.
Proof.
  rewrite cols_In. split.
  - intros (Hc & i & Hi & Hin). split; [exact Hc|]. now apply (HRC i c Hi).
  - intros (Hc & Hk). split; [exact Hc|]. destruct (H0_cols c Hc) as (i & Hi & Hin).
    exists i. split; [exact Hi|]. now apply HRC.
Qed.

Lemma cols_char : cols = filter (unkt Sy (tab s1)) (seq 0 N0).
Proof using H0_len H0_nodup H0_range H0_deg R_le_N H0_cols I1 HRC. (* as for matA_WF *)
  unfold cols_of at 1. rewrite n1. apply filter_ext_in. intros c Hc. apply in_seq in Hc.
  rewrite unkt_known. apply eq_true_iff_eq.
  assert (E : In c cols <-> negb (is_nil (rows_with s1 c)) = true).
  { unfold cols_of. rewrite filter_In, in_seq, n1. split; [intros (_ & X); exact X|intros X; split; [lia|exact X]]. }
  rewrite <- E, cols_unknown, negb_true_iff. split; [tauto|]. intros H. split; [lia|exact H].
Qed.

Lemma source_pos j : j < N0 - R0 -> known s1 (R0 + j) = false ->
  let p := nrep_of s1 + length (filter (unkt Sy (tab s1)) (seq R0 j)) in
  p < q /\ nth p cols 0 = R0 + j.
Proof.
  intros Hj Hk p.
  assert (Hp : p = length (filter (unkt Sy (tab s1)) (seq 0 (R0 + j)))).
  { unfold p, nrep_of. rewrite r1, seq_app, filter_app, app_length. reflexivity. }
  rewrite Hp, cols_char. apply filter_seq_pos; [lia|]. now rewrite unkt_known, Hk.
Qed.

(* a kernel vector of the parity-check matrix that vanishes on the sources vanishes on the repairs *)
Lemma stair_zero (Z : nat -> bool) : hker Z -> (forall c, R0 <= c < N0 -> Z c = false) -> forall c, c < R0 -> Z c = false.
Proof.
  intros HZ Hsrc c Hc.
  set (Z' := fun x => if x <? N0 then Z x else false).
  assert (E : Z' c = false).
  { apply (ldpc_encode_unique_proof bool xorb false bx_assoc bx_comm bx_0_l bx_nilp R0 H0 Z' (fun _ => false) H0_stair).
    - intros x Hx. unfold Z'. destruct (Nat.ltb_spec x N0) as [Hlt|Hge]; [apply Hsrc; lia|reflexivity].
    - intros i Hi. unfold rowsum, xsum.
      transitivity (fold_right xorb false (map Z (nth i H0 []))); [|exact (HZ i Hi)]. f_equal. apply map_ext_in.
      intros x Hx. unfold Z'. apply (H0_range i x Hi) in Hx. apply Nat.ltb_lt in Hx. now rewrite Hx.
    - intros i Hi. unfold rowsum, xsum. apply fold_xorb_zero. reflexivity.
    - exact Hc. }
  unfold Z' in E. assert (Hlt : c <? N0 = true) by (apply Nat.ltb_lt; lia). now rewrite Hlt in E.
Qed.

(* a non-trivial kernel vector of the non-empty rows of the dense system refutes Det *)
Lemma kernel_not_det (s : st) (z : nat -> bool) : Kmono s s1 -> nontrivial q z ->
  (forall k, k < length rows -> bdot q (rowvec s1 cols (nth k rows 0)) z = false) -> ~ Det s.
Proof.
  intros KM (j & Hj & Hzj) Hker D.
  set (Z := fun c => if mem c cols then z (idx c cols) else false).
  assert (HZ1 : forall c, c < N0 -> known s1 c = true -> Z c = false).
  { intros c Hc Hk. unfold Z. destruct (mem c cols) eqn:Em; [|reflexivity].
    apply mem_In, cols_unknown in Em. destruct Em as (_ & X). congruence. }
  assert (HZ2 : forall j', j' < q -> Z (nth j' cols 0) = z j').
  { intros j' Hj'. unfold Z. assert (Em : mem (nth j' cols 0) cols = true) by (apply mem_In, nth_In; exact Hj').
    rewrite Em. now rewrite (idx_nth cols cols_nodup j' Hj'). }
  assert (HZ3 : hker Z).
  { intros i Hi. change (bs Z (nth i H0 []) = false). rewrite <- (row_sum_bool i Z Hi HZ1).
    rewrite (bdot_ext q (rowvec s1 cols i) (rowvec s1 cols i) _ z) by (intros c Hc; now rewrite HZ2).
    destruct (nth i (rws s1) []) as [|y l] eqn:Er.
    - apply bdot_zero. intros c Hc. unfold bit, rowvec.
      rewrite (nth_map_lt (fun c0 => mem c0 (nth i (rws s1) [])) cols c 0 false Hc). rewrite Er. reflexivity.
    - assert (Hin : In i rows) by (apply rows_In; split; [exact Hi|rewrite Er; discriminate]).
      destruct (In_nth rows i 0 Hin) as (k & Hk & Ek). rewrite <- Ek. apply Hker. exact Hk. }
  assert (HcN : nth j cols 0 < N0) by (apply cols_unknown, nth_In; exact Hj).
  assert (Hsrc : forall c, R0 <= c < N0 -> Z c = false).
  { apply (D Z HZ3). intros c Hc Hk. apply HZ1; [exact Hc|]. apply KM. exact Hk. }
  assert (E : Z (nth j cols 0) = false).
  { destruct (Nat.lt_ge_cases (nth j cols 0) R0) as [Hlt|Hge]; [apply (stair_zero Z HZ3 Hsrc); exact Hlt|apply Hsrc; lia]. }
  rewrite HZ2 in E by exact Hj. congruence.
Qed.

(* fewer non-empty rows than unknowns: the dense system has a non-trivial kernel vector *)
Lemma few_rows_not_det (s : st) : Kmono s s1 -> length rows < q -> ~ Det s.
Proof.
  intros KM Hlt.
  set (p := length rows). set (A' := map (rowvec s1 cols) rows).
  assert (GR : forall k, k < p -> getrow A' k = rowvec s1 cols (nth k rows 0)).
  { intros k Hk. unfold getrow, A'. apply nth_map_lt. exact Hk. }
  assert (W : WFs bool p q (hsys p A')).
  { apply hsys_WF; [unfold A'; apply map_length|]. intros k Hk. rewrite GR by exact Hk. unfold rowvec. apply map_length. }
  destruct (solve bool xorb false p q (hsys p A')) as [x|] eqn:E.
  - (* a system with fewer rows than columns is not solved: the last column finds no pivot row *)
    exfalso. unfold solve in E.
    destruct (triangularize bool xorb false p (seq 0 q) (hsys p A')) as [y'|] eqn:Et; [|discriminate E].
    pose proof (triangularize_lt bool xorb false p (seq 0 q) _ y' Et (q - 1)) as Hp.
    rewrite in_seq in Hp. lia.
  - destruct (solve_none_kernel bool xorb false p q (hsys p A') W E) as (z & Hnz & Hk).
    apply (kernel_not_det s z KM Hnz). intros k Hkp. rewrite <- GR by exact Hkp. apply (Hk k Hkp).
Qed.

Lemma solve_none_not_det (s : st) (b : list (option Sy)) : Kmono s s1 -> length b = R0 ->
  solve Sy sxor s0 R0 q (Build_sys (matA s1) b) = None -> ~ Det s.
Proof.
  intros KM Hb E.
  destruct (solve_none_kernel Sy sxor s0 R0 q _ (matA_WF b Hb) E) as (z & Hnz & Hk).
  apply (kernel_not_det s z KM Hnz). intros k Hkp. rewrite <- getrow_lo by exact Hkp.
  apply (Hk k). pose proof rows_len. lia.
Qed.

(* the solver succeeds: every kernel vector that vanishes on the known columns vanishes everywhere *)
Lemma solve_some_det (s : st) (b : list (option Sy)) x : length b = R0 ->
  (forall z, hker z -> (forall c, c < N0 -> known s c = true -> z c = false) -> forall c, known s1 c = true -> z c = false) ->
  solve Sy sxor s0 R0 q (Build_sys (matA s1) b) = Some x -> Det s.
Proof.
  intros Hb KD E z Hz Hv c Hc.
  pose proof (KD z Hz Hv) as Hv1.
  destruct (known s1 c) eqn:Hk; [apply Hv1; exact Hk|].
  assert (Hin : In c cols) by (apply cols_unknown; split; [lia|exact Hk]).
  destruct (In_nth cols c 0 Hin) as (j & Hj & Ej).
  assert (Kz : kernel R0 q (matA s1) (fun j => z (nth j cols 0))).
  { intros k Hk'. destruct (Nat.lt_ge_cases k (length rows)) as [Hlo|Hhi].
    - destruct (nth_rows k Hlo) as (Hi & _). rewrite getrow_lo by exact Hlo.
      rewrite (row_sum_bool _ z Hi (fun c' _ Hk'' => Hv1 c' Hk'')). exact (Hz _ Hi).
    - apply bdot_zero. intros c' _. now rewrite getrow_hi, bit_repeat_false by lia. }
  pose proof (solve_some_no_kernel Sy sxor s0 R0 q _ x (matA_WF b Hb) E _ Kz j Hj) as X.
  cbv beta in X. now rewrite Ej in X.
Qed.
End WithRC.

Variable s : st.
Hypothesis KM : Kmono s s1.
Hypothesis KD : forall z, hker z -> (forall c, c < N0 -> known s c = true -> z c = false) ->
                forall c, known s1 c = true -> z c = false.
Hypothesis HX : iscomp s1 \/ RC s1.

Lemma comp_det : iscomp s1 -> Det s.
Proof. intros C z Hz Hv c Hc. apply (KD z Hz Hv). apply C. exact Hc. Qed.

Lemma give_up_final (s2 : st) : WF s2 -> tab s2 = tab s1 -> (Det s -> iscomp s1) ->
  exists o, give_up s2 = Some o /\ Correct s o.
Proof.
  intros W2 Et HD. unfold give_up.
  pose proof (is_complete_spec Sy H0 R0 N0 H0_len R_le_N s2 W2) as X.
  destruct (is_complete s2) as [b sx]. destruct X as (_ & Et' & _ & _ & _ & _ & Hb).
  eexists. split; [reflexivity|]. unfold Correct. cbn [o_st o_ok].
  assert (E : tab sx = tab s1) by congruence.
  assert (C : iscomp sx <-> iscomp s1) by (split; apply iscomp_tab_eq; congruence).
  split; [|split].
  - rewrite E. apply I1.
  - rewrite Hb, C. split; apply iscomp_tab_eq; congruence.
  - rewrite C. split; [apply comp_det|exact HD].
Qed.

Lemma solved_final x ct' :
  (forall j, j < N0 - R0 -> known s1 (R0 + j) = false ->
     nth (nrep_of s1 + length (filter (unkt Sy (tab s1)) (seq R0 j))) x s0 = cw (R0 + j)) ->
  Det s ->
  Correct s {| o_st := mk (r s1) (n s1) (rws s1) (unk s1) (enc s1) ct'
                          (write_back s0 (map (fun i => r s1 + i) (seq 0 (N0 - R0))) x (nrep_of s1) (tab s1)) (fnd s1);
               o_ok := true; o_solved := true |}.
Proof.
  intros VAL D. unfold Correct. cbn [o_st o_ok]. rewrite r1, map_add_seq, Nat.add_0_r.
  set (tb := write_back s0 (seq R0 (N0 - R0)) x (nrep_of s1) (tab s1)).
  assert (Src : forall c, R0 <= c < N0 -> nth c tb None = Some (cw c)).
  { intros c Hc. replace c with (R0 + (c - R0)) by lia. set (j := c - R0). unfold tb.
    destruct (nth (R0 + j) (tab s1) None) as [w|] eqn:Ew.
    - rewrite (StableTables.write_back_tab Sy s0 _ x _ _ _ w Ew). f_equal. exact (ml_tab _ _ _ _ _ _ _ _ I1 _ w Ew).
    - rewrite write_back_unknown; [|rewrite (wf_tab Sy R0 N0 s1 W1); lia|lia|exact Ew].
      f_equal. apply VAL; [lia|]. exact (known_none s1 _ Ew). }
  assert (C : iscomp (mk R0 (n s1) (rws s1) (unk s1) (enc s1) ct' tb (fnd s1))).
  { intros c Hc. apply (known_some _ c (cw c)). exact (Src c Hc). }
  split; [|split; [split; [intros _; exact C|reflexivity]|split; [intros _; exact D|intros _; exact C]]].
  intros c v. cbn [tab]. assert (Hc : R0 <= c < N0 \/ ~ In c (seq R0 (N0 - R0))) by (rewrite in_seq; lia).
  destruct Hc as [Hc|Hc]; [rewrite (Src c Hc); congruence|].
  unfold tb. rewrite write_back_out by exact Hc. apply I1.
Qed.

Lemma tail_spec : exists o, ml_tail (N0 - R0) s1 = Some o /\ Correct s o.
Proof.
  unfold ml_tail.
  destruct ((q =? 0) || (length rows <? q)) eqn:Ec.
  - apply (give_up_final s1 W1 eq_refl).
    destruct HX as [C|HRC]; [intros _; exact C|].
    apply orb_true_iff in Ec. destruct Ec as [Ec|Ec].
    + intros _ c Hc. destruct (known s1 c) eqn:Hk; [reflexivity|]. exfalso.
      apply Nat.eqb_eq in Ec. assert (Hin : In c cols) by (apply (cols_unknown HRC); split; [lia|exact Hk]).
      destruct cols; [destruct Hin|discriminate Ec].
    + intros D. apply Nat.ltb_lt in Ec. destruct (few_rows_not_det HRC s KM Ec D).
  - destruct (solve Sy sxor s0 (r s1) q (Build_sys (matA s1) (fst (take_ct (idx_of s1) (ct s1))))) as [x|] eqn:E;
      rewrite r1 in E.
    + eexists. split; [reflexivity|].
      apply (solved_final x).
      * intros j Hj Hk. destruct HX as [C|HRC]; [rewrite (C (R0 + j)) in Hk by lia; discriminate Hk|].
        destruct (source_pos HRC j Hj Hk) as (Hp & Ep). cbv zeta in Hp, Ep.
        rewrite (solved_values x E _ Hp). now rewrite Ep.
      * destruct HX as [C|HRC]; [exact (comp_det C)|].
        exact (solve_some_det HRC s _ x rhs_length KD E).
    + apply give_up_final.
      * destruct W1 as [Wr Wn Wrws Wunk Wenc Wct Wtab Wfnd Wcur].
        constructor; unfold with_ct; cbn [r n rws unk enc ct tab fnd]; try assumption.
        now rewrite (proj2 (take_ct_length Sy _ _)).
      * reflexivity.
      * destruct HX as [C|HRC]; [intros _; exact C|]. intros D.
        destruct (solve_none_not_det HRC s _ KM rhs_length E D).
Qed.
End Tail.

Theorem finish_spec fuel perm (s : st) :
  Inv cw (prepar s) -> N0 < fuel -> (forall c, c < R0 -> In c perm) ->
  exists o, ml_finish sxor s0 fuel perm s = Some o /\ Correct s o.
Proof.
  intros I0 Hf Hp1.
  destruct (reduce_main fuel perm s I0 Hf Hp1) as (s1 & Hs1 & I1 & KM & _ & X & KD).
  destruct (tail_spec s1 I1 s KM KD X) as (o & Ho & P).
  pose proof (ml_wf Sy sxor s0 H0 R0 N0 cw (prepar s) I0) as W.
  exists o. split; [|exact P].
  rewrite ml_finish_eq, Hs1. change (n (prepar s) - r (prepar s)) with (n s - r s) in *.
  rewrite <- (wf_r Sy R0 N0 (prepar s) W), <- (wf_n Sy R0 N0 (prepar s) W) in Ho. exact Ho.
Qed.

Section Main.
Variable fuel : nat. Variable perm : list nat. Variable s : st.
Hypothesis HPre : Pre cw s.
Hypothesis Hfuel : fuel > N0.
Hypothesis Hperm1 : forall c, c < R0 -> In c perm.
Hypothesis Hperm2 : forall c, In c perm -> c < R0.

Lemma finish_main : exists o, ml_finish sxor s0 fuel perm s = Some o /\ Correct s o.
Proof using All.
  (* Hperm2 stays a premise without being used: an entry of perm that is not a repair column is injected like
     any other column *)
  apply finish_spec; [|lia|exact Hperm1].
  exact (proj1 (prepar_inv Sy sxor s0 H0 R0 N0 H0_nodup cw parity s HPre)).
Qed.

Theorem ml_finish_total : exists o, ml_finish sxor s0 fuel perm s = Some o.
Proof. destruct finish_main as (o & Ho & _). exists o. exact Ho. Qed.

Theorem ml_finish_values o : ml_finish sxor s0 fuel perm s = Some o ->
  (forall c v, nth c (tab (o_st o)) None = Some v -> v = cw c) /\
  Kmono s (o_st o) /\
  (forall c, known s c = true -> nth c (tab (o_st o)) None = nth c (tab s) None).
Proof.
  intros Ho. destruct finish_main as (o' & Ho' & V & _).
  rewrite Ho in Ho'. injection Ho' as <-. split; [exact V|].
  apply Stab_known. exact (StableTables.ml_finish_tab_stable Sy sxor s0 fuel perm s o Ho).
Qed.

Theorem ml_finish_complete_iff o : ml_finish sxor s0 fuel perm s = Some o ->
  (o_ok o = true <-> iscomp (o_st o)) /\ (iscomp (o_st o) <-> Det s).
Proof.
  intros Ho. destruct finish_main as (o' & Ho' & _ & P).
  rewrite Ho in Ho'. injection Ho' as <-. exact P.
Qed.
End Main.

Corollary Det_known_ext (sa sb : st) : (forall c, known sa c = known sb c) -> (Det sa <-> Det sb).
Proof.
  intros E. unfold Det. split; intros D z Hz Hv c Hc; apply (D z Hz); try exact Hc; intros c' Hc' Hk; apply Hv; try exact Hc'.
  - now rewrite <- E.
  - now rewrite E.
Qed.

Corollary ml_finish_outcome_indep fuel1 fuel2 perm1 perm2 (sa sb : st) o1 o2 :
  Pre cw sa -> Pre cw sb -> fuel1 > N0 -> fuel2 > N0 ->
  (forall c, c < R0 -> In c perm1) -> (forall c, In c perm1 -> c < R0) ->
  (forall c, c < R0 -> In c perm2) -> (forall c, In c perm2 -> c < R0) ->
  (forall c, known sa c = known sb c) ->
  ml_finish sxor s0 fuel1 perm1 sa = Some o1 -> ml_finish sxor s0 fuel2 perm2 sb = Some o2 ->
  o_ok o1 = o_ok o2.
Proof.
  intros Pa Pb Hf1 Hf2 A1 A2 B1 B2 E H1 H2.
  destruct (ml_finish_complete_iff fuel1 perm1 sa Pa Hf1 A1 A2 o1 H1) as (X1 & Y1).
  destruct (ml_finish_complete_iff fuel2 perm2 sb Pb Hf2 B1 B2 o2 H2) as (X2 & Y2).
  apply eq_true_iff_eq. rewrite X1, Y1, X2, Y2. now apply Det_known_ext.
Qed.
End MLF.

Print Assumptions ml_finish_total.
Print Assumptions ml_finish_values.
Print Assumptions ml_finish_complete_iff.
Print Assumptions Det_known_ext.
Print Assumptions ml_finish_outcome_indep.
