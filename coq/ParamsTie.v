(* C09: the hand-written decision functions of Params.v ARE what the source says.  gen/GenParams.v is regenerated on every
   run from the parameter checks at the head of of_rs_set_fec_parameters, of_rs_2_m_set_fec_parameters,
   of_ldpc_staircase_set_fec_parameters and of_create_pchck_matrix_rfc5170_compliant (tools/gen_params.py: clang parses, c2gallina
   translates with C's integer semantics: UINT32 wrap-around, the UINT16 / UINT8 / INT32 promotions, undefined behaviour as None).
   For every value the C types can hold, the generated prefix is defined (no undefined behaviour) and returns accept_*. *)
From Coq Require Import ZArith Bool Lia.
From OFV Require Import CSem Params.
From OFV.gen Require Import GenConsts GenParams.
Local Open Scope Z_scope.

Definition is_u32 (z : Z) : Prop := 0 <= z < 4294967296.

Lemma wrapu32_small z : 0 <= z < 4294967296 -> wrapu32 z = z.
Proof. intros H. unfold wrapu32, wrapu. apply Z.mod_small. exact H. Qed.
Lemma wraps32_small z : -2147483648 <= z < 2147483648 -> wraps32 z = z.
Proof. intros H. unfold wraps32, wraps. change (2 ^ (32 - 1)) with 2147483648. change (2 ^ 32) with 4294967296.
  rewrite Z.mod_small by lia. lia. Qed.

(* Reed-Solomon GF(2^8): the limits are the constants of the control block (of_rs_create_codec_instance), read from the headers *)
Theorem rs28_prefix_is_accept : forall k r L, is_u32 k -> is_u32 r -> is_u32 L ->
  rs28_prefix k c_rs28_max_k r L c_rs28_max_n = Some (accept_rs28 k r L).
Proof.
  intros k r L Hk Hr HL. unfold is_u32 in *. unfold rs28_prefix, accept_rs28, bind, c_rs28_max_k, c_rs28_max_n.
  rewrite (wrapu32_small 1) by lia.
  destruct (k >? 255) eqn:E; [reflexivity|].
  destruct ((k <? 1) || (r <? 1) || (L <? 1)); [reflexivity|].
  rewrite wrapu32_small by lia. destruct (r >? 255 - k); reflexivity.
Qed.

(* Reed-Solomon GF(2^m): m is a UINT16; the shift 1 << m is only reached with m = 4 or 8, so it is defined *)
Theorem rs2m_prefix_is_accept : forall m k r L, 0 <= m < 65536 -> is_u32 k -> is_u32 r -> is_u32 L ->
  rs2m_prefix m k r L = Some (accept_rs2m m k r L).
Proof.
  intros m k r L Hm Hk Hr HL. unfold is_u32 in *. unfold rs2m_prefix, accept_rs2m.
  rewrite (wraps32_small m), (wrapu32_small 1) by lia.
  (* for m = 4 and m = 8 the field size (1 << m) - 1 is computed; k, r, L stay symbolic *)
  destruct (Z.eqb_spec m 4) as [->|N4]; [|destruct (Z.eqb_spec m 8) as [->|N8]; [|reflexivity]]; simpl;
    (destruct (k >? _); [reflexivity|]); destruct ((k <? 1) || (r <? 1) || (L <? 1)); reflexivity.
Qed.

(* LDPC-Staircase: N1 is a UINT8, the seed an INT32; the matrix construction is entered with nb_rows = n-k,
   nb_cols = (UINT32)(k + n-k), left_degree = N1, and its own first test completes the decision *)
Theorem ldpc_prefix_is_accept : forall k r L n1 seed, is_u32 k -> is_u32 r -> is_u32 L -> 0 <= n1 < 256 ->
  -2147483648 <= seed < 2147483648 ->
  match ldpc_prefix n1 k r L seed c_ldpc_max_k c_ldpc_max_n with
  | Some true => pchk_prefix r (u32 (k + r)) n1 (wrapu32 seed) = Some (accept_ldpc k r L n1 seed)
  | Some false => accept_ldpc k r L n1 seed = false
  | None => False
  end.
Proof.
  intros k r L n1 seed Hk Hr HL Hn Hs. unfold is_u32 in *.
  unfold ldpc_prefix, pchk_prefix, accept_ldpc, bind, c_ldpc_max_k, c_ldpc_max_n, u32.
  rewrite (wraps32_small n1), (wrapu32_small 1) by lia. unfold wrapu32, wrapu.
  (* the tests of the C, in its order; each failing one falsifies its conjunct of accept_ldpc *)
  destruct (n1 <? 3); [reflexivity|].
  destruct ((k <? 1) || (r <? 1) || (L <? 1)); [reflexivity|].
  destruct ((seed <? 1) || (seed >? 2147483646)); [reflexivity|].
  destruct (k >? 50000); [reflexivity|].
  destruct (r >? 50000); [reflexivity|].
  destruct ((k + r) mod 2 ^ 32 >? 50000); [reflexivity|].
  destruct (n1 >? r); reflexivity.
Qed.

(* hence: of_set_fec_parameters gets past its checks exactly when accept_ldpc says so *)
Corollary ldpc_checks_pass_iff_accept : forall k r L n1 seed, is_u32 k -> is_u32 r -> is_u32 L -> 0 <= n1 < 256 ->
  -2147483648 <= seed < 2147483648 ->
  (ldpc_prefix n1 k r L seed c_ldpc_max_k c_ldpc_max_n = Some true /\ pchk_prefix r (u32 (k + r)) n1 (wrapu32 seed) = Some true)
  <-> accept_ldpc k r L n1 seed = true.
Proof.
  intros k r L n1 seed Hk Hr HL Hn Hs. pose proof (ldpc_prefix_is_accept k r L n1 seed Hk Hr HL Hn Hs) as H.
  destruct (ldpc_prefix n1 k r L seed c_ldpc_max_k c_ldpc_max_n) as [[|]|]; [| |contradiction].
  - rewrite H. split; [intros (_ & E); congruence|intros E; split; [reflexivity|congruence]].
  - rewrite H. split; [intros (E & _); discriminate|discriminate].
Qed.

(* 2D parity: only k and the (wrapping) total are tested here; the shape test is the matrix construction's (Pchk2D.create2d) *)
Theorem p2d_prefix_is_limits : forall k r L, is_u32 k -> is_u32 r ->
  p2d_prefix k c_p2d_max_k r c_p2d_max_n L = Some ((k <=? c_p2d_max_k) && (u32 (k + r) <=? c_p2d_max_n)).
Proof.
  intros k r L Hk Hr. unfold p2d_prefix, bind, c_p2d_max_k, c_p2d_max_n, u32, wrapu32, wrapu.
  rewrite !Z.gtb_ltb, !Z.leb_antisym. destruct (16 <? k); [reflexivity|]. destruct (24 <? _); reflexivity.
Qed.

Print Assumptions rs28_prefix_is_accept.
Print Assumptions rs2m_prefix_is_accept.
Print Assumptions ldpc_checks_pass_iff_accept.
Print Assumptions p2d_prefix_is_limits.
