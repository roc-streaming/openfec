(* C12 instantiated: configuring an LDPC-Staircase session (the only API step that reads the shared
   PRNG state) is local in the sense of Interleave.v, because set_fec_parameters refuses seeds the
   generator would not accept (C09) and the construction ignores the state for accepted ones (C05). *)
From Coq Require Import ZArith Arith List Bool Lia.
From OFV Require Import Sparse Prng Pchk PchkProofs.
Import ListNotations.

Record cfg := { c_k : nat; c_r : nat; c_n1 : nat; c_seed : Z }.
(* global state = of_seed; session state = the configured matrix (None before / when refused); 2147483646 = PM_P - 1 *)
Definition ldpc_configure (fuel : nat) (g : Z) (_ : option (smat * bool)) (o : cfg) : Z * option (smat * bool) * bool :=
  if ((1 <=? c_seed o) && (c_seed o <=? 2147483646))%Z then
    match pchk fuel (c_k o) (c_r o) (c_n1 o) (c_seed o) g with
    | Some (m, extra, g') => (g', Some (m, extra), true)
    | None => (g, None, false)
    end
  else (g, None, false).

Lemma ldpc_configure_local fuel : forall g g' s o,
  snd (fst (ldpc_configure fuel g s o)) = snd (fst (ldpc_configure fuel g' s o)) /\
  snd (ldpc_configure fuel g s o) = snd (ldpc_configure fuel g' s o).
Proof.
  intros g g' s o. unfold ldpc_configure.
  destruct ((1 <=? c_seed o)%Z && (c_seed o <=? 2147483646)%Z) eqn:E; [|auto].
  apply andb_true_iff in E as (E1 & E2). apply Z.leb_le in E1. apply Z.leb_le in E2.
  rewrite (pchk_ignores_global_state_proof fuel (c_k o) (c_r o) (c_n1 o) (c_seed o) g g') by (unfold PM_P; lia).
  destruct (pchk fuel (c_k o) (c_r o) (c_n1 o) (c_seed o) g') as [[[m extra] g2]|]; auto.
Qed.
