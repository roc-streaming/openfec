(* PchkShape's theorems that need the generator's range, for Pchk.pchk with the PRNG hypotheses DISCHARGED from PrngProofs:
   state invariant 1 <= g <= 2^31-2 (rand_is_park_miller_proof), result below maxv for maxv <= 2^24
   (scale_range_proof), seeding (srand_range_proof).  Importing PrngProofs brings the axioms of the
   Reals library (they are already in the definition of of_rfc5170_rand, hence of Pchk.pchk).
   *_c : premises on the previous state g0 and the seed in the general form (seed below 2^64, and g0
         or the seed in 1..2^31-2);  *_s : premise (1 <= seed <= PM_P - 1) only, nothing on g0. *)
From Coq Require Import ZArith Arith List Bool Lia.
From OFV Require Import CSem Sparse SparseProofs Prng PrngProofs Pchk PchkShape.
From OFV Require LdpcEnc LastNull.
From OFV.gen Require Import GenPrng.
Import ListNotations.

Definition pgood (g : Z) : Prop := (1 <= g <= PM_P - 1)%Z.
Definition pokmax (v : nat) : Prop := (Z.of_nat v <= 2 ^ 24)%Z.
Definition ppre (g0 seed : Z) : Prop := (0 <= seed < 2 ^ 64)%Z /\ (pgood g0 \/ pgood seed).

Lemma prng_rnd_good : forall g maxv x g', pgood g -> rnd g maxv = Some (x, g') -> pgood g'.
Proof.
  intros g maxv x g' Hg. unfold rnd.
  destruct (rand_is_park_miller_proof g (Z.of_nat maxv) Hg) as (E & Hn). rewrite E.
  destruct (scale_ref (pm_next g) (Z.of_nat maxv)) as [o|]; cbn [bind]; [|discriminate].
  intros H. inversion H; subst. exact Hn.
Qed.

Lemma prng_rnd_range : forall g maxv x g', pgood g -> pokmax maxv -> 1 <= maxv -> rnd g maxv = Some (x, g') -> x < maxv.
Proof.
  intros g maxv x g' Hg Ho Hm. unfold rnd.
  destruct (rand_is_park_miller_proof g (Z.of_nat maxv) Hg) as (E & Hn). rewrite E.
  destruct (scale_range_proof (pm_next g) (Z.of_nat maxv) Hn) as (o & Eo & Hr).
  { unfold pokmax in Ho. lia. }
  rewrite Eo. cbn [bind]. intros H. inversion H; subst. apply Nat2Z.inj_lt. rewrite Z2Nat.id; lia.
Qed.

Lemma prng_srand_good : forall g0 seed g, ppre g0 seed -> of_rfc5170_srand g0 seed = Some g -> pgood g.
Proof.
  intros g0 seed g (Hs & Hg). rewrite srand_range_proof by exact Hs.
  intros H. inversion H; subst. unfold pgood, PM_P in *.
  destruct (Z.leb_spec 1 seed), (Z.leb_spec seed 2147483646); cbn [andb]; lia.
Qed.

Lemma seed_ppre g0 seed : (1 <= seed <= PM_P - 1)%Z -> ppre g0 seed.
Proof. intros Hs. unfold ppre, pgood, PM_P in *. split; [lia|right; exact Hs]. Qed.

Section C.
Context {fuel k r n1 : nat} {seed g0 : Z} {m : smat} {extra : bool} {g : Z}.
Hypothesis k_pos : 1 <= k.
Hypothesis r_pos : 1 <= r.
Hypothesis k_max : (Z.of_nat k <= 2 ^ 24)%Z.
Hypothesis r_max : (Z.of_nat r <= 2 ^ 24)%Z.
Hypothesis seed_u64 : (0 <= seed < 2 ^ 64)%Z.
Hypothesis state_or_seed : (1 <= g0 <= PM_P - 1)%Z \/ (1 <= seed <= PM_P - 1)%Z.
Hypothesis Hpchk : pchk fuel k r n1 seed g0 = Some (m, extra, g).

Let Hpre : ppre g0 seed := conj seed_u64 state_or_seed.

Theorem pchk_source_columns_c : forall c, r <= c < k + r ->
  n1 <= LastNull.colcount (rws m) c /\ (extra = false -> LastNull.colcount (rws m) c = n1).
Proof. exact (gpchk_source_columns rnd of_rfc5170_srand k_pos r_pos Hpchk pgood pokmax ppre prng_rnd_good prng_rnd_range prng_srand_good Hpre k_max r_max). Qed.

Theorem pchk_cols_covered_c : 1 <= n1 -> forall c, c < k + r -> exists i, i < r /\ In c (nth i (rws m) []).
Proof. exact (gpchk_cols_covered rnd of_rfc5170_srand k_pos r_pos Hpchk pgood pokmax ppre prng_rnd_good prng_rnd_range prng_srand_good Hpre k_max r_max). Qed.

Theorem pchk_row_degree_exact_c : forall i, i < r ->
  rowdeg k + (if i =? 0 then 1 else 2) <= length (nth i (rws m) []).
Proof. exact (gpchk_row_degree_exact rnd of_rfc5170_srand k_pos r_pos Hpchk pgood pokmax ppre prng_rnd_good prng_rnd_range prng_srand_good Hpre k_max r_max). Qed.

Theorem pchk_row_degree_c : forall i, i < r -> 2 <= length (nth i (rws m) []).
Proof. exact (gpchk_row_degree rnd of_rfc5170_srand k_pos r_pos Hpchk pgood pokmax ppre prng_rnd_good prng_rnd_range prng_srand_good Hpre k_max r_max). Qed.

Theorem last_null_claim_premises_c : extra = false -> Nat.even n1 = true ->
  (forall row, In row (rws m) -> NoDup row /\ forall c, In c row -> c < k + r) /\
  (forall c, r <= c < k + r -> Nat.even (LastNull.colcount (rws m) c) = true) /\
  (forall c, c < r - 1 -> LastNull.colcount (rws m) c = 2) /\
  LastNull.colcount (rws m) (r - 1) = 1.
Proof. exact (glast_null_claim_premises rnd of_rfc5170_srand k_pos r_pos Hpchk pgood pokmax ppre prng_rnd_good prng_rnd_range prng_srand_good Hpre k_max r_max). Qed.

Theorem pchk_last_repair_null_c : last_symbol_null_claim n1 extra = true ->
  forall (Sy : Type) (sxor : Sy -> Sy -> Sy) (s0 : Sy),
  (forall a b c, sxor a (sxor b c) = sxor (sxor a b) c) -> (forall a b, sxor a b = sxor b a) ->
  (forall a, sxor s0 a = a) -> (forall a, sxor a a = s0) ->
  forall cw : nat -> Sy, (forall row, In row (rws m) -> LastNull.rowsum Sy sxor s0 cw row = s0) ->
  cw (r - 1) = s0.
Proof. exact (gpchk_last_repair_null rnd of_rfc5170_srand k_pos r_pos Hpchk pgood pokmax ppre prng_rnd_good prng_rnd_range prng_srand_good Hpre k_max r_max). Qed.
End C.

Section S.
Variables (fuel k r n1 : nat) (seed g0 : Z) (m : smat) (extra : bool) (g : Z).
Hypothesis k_pos : 1 <= k.
Hypothesis r_pos : 1 <= r.
Hypothesis k_max : (Z.of_nat k <= 2 ^ 24)%Z.
Hypothesis r_max : (Z.of_nat r <= 2 ^ 24)%Z.
Hypothesis seed_ok : (1 <= seed <= PM_P - 1)%Z.
Hypothesis Hpchk : pchk fuel k r n1 seed g0 = Some (m, extra, g).

Let Hu64 : (0 <= seed < 2 ^ 64)%Z.
Proof. unfold PM_P in seed_ok. lia. Qed.
Let Hor : (1 <= g0 <= PM_P - 1)%Z \/ (1 <= seed <= PM_P - 1)%Z := or_intror seed_ok.

Theorem pchk_source_columns_s : forall c, r <= c < k + r ->
  n1 <= LastNull.colcount (rws m) c /\ (extra = false -> LastNull.colcount (rws m) c = n1).
Proof. exact (pchk_source_columns_c k_pos r_pos k_max r_max Hu64 Hor Hpchk). Qed.

Theorem pchk_cols_covered_s : 1 <= n1 -> forall c, c < k + r -> exists i, i < r /\ In c (nth i (rws m) []).
Proof. exact (pchk_cols_covered_c k_pos r_pos k_max r_max Hu64 Hor Hpchk). Qed.

Theorem pchk_row_degree_exact_s : forall i, i < r ->
  rowdeg k + (if i =? 0 then 1 else 2) <= length (nth i (rws m) []).
Proof. exact (pchk_row_degree_exact_c k_pos r_pos k_max r_max Hu64 Hor Hpchk). Qed.

Theorem pchk_row_degree_s : forall i, i < r -> 2 <= length (nth i (rws m) []).
Proof. exact (pchk_row_degree_c k_pos r_pos k_max r_max Hu64 Hor Hpchk). Qed.

Theorem last_null_claim_premises_s : extra = false -> Nat.even n1 = true ->
  (forall row, In row (rws m) -> NoDup row /\ forall c, In c row -> c < k + r) /\
  (forall c, r <= c < k + r -> Nat.even (LastNull.colcount (rws m) c) = true) /\
  (forall c, c < r - 1 -> LastNull.colcount (rws m) c = 2) /\
  LastNull.colcount (rws m) (r - 1) = 1.
Proof. exact (last_null_claim_premises_c k_pos r_pos k_max r_max Hu64 Hor Hpchk). Qed.

Theorem pchk_last_repair_null_s : last_symbol_null_claim n1 extra = true ->
  forall (Sy : Type) (sxor : Sy -> Sy -> Sy) (s0 : Sy),
  (forall a b c, sxor a (sxor b c) = sxor (sxor a b) c) -> (forall a b, sxor a b = sxor b a) ->
  (forall a, sxor s0 a = a) -> (forall a, sxor a a = s0) ->
  forall cw : nat -> Sy, (forall row, In row (rws m) -> LastNull.rowsum Sy sxor s0 cw row = s0) ->
  cw (r - 1) = s0.
Proof. exact (pchk_last_repair_null_c k_pos r_pos k_max r_max Hu64 Hor Hpchk). Qed.

(* everything the decoder theorems ask of H := rws m, R := r, N := k + r *)
Theorem pchk_decoder_premises : 1 <= n1 ->
  length (rws m) = r /\
  (forall i, i < r -> NoDup (nth i (rws m) [])) /\
  (forall i c, i < r -> In c (nth i (rws m) []) -> c < k + r) /\
  (forall i, i < r -> 2 <= length (nth i (rws m) [])) /\
  r <= k + r /\
  (forall c, c < k + r -> exists i, i < r /\ In c (nth i (rws m) [])) /\
  LdpcEnc.stair r (rws m).
Proof.
  intros Hn1. destruct (pchk_rows fuel k r n1 seed g0 m extra g k_pos r_pos Hpchk) as (Hlen & Hrows).
  split; [exact Hlen|]. split; [intros i Hi; apply (Hrows i Hi)|].
  split; [intros i c Hi; apply (Hrows i Hi)|]. split; [exact pchk_row_degree_s|].
  split; [lia|]. split; [exact (pchk_cols_covered_s Hn1)|].
  exact (pchk_stair fuel k r n1 seed g0 m extra g k_pos r_pos Hpchk).
Qed.
End S.

Print Assumptions pchk_source_columns_c.
Print Assumptions pchk_last_repair_null_s.
Print Assumptions pchk_decoder_premises.
