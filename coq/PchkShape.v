(* Structure of the LDPC-Staircase parity-check matrix built by the model Pchk.pchk, for EVERY outcome of the
   pseudo-random choices.  Everything is proved for gpchk, the construction with the two PRNG functions as parameters:
     wf, rows, stair, repair_columns, repair_colcount, last_repair_colcount: for any two functions;
     source_columns, cols_covered, row_degree(_exact), last_repair_null, and glast_null_claim_premises: under
     three hypotheses on the generator (a state invariant is kept, the result is below maxv, seeding establishes the
     invariant).  The range is really needed there: an out-of-range row or column would make of_mod2sparse_insert a
     no-op in the model.
   The pchk_* theorems (and last_null_claim_premises) are the instances at Pchk.rnd and of_rfc5170_srand.  Those of the second group assume
     rnd_range : forall g maxv x g', 1 <= maxv -> rnd g maxv = Some (x, g') -> x < maxv
   for every state and every maxv, which is more than PrngProofs proves (state in 1..2^31-2, maxv <= 2^24):
   the instances whose hypotheses PrngProofs does discharge (seed below 2^64) are those of PchkConcrete.v.
   The proofs use no axiom: the gpchk_* theorems are closed under the global context.  The statements
   about Pchk.pchk inherit the axioms of the Reals library from the DEFINITION of of_rfc5170_rand
   (CSem's double arithmetic on Flocq), as Print Assumptions pchk shows; nothing else. *)
From Coq Require Import ZArith Arith List Bool Lia.
From OFV Require Import ListAux CSem Sparse SparseProofs Pchk.
From OFV Require LdpcEnc LastNull.
From OFV.gen Require Import GenPrng.
Import ListNotations.

(* generic facts on lists *)

Lemma nodup_same_length (a b : list nat) : NoDup a -> NoDup b -> (forall x, In x a <-> In x b) -> length a = length b.
Proof.
  intros Ha Hb Hiff. apply Nat.le_antisymm; apply NoDup_incl_length; auto; intros x Hx; apply Hiff; exact Hx.
Qed.

Lemma nodup_two (l : list nat) x y : NoDup l -> In x l -> In y l -> x <> y -> 2 <= length l.
Proof.
  intros Hnd Hx Hy Hne. destruct l as [|a [|b t]]; cbn [length]; [inversion Hx| |lia].
  destruct Hx as [<-|[]]. destruct Hy as [<-|[]]. congruence.
Qed.

Lemma flen_map {A B} (f : B -> bool) (h : A -> B) : forall l,
  length (filter f (map h l)) = length (filter (fun x => f (h x)) l).
Proof.
  induction l as [|x l IH]; [reflexivity|]. cbn [map filter]. destruct (f (h x)); cbn [length]; rewrite IH; reflexivity.
Qed.

Lemma flen_index {A} (p : A -> bool) (d : A) : forall l,
  length (filter p l) = length (filter (fun i => p (nth i l d)) (seq 0 (length l))).
Proof.
  induction l as [|a t IH]; [reflexivity|].
  cbn [length seq filter]. rewrite <- seq_shift. cbn [nth].
  destruct (p a); cbn [length]; rewrite flen_map; cbn [nth]; rewrite IH; reflexivity.
Qed.

Lemma in_upd (x : nat) (u : list nat) i y : In y (upd u i x) -> y = x \/ In y u.
Proof.
  intros Hy. destruct (In_nth _ _ 0 Hy) as (k & Hk & <-). rewrite upd_length in Hk. rewrite nth_upd.
  destruct (_ && _); [now left|right; apply nth_In, Hk].
Qed.

Definition MInv (r n : nat) (m : smat) : Prop := WF m /\ nr m = r /\ nc m = n.

Lemma MInv_rows r n m : MInv r n m -> length (rws m) = r.
Proof. intros (W & <- & _). apply (wf_rl m W). Qed.

Lemma has_range m i c : WF m -> has m i c = true -> i < nr m /\ c < nc m.
Proof. intros W. apply (wf_row m i W). Qed.

Lemma row_nodup m i : WF m -> NoDup (nth i (rws m) []).
Proof. intros W. apply ssorted_nodup, (wf_row m i W). Qed.

Lemma row_len_mono m m' i : WF m -> (forall c, has m i c = true -> has m' i c = true) ->
  length (nth i (rws m) []) <= length (nth i (rws m') []).
Proof.
  intros W Hm. apply NoDup_incl_length; [apply row_nodup; exact W|].
  intros c Hc. apply has_In. apply Hm. apply has_In. exact Hc.
Qed.

Definition colw (m : smat) (c : nat) : nat := length (filter (fun i => has m i c) (seq 0 (nr m))).

Lemma colw_eq m c l : NoDup l -> (forall i, In i l <-> i < nr m /\ has m i c = true) -> colw m c = length l.
Proof.
  intros Hnd Hl. apply nodup_same_length; [apply NoDup_filter, seq_NoDup|exact Hnd|].
  intros i. rewrite filter_In, in_seq, Hl. intuition lia.
Qed.

Lemma colw_le r n m m' c : MInv r n m -> MInv r n m' ->
  (forall i, has m i c = true -> has m' i c = true) -> colw m c <= colw m' c.
Proof.
  intros (_ & Er & _) (_ & Er' & _) Hh. unfold colw. rewrite Er, <- Er'. apply filter_length_mono. intros i _. apply Hh.
Qed.

Lemma colw_ext r n m m' c : MInv r n m -> MInv r n m' -> (forall i, has m i c = has m' i c) -> colw m c = colw m' c.
Proof. intros (_ & Er & _) (_ & Er' & _) Hh. unfold colw. rewrite Er, <- Er'. f_equal. apply filter_ext_in. intros i _. apply Hh. Qed.

Lemma colcount_colw m c : WF m -> LastNull.colcount (rws m) c = colw m c.
Proof.
  intros W. unfold LastNull.colcount, colw. rewrite (flen_index _ []). rewrite (wf_rl m W). reflexivity.
Qed.

(* one insertion, whatever the indices *)
Lemma step_ins r n m i j : MInv r n m ->
  MInv r n (ins m i j) /\
  (forall i' c, c <> j -> has (ins m i j) i' c = has m i' c) /\
  (forall i' c, has m i' c = true -> has (ins m i j) i' c = true) /\
  (i < r -> j < n -> forall i' c, has (ins m i j) i' c = true <-> has m i' c = true \/ (i' = i /\ c = j)) /\
  (i < r -> j < n -> has m i j = false -> colw (ins m i j) j = S (colw m j)).
Proof.
  intros (W & <- & <-). destruct (insert_adds m i j W) as (W' & Er & Ec & Hh). fold (ins m i j) in *.
  split; [split; [exact W'|split; assumption]|].
  split; [intros i' c Hne; rewrite Hh; destruct (Nat.eqb_spec c j); [contradiction|]; now rewrite andb_false_r, orb_false_r|].
  split; [intros i' c H; rewrite Hh, H; reflexivity|].
  assert (Hin : i < nr m -> j < nc m -> forall i' c, has (ins m i j) i' c = true <-> has m i' c = true \/ (i' = i /\ c = j)).
  { intros Hi Hj i' c. apply Nat.ltb_lt in Hi, Hj. rewrite Hh, Hi, Hj, andb_true_r, orb_true_iff, andb_true_iff, !Nat.eqb_eq. reflexivity. }
  split; [exact Hin|]. intros Hi Hj Hf. apply (colw_eq _ _ (i :: filter (fun x => has m x j) (seq 0 (nr m)))).
  - constructor; [rewrite filter_In, Hf; intros (_ & E); discriminate E|apply NoDup_filter, seq_NoDup].
  - intros x. cbn [In]. rewrite filter_In, in_seq, (Hin Hi Hj), Er. intuition (subst; lia).
Qed.

Lemma ins_MInv r n m i j : MInv r n m -> MInv r n (ins m i j).
Proof. intros HM. apply (step_ins r n m i j HM). Qed.

Lemma found_false r n m i j : MInv r n m -> i < r -> j < n -> found m i j = false -> has m i j = false.
Proof. intros (W & <- & <-) Hi Hj. unfold found. rewrite (find_spec m i j W Hi Hj). auto. Qed.

(* the shuffled list of candidate rows only ever holds row numbers *)
Definition uok (r : nat) (u : list nat) : Prop := forall x, In x u -> x < r.

Lemma uok_nth r u h : 1 <= r -> uok r u -> nth h u 0 < r.
Proof. intros Hr Hu. destruct (nth_in_or_default h u 0) as [Hin|E]; [apply Hu; exact Hin|rewrite E; lia]. Qed.

Lemma uok_upd r u i x : uok r u -> x < r -> uok r (upd u i x).
Proof. intros Hu Hx y Hy. apply in_upd in Hy as [->|Hy]; [exact Hx|apply Hu; exact Hy]. Qed.

Lemma uok_init r len : 1 <= r -> uok r (map (fun h => h mod r) (seq 0 len)).
Proof. intros Hr x Hx. apply in_map_iff in Hx as (h & <- & _). apply Nat.mod_upper_bound. lia. Qed.

(* the staircase is a bulk insertion: (0, 0), then for each further row its diagonal entry and the one before it *)
Lemma staircase_insert_all r m :
  staircase r m = insert_all m ((0, 0) :: flat_map (fun i => [(i, i); (i, i - 1)]) (seq 1 (r - 1))).
Proof.
  unfold staircase, insert_all. cbn [fold_left fst snd]. fold (ins m 0 0). generalize (ins m 0 0) as acc.
  induction (seq 1 (r - 1)) as [|a l IH]; intros acc; [reflexivity|apply IH].
Qed.

Lemma staircase_spec r n m : 1 <= r -> r <= n -> MInv r n m ->
  MInv r n (staircase r m) /\
  forall i c, has (staircase r m) i c = true <-> has m i c = true \/ (i < r /\ (c = i \/ S c = i)).
Proof.
  intros Hr Hrn (W & <- & <-).
  assert (A : adds m (staircase (nr m) m) (fun i c => (i <? nr m) && ((c =? i) || (S c =? i)))).
  { rewrite staircase_insert_all. apply insert_all_set; [exact W| |].
    - intros i c. rewrite andb_true_iff, orb_true_iff, Nat.ltb_lt, !Nat.eqb_eq. cbn [In]. rewrite in_flat_map. split.
      + intros [E|(a & Ha & Hin)]; [inversion E; lia|]. apply in_seq in Ha. destruct Hin as [E|[E|[]]]; inversion E; lia.
      + intros (Hi & Hc). destruct i as [|i]; [left; f_equal; lia|]. right. exists (S i). split; [apply in_seq; lia|].
        destruct Hc as [->|E]; [now left|right; left; f_equal; lia].
    - intros i c H. apply andb_true_iff in H as (Hi & Hc). apply Nat.ltb_lt in Hi. apply orb_true_iff in Hc.
      rewrite !Nat.eqb_eq in Hc. lia. }
  destruct A as (W' & Er & Ec & Hh). split; [split; [exact W'|split; assumption]|]. intros i c.
  rewrite Hh, orb_true_iff, andb_true_iff, orb_true_iff, Nat.ltb_lt, !Nat.eqb_eq. reflexivity.
Qed.

(* Pchk.pchk is built on the generated of_rfc5170_rand, whose *definition* (double arithmetic of CSem,
   on top of Flocq and the real numbers) already depends on the axioms of the Reals library: every
   statement that mentions Pchk.pchk inherits them.  The model is therefore restated here with the
   two PRNG functions as parameters (same text as Pchk.v; pchk_is_gpchk below: the instance at
   Pchk.rnd / of_rfc5170_srand IS Pchk.pchk, by conversion), and everything is proved for the
   parametric construction, closed under the global context. *)
Section PRNG.
Variable rndf : Z -> nat -> option (nat * Z).
Variable srandf : Z -> Z -> option Z.

Fixpoint gpick_u (fuel : nat) (m : smat) (u : list nat) (j t len : nat) (g : Z) : option (nat * Z) :=
  match fuel with O => None | S f =>
    match rndf g (len - t) with None => None | Some (x, g') =>
      let i := t + x in if found m (nth i u 0) j then gpick_u f m u j t len g' else Some (i, g') end end.
Fixpoint gpick_row (fuel : nat) (m : smat) (j r : nat) (g : Z) : option (nat * Z) :=
  match fuel with O => None | S f =>
    match rndf g r with None => None | Some (i, g') => if found m i j then gpick_row f m j r g' else Some (i, g') end end.

Fixpoint gfill_col (fuel : nat) (cnt : nat) (j r len : nat) (s : lstate) : option lstate :=
  match cnt with O => Some s | S c =>
    let i := scan (lm s) (lu s) j (lt s) (len - lt s) in
    if i <? len then
      match gpick_u fuel (lm s) (lu s) j (lt s) len (lg s) with None => None | Some (i', g') =>
        gfill_col fuel c j r len {| lm := ins (lm s) (nth i' (lu s) 0) j; lu := upd (lu s) i' (nth (lt s) (lu s) 0); lt := S (lt s); lg := g' |} end
    else
      match gpick_row fuel (lm s) j r (lg s) with None => None | Some (i', g') =>
        gfill_col fuel c j r len {| lm := ins (lm s) i' j; lu := lu s; lt := lt s; lg := g' |} end
  end.

Fixpoint gfill_cols (fuel : nat) (cols : list nat) (n1 r len : nat) (s : lstate) : option lstate :=
  match cols with [] => Some s | j :: rest =>
    match gfill_col fuel n1 j r len s with None => None | Some s' => gfill_cols fuel rest n1 r len s' end end.

Fixpoint gpick_other (fuel : nat) (k r avoid : nat) (g : Z) : option (nat * Z) :=
  match fuel with O => None | S f =>
    match rndf g k with None => None | Some (x, g') => if x + r =? avoid then gpick_other f k r avoid g' else Some (x + r, g') end end.

Fixpoint gextra_rows (fuel : nat) (rows : list nat) (k r : nat) (m : smat) (g : Z) (added : nat) : option (smat * Z * nat) :=
  match rows with [] => Some (m, g, added) | i :: rest =>
    let step1 := match nth i (rws m) [] with
                 | [] => match rndf g k with None => None | Some (x, g') => Some (ins m i (x + r), g', S added) end
                 | _ => Some (m, g, added) end in
    match step1 with None => None | Some (m1, g1, a1) =>
      match nth i (rws m1) [] with
      | [e] => if 1 <? k then
                 match gpick_other fuel k r e g1 with None => None | Some (j, g2) => gextra_rows fuel rest k r (ins m1 i j) g2 (S a1) end
               else gextra_rows fuel rest k r m1 g1 a1
      | _ => gextra_rows fuel rest k r m1 g1 a1
      end
    end
  end.

Definition gpchk (fuel : nat) (k r n1 : nat) (seed : Z) (g0 : Z) : option (smat * bool * Z) :=
  if r <? n1 then None else
  match srandf g0 seed with None => None | Some g =>
    let n := k + r in let len := n1 * k in
    let u := map (fun h => h mod r) (seq 0 len) in
    match gfill_cols fuel (seq r k) n1 r len {| lm := s_allocate r n; lu := u; lt := 0; lg := g |} with None => None | Some s =>
      match gextra_rows fuel (seq 0 r) k r (lm s) (lg s) 0 with None => None | Some (m, g', added) =>
        Some (staircase r m, 1 <=? added, g') end end end.

Section Spec.
(* good: the invariant of the generator state; okmax: the arguments for which the range is known;
   pre: what is asked of (previous state, seed) for the seeding to establish the invariant.
   Nothing else is assumed about the generator. *)
Variable good : Z -> Prop.
Variable okmax : nat -> Prop.
Variable pre : Z -> Z -> Prop.
Hypothesis rnd_good : forall g maxv x g', good g -> rndf g maxv = Some (x, g') -> good g'.
Hypothesis rnd_range : forall g maxv x g', good g -> okmax maxv -> 1 <= maxv -> rndf g maxv = Some (x, g') -> x < maxv.
Hypothesis srand_good : forall g0 seed g, pre g0 seed -> srandf g0 seed = Some g -> good g.

Lemma pick_u_spec m u j t len : forall fuel g i g', gpick_u fuel m u j t len g = Some (i, g') ->
  found m (nth i u 0) j = false /\ (good g -> good g').
Proof.
  induction fuel as [|f IH]; intros g i g' Hp; cbn [gpick_u] in Hp; [discriminate|].
  destruct (rndf g (len - t)) as [[x g1]|] eqn:Er; [|discriminate]. cbv zeta in Hp.
  destruct (found m (nth (t + x) u 0) j) eqn:Ef.
  - destruct (IH _ _ _ Hp) as (A & B). split; [exact A|]. intros Hg. apply B. exact (rnd_good _ _ _ _ Hg Er).
  - inversion Hp; subst. split; [exact Ef|]. intros Hg. exact (rnd_good _ _ _ _ Hg Er).
Qed.

Lemma pick_row_spec m j r : forall fuel g i g', gpick_row fuel m j r g = Some (i, g') ->
  found m i j = false /\ (good g -> good g' /\ (okmax r -> 1 <= r -> i < r)).
Proof.
  induction fuel as [|f IH]; intros g i g' Hp; cbn [gpick_row] in Hp; [discriminate|].
  destruct (rndf g r) as [[x g1]|] eqn:Er; [|discriminate].
  destruct (found m x j) eqn:Ef.
  - destruct (IH _ _ _ Hp) as (A & B). split; [exact A|]. intros Hg. apply B. exact (rnd_good _ _ _ _ Hg Er).
  - inversion Hp; subst. split; [exact Ef|]. intros Hg. split; [exact (rnd_good _ _ _ _ Hg Er)|].
    intros Ho Hr. exact (rnd_range _ _ _ _ Hg Ho Hr Er).
Qed.

Lemma pick_other_spec k r avoid : forall fuel g j g', gpick_other fuel k r avoid g = Some (j, g') ->
  j <> avoid /\ r <= j /\ (good g -> good g' /\ (okmax k -> 1 <= k -> j < k + r)).
Proof.
  induction fuel as [|f IH]; intros g j g' Hp; cbn [gpick_other] in Hp; [discriminate|].
  destruct (rndf g k) as [[x g1]|] eqn:Er; [|discriminate].
  destruct (Nat.eqb_spec (x + r) avoid) as [E|Hne].
  - destruct (IH _ _ _ Hp) as (A & B & C). split; [exact A|]. split; [exact B|].
    intros Hg. apply C. exact (rnd_good _ _ _ _ Hg Er).
  - inversion Hp; subst. split; [exact Hne|]. split; [lia|]. intros Hg. split; [exact (rnd_good _ _ _ _ Hg Er)|].
    intros Ho Hk. pose proof (rnd_range _ _ _ _ Hg Ho Hk Er). lia.
Qed.

Lemma fill_col_spec fuel j r n len : 1 <= r -> j < n -> forall cnt s s',
  gfill_col fuel cnt j r len s = Some s' -> MInv r n (lm s) -> uok r (lu s) ->
  MInv r n (lm s') /\ uok r (lu s') /\
  (forall i c, c <> j -> has (lm s') i c = has (lm s) i c) /\
  (good (lg s) -> okmax r -> good (lg s') /\ colw (lm s') j = colw (lm s) j + cnt).
Proof.
  intros Hr Hj. induction cnt as [|cnt IH]; intros s s' Hf HM Hu; cbn [gfill_col] in Hf.
  { inversion Hf; subst. split; [exact HM|]. split; [exact Hu|]. split; [reflexivity|]. intros Hg _. split; [exact Hg|lia]. }
  cbv zeta in Hf.
  (* either way the round inserts an entry (i0, j) that was not there, with i0 a row number *)
  assert (exists i0 u1 t1 g1,
    gfill_col fuel cnt j r len {| lm := ins (lm s) i0 j; lu := u1; lt := t1; lg := g1 |} = Some s' /\
    found (lm s) i0 j = false /\ uok r u1 /\ (good (lg s) -> good g1 /\ (okmax r -> i0 < r)))
    as (i0 & u1 & t1 & g1 & Hf1 & Hfound & Hu1 & Hgood).
  { destruct (scan (lm s) (lu s) j (lt s) (len - lt s) <? len).
    - destruct (gpick_u fuel (lm s) (lu s) j (lt s) len (lg s)) as [[i' g']|] eqn:Ep; [|discriminate].
      destruct (pick_u_spec _ _ _ _ _ _ _ _ _ Ep) as (A & B).
      eexists _, _, _, _. split; [exact Hf|]. split; [exact A|].
      split; [apply uok_upd; [exact Hu|apply uok_nth; assumption]|].
      intros Hg. split; [exact (B Hg)|intros _; apply uok_nth; assumption].
    - destruct (gpick_row fuel (lm s) j r (lg s)) as [[i' g']|] eqn:Ep; [|discriminate].
      destruct (pick_row_spec _ _ _ _ _ _ _ Ep) as (A & B).
      eexists _, _, _, _. split; [exact Hf|]. split; [exact A|]. split; [exact Hu|].
      intros Hg. destruct (B Hg) as (Hg1 & Hrow). split; [exact Hg1|intros Ho; exact (Hrow Ho Hr)]. }
  destruct (step_ins r n (lm s) i0 j HM) as (HM1 & Hoc & _ & _ & Hcw).
  destruct (IH _ _ Hf1 HM1 Hu1) as (HM' & Hu' & Hoc' & Hcnt). cbn [lm lg] in *.
  split; [exact HM'|]. split; [exact Hu'|]. split.
  - intros i c Hc. rewrite Hoc' by exact Hc. apply Hoc. exact Hc.
  - intros Hg Ho. destruct (Hgood Hg) as (Hg1 & Hrow). destruct (Hcnt Hg1 Ho) as (Hg' & E).
    split; [exact Hg'|]. rewrite E, Hcw; [lia|exact (Hrow Ho)|exact Hj|].
    exact (found_false r n _ _ _ HM (Hrow Ho) Hj Hfound).
Qed.

Lemma fill_cols_spec fuel r n n1 len : 1 <= r -> forall cols s s',
  gfill_cols fuel cols n1 r len s = Some s' -> NoDup cols -> (forall c, In c cols -> c < n) ->
  MInv r n (lm s) -> uok r (lu s) ->
  MInv r n (lm s') /\ uok r (lu s') /\
  (forall i c, ~ In c cols -> has (lm s') i c = has (lm s) i c) /\
  (good (lg s) -> okmax r -> good (lg s') /\ forall c, In c cols -> colw (lm s') c = colw (lm s) c + n1).
Proof.
  intros Hr. induction cols as [|j rest IH]; intros s s' Hf Hnd Hrange HM Hu; cbn [gfill_cols] in Hf.
  { inversion Hf; subst. split; [exact HM|]. split; [exact Hu|]. split; [reflexivity|].
    intros Hg _. split; [exact Hg|]. intros c []. }
  inversion Hnd as [|? ? Hj Hnd']; subst.
  destruct (gfill_col fuel n1 j r len s) as [s1|] eqn:E1; [|discriminate].
  destruct (fill_col_spec fuel j r n len Hr (Hrange j (or_introl eq_refl)) n1 s s1 E1 HM Hu) as (HM1 & Hu1 & Hoc1 & Hcnt1).
  destruct (IH s1 s' Hf Hnd' (fun c Hc => Hrange c (or_intror Hc)) HM1 Hu1) as (HM' & Hu' & Hoc' & Hcnt').
  split; [exact HM'|]. split; [exact Hu'|]. split.
  - intros i c Hc. rewrite Hoc' by (intros H; apply Hc; now right). apply Hoc1. intros ->. apply Hc. now left.
  - intros Hg Ho. destruct (Hcnt1 Hg Ho) as (Hg1 & Ej). destruct (Hcnt' Hg1 Ho) as (Hg' & Erest).
    split; [exact Hg'|]. intros c [<-|Hc].
    + rewrite <- Ej. apply (colw_ext r n _ _ _ HM' HM1). intros i. apply Hoc'. exact Hj.
    + rewrite (Erest c Hc). f_equal. apply (colw_ext r n _ _ _ HM1 HM). intros i. apply Hoc1. intros ->. tauto.
Qed.

Definition xstep1 (i k r : nat) (m : smat) (g : Z) (added : nat) : option (smat * Z * nat) :=
  match nth i (rws m) [] with
  | [] => match rndf g k with None => None | Some (x, g') => Some (ins m i (x + r), g', S added) end
  | _ => Some (m, g, added) end.
Definition xstep2 (fuel i k r : nat) (m1 : smat) (g1 : Z) (a1 : nat) : option (smat * Z * nat) :=
  match nth i (rws m1) [] with
  | [e] => if 1 <? k then
             match gpick_other fuel k r e g1 with None => None | Some (j, g2) => Some (ins m1 i j, g2, S a1) end
           else Some (m1, g1, a1)
  | _ => Some (m1, g1, a1)
  end.

Lemma extra_rows_cons fuel i rest k r m g added :
  gextra_rows fuel (i :: rest) k r m g added =
  match xstep1 i k r m g added with None => None | Some (m1, g1, a1) =>
    match xstep2 fuel i k r m1 g1 a1 with None => None | Some (m2, g2, a2) => gextra_rows fuel rest k r m2 g2 a2 end end.
Proof.
  cbn [gextra_rows]. unfold xstep1.
  destruct (match nth i (rws m) [] with
            | [] => match rndf g k with Some (x, g') => Some (ins m i (x + r), g', S added) | None => None end
            | _ :: _ => Some (m, g, added) end) as [[[m1 g1] a1]|]; [|reflexivity].
  unfold xstep2. destruct (nth i (rws m1) []) as [|e [|e2 t]]; try reflexivity.
  destruct (1 <? k); [|reflexivity]. destruct (gpick_other fuel k r e g1) as [[j g2]|]; reflexivity.
Qed.

(* what every step of gextra_rows preserves *)
Definition xok (r n : nat) (m : smat) (g : Z) (a : nat) (m' : smat) (g' : Z) (a' : nat) : Prop :=
  MInv r n m' /\ a <= a' /\ (a' = a -> m' = m) /\
  (forall i c, has m i c = true -> has m' i c = true) /\
  (forall i c, c < r -> has m' i c = has m i c) /\
  (good g -> good g').

Lemma xok_refl r n m g a : MInv r n m -> xok r n m g a m g a.
Proof. intros HM. split; [exact HM|]. split; [lia|]. split; [reflexivity|]. split; [auto|]. split; [reflexivity|auto]. Qed.

Lemma xok_trans r n m g a m1 g1 a1 m2 g2 a2 :
  xok r n m g a m1 g1 a1 -> xok r n m1 g1 a1 m2 g2 a2 -> xok r n m g a m2 g2 a2.
Proof.
  intros (HM1 & Ha1 & He1 & Hm1 & Hr1 & Hg1) (HM2 & Ha2 & He2 & Hm2 & Hr2 & Hg2).
  split; [exact HM2|]. split; [lia|]. split; [|split; [|split]].
  - intros E. rewrite He2 by lia. apply He1. lia.
  - intros i c H. apply Hm2, Hm1, H.
  - intros i c Hc. rewrite Hr2 by exact Hc. apply Hr1. exact Hc.
  - intros H. apply Hg2, Hg1, H.
Qed.

Lemma xok_ins r n m g a i j g' : MInv r n m -> r <= j -> (good g -> good g') ->
  xok r n m g a (ins m i j) g' (S a).
Proof.
  intros HM Hj Hg. destruct (step_ins r n m i j HM) as (HM1 & Hoc & Hmono & _).
  split; [exact HM1|]. split; [lia|]. split; [lia|]. split; [exact Hmono|]. split; [|exact Hg].
  intros i' c Hc. apply Hoc. lia.
Qed.

Lemma xstep1_spec i k r n m g a m1 g1 a1 : n = k + r -> 1 <= k -> MInv r n m ->
  xstep1 i k r m g a = Some (m1, g1, a1) ->
  xok r n m g a m1 g1 a1 /\ (good g -> okmax k -> i < r -> 1 <= length (nth i (rws m1) [])).
Proof.
  intros En Hk HM. unfold xstep1. destruct (nth i (rws m) []) as [|e t] eqn:Erow.
  - destruct (rndf g k) as [[x g']|] eqn:Er; [|discriminate]. intros E. inversion E; subst m1 g1 a1.
    split; [apply xok_ins; [exact HM|lia|intros Hg; exact (rnd_good _ _ _ _ Hg Er)]|].
    intros Hg Ho Hi. pose proof (rnd_range _ _ _ _ Hg Ho Hk Er) as Hx.
    destruct (step_ins r n m i (x + r) HM) as (_ & _ & _ & Hin & _).
    assert (Hh : has (ins m i (x + r)) i (x + r) = true) by (apply Hin; [exact Hi|lia|right; auto]).
    apply has_In in Hh. destruct (nth i (rws (ins m i (x + r))) []); [inversion Hh|cbn [length]; lia].
  - intros E. inversion E; subst m1 g1 a1. split; [apply xok_refl; exact HM|].
    intros _ _ _. rewrite Erow. cbn [length]. lia.
Qed.

Definition rowdeg (k : nat) : nat := if 1 <? k then 2 else 1.

Lemma xstep2_spec fuel i k r n m1 g1 a1 m2 g2 a2 : n = k + r -> 1 <= k -> MInv r n m1 ->
  xstep2 fuel i k r m1 g1 a1 = Some (m2, g2, a2) ->
  xok r n m1 g1 a1 m2 g2 a2 /\
  (good g1 -> okmax k -> i < r -> 1 <= length (nth i (rws m1) []) -> rowdeg k <= length (nth i (rws m2) [])).
Proof.
  intros En Hk HM. unfold xstep2, rowdeg.
  destruct (Nat.ltb_spec 1 k) as [Hk1|Hk1]; destruct (nth i (rws m1) []) as [|e [|e2 t]] eqn:Erow.
  2:{ (* 1 < k and the row is [e]: the only case that inserts *)
      destruct (gpick_other fuel k r e g1) as [[j g']|] eqn:Ep; [|discriminate].
      destruct (pick_other_spec _ _ _ _ _ _ _ Ep) as (Hne & Hrj & Hgood).
      intros E. inversion E; subst m2 g2 a2.
      split; [apply xok_ins; [exact HM|exact Hrj|intros Hg; apply (Hgood Hg)]|].
      intros Hg Ho Hi _. destruct (Hgood Hg) as (_ & Hjn). specialize (Hjn Ho Hk).
      destruct (step_ins r n m1 i j HM) as ((W' & _ & _) & _ & Hmono & Hin & _).
      apply (nodup_two _ e j); [apply row_nodup; exact W'| | |congruence].
      - apply has_In. apply Hmono. apply has_In. rewrite Erow. now left.
      - apply has_In. apply Hin; [exact Hi|lia|right; auto]. }
  (* in every other case nothing is inserted, and the row is long enough as it is *)
  all: intros E; inversion E; subst m2 g2 a2; (split; [apply xok_refl; exact HM|]).
  all: intros _ _ _ Hl; rewrite Erow in *; cbn [length] in *; lia.
Qed.

Lemma extra_rows_spec fuel k r n : n = k + r -> 1 <= k -> forall rows m g added m' g' added',
  gextra_rows fuel rows k r m g added = Some (m', g', added') -> MInv r n m ->
  xok r n m g added m' g' added' /\
  (good g -> okmax k -> (forall i, In i rows -> i < r) ->
   forall i, In i rows -> rowdeg k <= length (nth i (rws m') [])).
Proof.
  intros En Hk. induction rows as [|i rest IH]; intros m g added m' g' added' Hx HM.
  { cbn [gextra_rows] in Hx. inversion Hx; subst. split; [apply xok_refl; exact HM|]. intros _ _ _ i []. }
  rewrite extra_rows_cons in Hx.
  destruct (xstep1 i k r m g added) as [[[m1 g1] a1]|] eqn:E1; [|discriminate].
  destruct (xstep2 fuel i k r m1 g1 a1) as [[[m2 g2] a2]|] eqn:E2; [|discriminate].
  destruct (xstep1_spec i k r n m g added m1 g1 a1 En Hk HM E1) as (X1 & D1).
  assert (HM1 : MInv r n m1) by apply X1.
  destruct (xstep2_spec fuel i k r n m1 g1 a1 m2 g2 a2 En Hk HM1 E2) as (X2 & D2).
  assert (HM2 : MInv r n m2) by apply X2.
  destruct (IH m2 g2 a2 m' g' added' Hx HM2) as (X3 & D3).
  split; [exact (xok_trans _ _ _ _ _ _ _ _ _ _ _ (xok_trans _ _ _ _ _ _ _ _ _ _ _ X1 X2) X3)|].
  intros Hg Ho Hrows i' [<-|Hin].
  - assert (Hi : i < r) by (apply Hrows; now left).
    assert (Hg1 : good g1) by (apply X1; exact Hg).
    apply Nat.le_trans with (length (nth i (rws m2) [])); [apply D2; auto|].
    apply row_len_mono; [apply HM2|]. intros c. apply X3.
  - apply D3; auto.
    + apply X2. apply X1. exact Hg.
    + intros i0 Hi0. apply Hrows. now right.
Qed.

Lemma colw_allocate r n c : colw (s_allocate r n) c = 0.
Proof.
  apply (colw_eq _ _ []); [constructor|]. intros i. split; [intros []|intros (_ & H)].
  rewrite (proj2 (allocate_wf r n)) in H. discriminate H.
Qed.

(* what the construction guarantees about its result; m1, m2 below: the matrix after the source columns,
   after the extra entries *)
Lemma pchk_decomp fuel k r n1 seed g0 m extra g : 1 <= k -> 1 <= r ->
  gpchk fuel k r n1 seed g0 = Some (m, extra, g) ->
  n1 <= r /\ MInv r (k + r) m /\
  (forall i c, c < r -> (has m i c = true <-> i < r /\ (c = i \/ S c = i))) /\
  (pre g0 seed -> okmax k -> okmax r ->
     (forall c, r <= c < k + r -> n1 <= colw m c /\ (extra = false -> colw m c = n1)) /\
     (forall i, i < r -> rowdeg k <= length (filter (fun c => r <=? c) (nth i (rws m) [])))).
Proof.
  intros Hk Hr. unfold gpchk. destruct (Nat.ltb_spec r n1) as [Hlt|Hn1]; [discriminate|].
  destruct (srandf g0 seed) as [gs|] eqn:Es; [|discriminate]. cbv zeta.
  set (s0 := {| lm := s_allocate r (k + r); lu := map (fun h => h mod r) (seq 0 (n1 * k)); lt := 0; lg := gs |}).
  destruct (gfill_cols fuel (seq r k) n1 r (n1 * k) s0) as [s|] eqn:Ef; [|discriminate].
  destruct (gextra_rows fuel (seq 0 r) k r (lm s) (lg s) 0) as [[[m2 g2] added]|] eqn:Ex; [|discriminate].
  intros E. inversion E; subst m extra g. clear E.
  destruct (allocate_wf r (k + r)) as (W0 & H0).
  assert (HM0 : MInv r (k + r) (lm s0)) by (split; [exact W0|split; reflexivity]).
  destruct (fill_cols_spec fuel r (k + r) n1 (n1 * k) Hr (seq r k) s0 s Ef (seq_NoDup k r)) as (HM1 & _ & Hoc & Hcnt).
  { intros c Hc. apply in_seq in Hc. lia. }
  { exact HM0. }
  { apply uok_init. exact Hr. }
  destruct (extra_rows_spec fuel k r (k + r) eq_refl Hk (seq 0 r) (lm s) (lg s) 0 m2 g2 added Ex HM1)
    as ((HM2 & _ & Hsame & Hmono & Hrep & Hgood) & Hdeg).
  destruct (staircase_spec r (k + r) m2 Hr ltac:(lia) HM2) as (HM3 & Hst).
  (* no source entry in a repair column *)
  assert (Hsrc : forall i c, has m2 i c = true -> r <= c).
  { intros i c Hh. destruct (Nat.lt_ge_cases c r) as [Hc|Hc]; [|exact Hc]. exfalso.
    rewrite (Hrep i c Hc), Hoc in Hh by (rewrite in_seq; lia). cbn [lm s0] in Hh. rewrite H0 in Hh. discriminate. }
  split; [exact Hn1|]. split; [exact HM3|]. split.
  { intros i c Hc. rewrite Hst. split; [intros [Hh|H]; [apply Hsrc in Hh; lia|exact H]|auto]. }
  intros Hpre Hok Hor. assert (Hgs : good (lg s0)) by (cbn [lg s0]; exact (srand_good _ _ _ Hpre Es)).
  destruct (Hcnt Hgs Hor) as (Hg1 & Hcw). split.
  - (* the staircase adds nothing to a source column, the extra entries only add *)
    intros c Hc.
    assert (E1 : colw (lm s) c = n1) by (rewrite Hcw by (apply in_seq; lia); cbn [lm s0]; rewrite colw_allocate; reflexivity).
    assert (E : colw (staircase r m2) c = colw m2 c).
    { apply (colw_ext r (k + r) _ _ _ HM3 HM2). intros i. apply eq_true_iff_eq. rewrite Hst. split; [|tauto].
      intros [H|(Hi & Hci)]; [exact H|lia]. }
    rewrite E, <- E1. split; [apply (colw_le r (k + r) _ _ _ HM1 HM2); intros i; apply Hmono|].
    intros Hf. destruct added; [|discriminate Hf]. rewrite Hsame by reflexivity. reflexivity.
  - intros i Hi. apply Nat.le_trans with (length (nth i (rws m2) [])).
    + apply (Hdeg Hg1 Hok); [intros i0 Hi0; apply in_seq in Hi0; lia|apply in_seq; lia].
    + apply NoDup_incl_length; [apply row_nodup; apply HM2|]. intros c Hc. apply has_In in Hc.
      apply filter_In. split; [apply has_In, Hst; now left|apply Nat.leb_le; exact (Hsrc _ _ Hc)].
Qed.

End Spec.

Section Main.
Context {fuel k r n1 : nat} {seed g0 : Z} {m : smat} {extra : bool} {g : Z}.
Hypothesis k_pos : 1 <= k.
Hypothesis r_pos : 1 <= r.
Hypothesis Hpchk : gpchk fuel k r n1 seed g0 = Some (m, extra, g).

(* nothing is asked of the two functions here: take the invariant that no state satisfies *)
Lemma gpchk_frame : n1 <= r /\ MInv r (k + r) m /\ (forall i c, c < r -> (has m i c = true <-> i < r /\ (c = i \/ S c = i))).
Proof.
  destruct (pchk_decomp (fun _ => False) (fun _ => True) (fun _ _ => False)
              (fun _ _ _ _ F _ => F) (fun _ _ _ _ (F : False) => match F with end) (fun _ _ _ F _ => F)
              fuel k r n1 seed g0 m extra g k_pos r_pos Hpchk) as (A & B & C & _).
  split; [exact A|]. split; [exact B|exact C].
Qed.

Theorem gpchk_wf : WF m /\ nr m = r /\ nc m = k + r.
Proof. apply gpchk_frame. Qed.

Theorem gpchk_n1_le_r : n1 <= r.
Proof. apply gpchk_frame. Qed.

Theorem gpchk_rows : length (rws m) = r /\
  forall i, i < r -> NoDup (nth i (rws m) []) /\ (forall c, In c (nth i (rws m) []) -> c < k + r).
Proof.
  destruct gpchk_wf as (W & Er & Ec). split; [rewrite (wf_rl m W); exact Er|].
  intros i Hi. split; [apply row_nodup; exact W|]. rewrite <- Ec. apply (wf_rs m W i). lia.
Qed.

Theorem gpchk_repair_columns : forall c i, c < r -> i < r -> (In c (nth i (rws m) []) <-> i = c \/ i = c + 1).
Proof.
  destruct gpchk_frame as (_ & _ & Hrep). intros c i Hc Hi. rewrite <- has_In, (Hrep i c Hc). lia.
Qed.

Theorem gpchk_stair : LdpcEnc.stair r (rws m).
Proof.
  destruct gpchk_frame as (_ & _ & Hrep).
  destruct gpchk_rows as (Hlen & Hrows). split; [exact Hlen|].
  intros c Hc. split; [apply (Hrows c Hc)|]. split.
  - apply has_In, Hrep; lia.
  - intros x Hx Hne. destruct (Nat.lt_ge_cases x r) as [Hxr|Hxr]; [right|left; exact Hxr].
    apply has_In, Hrep in Hx; lia.
Qed.

(* in LastNull's terms: the rows that hold a repair column c are c and, below the last one, c + 1 *)
Lemma colw_repair l : NoDup l -> forall c, c < r ->
  (forall i, In i l <-> i = c \/ (i = c + 1 /\ i < r)) -> LastNull.colcount (rws m) c = length l.
Proof.
  intros Hnd c Hc Hm. destruct gpchk_wf as (W & Er & _).
  rewrite (colcount_colw m c W). apply colw_eq; [exact Hnd|]. intros i. rewrite Er, has_In, Hm. split.
  - intros Hi. assert (i < r) by lia. split; [assumption|]. apply gpchk_repair_columns; [assumption..|lia].
  - intros (Hi & Hh). apply gpchk_repair_columns in Hh; [lia|assumption..].
Qed.

Theorem gpchk_repair_colcount : forall c, c < r - 1 -> LastNull.colcount (rws m) c = 2.
Proof.
  intros c Hc. apply (colw_repair [c; c + 1]); [|cbn [In]; lia..].
  constructor; [cbn [In]; lia|constructor; [intros []|constructor]].
Qed.

Theorem gpchk_last_repair_colcount : LastNull.colcount (rws m) (r - 1) = 1.
Proof.
  apply (colw_repair [r - 1]); [|cbn [In]; lia..]. constructor; [intros []|constructor].
Qed.

Variables (good : Z -> Prop) (okmax : nat -> Prop) (pre : Z -> Z -> Prop).
Hypothesis rnd_good : forall g maxv x g', good g -> rndf g maxv = Some (x, g') -> good g'.
Hypothesis rnd_range : forall g maxv x g', good g -> okmax maxv -> 1 <= maxv -> rndf g maxv = Some (x, g') -> x < maxv.
Hypothesis srand_good : forall g0 seed g, pre g0 seed -> srandf g0 seed = Some g -> good g.
Hypothesis Hpre : pre g0 seed.
Hypothesis Hok : okmax k.
Hypothesis Hor : okmax r.

Lemma gpchk_counts :
  (forall c, r <= c < k + r -> n1 <= colw m c /\ (extra = false -> colw m c = n1)) /\
  (forall i, i < r -> rowdeg k <= length (filter (fun c => r <=? c) (nth i (rws m) []))).
Proof. apply (pchk_decomp good okmax pre rnd_good rnd_range srand_good fuel k r n1 seed g0 m extra g k_pos r_pos Hpchk); assumption. Qed.

Theorem gpchk_source_columns : forall c, r <= c < k + r ->
  n1 <= LastNull.colcount (rws m) c /\ (extra = false -> LastNull.colcount (rws m) c = n1).
Proof.
  intros c Hc. rewrite (colcount_colw m c (proj1 gpchk_wf)). apply gpchk_counts, Hc.
Qed.

Theorem gpchk_cols_covered : 1 <= n1 -> forall c, c < k + r -> exists i, i < r /\ In c (nth i (rws m) []).
Proof.
  intros Hn1 c Hc. destruct (Nat.lt_ge_cases c r) as [Hlt|Hge].
  - exists c. split; [exact Hlt|]. apply gpchk_repair_columns; auto.
  - destruct (proj1 gpchk_counts c ltac:(lia)) as (Hle & _). destruct gpchk_wf as (_ & Er & _). unfold colw in Hle.
    destruct (filter (fun i => has m i c) (seq 0 (nr m))) as [|i t] eqn:E; [cbn [length] in Hle; lia|].
    assert (Hi : In i (i :: t)) by now left. rewrite <- E, filter_In, in_seq in Hi.
    exists i. split; [lia|]. apply has_In, Hi.
Qed.

(* at least: rowdeg k source entries (2, or 1 when k = 1; the extra rows may add more) and the 1 (row 0) or 2
   repair entries *)
Theorem gpchk_row_degree_exact : forall i, i < r ->
  rowdeg k + (if i =? 0 then 1 else 2) <= length (nth i (rws m) []).
Proof.
  destruct gpchk_frame as (_ & (W & _) & Hrep).
  intros i Hi. set (row := nth i (rws m) []).
  rewrite (filter_length_split (fun c => r <=? c) row). apply Nat.add_le_mono; [apply gpchk_counts, Hi|].
  assert (Hnd : NoDup (filter (fun c => negb (r <=? c)) row)) by (apply NoDup_filter, row_nodup; exact W).
  assert (Hin : forall c, c < r -> (c = i \/ S c = i) -> In c (filter (fun c => negb (r <=? c)) row)).
  { intros c Hc Hci. apply filter_In. split; [apply has_In, Hrep; auto|].
    apply negb_true_iff, Nat.leb_gt. exact Hc. }
  destruct (Nat.eqb_spec i 0) as [->|Hne].
  - specialize (Hin 0 Hi (or_introl eq_refl)).
    destruct (filter (fun c => negb (r <=? c)) row); [inversion Hin|cbn [length]; lia].
  - apply (nodup_two _ i (i - 1) Hnd); [| |lia]; apply Hin; lia.
Qed.

Theorem gpchk_row_degree : forall i, i < r -> 2 <= length (nth i (rws m) []).
Proof.
  intros i Hi. pose proof (gpchk_row_degree_exact i Hi) as H. unfold rowdeg in H.
  destruct (1 <? k), (i =? 0); lia.
Qed.

Theorem glast_null_claim_premises : extra = false -> Nat.even n1 = true ->
  (forall row, In row (rws m) -> NoDup row /\ forall c, In c row -> c < k + r) /\
  (forall c, r <= c < k + r -> Nat.even (LastNull.colcount (rws m) c) = true) /\
  (forall c, c < r - 1 -> LastNull.colcount (rws m) c = 2) /\
  LastNull.colcount (rws m) (r - 1) = 1.
Proof.
  intros Hex Hev. split; [|split; [|split]].
  - intros row Hin. destruct gpchk_rows as (Hlen & Hrows).
    destruct (In_nth _ _ [] Hin) as (i & Hi & <-). apply Hrows. lia.
  - intros c Hc. destruct (gpchk_source_columns c Hc) as (_ & E). rewrite (E Hex). exact Hev.
  - exact gpchk_repair_colcount.
  - exact gpchk_last_repair_colcount.
Qed.

(* ... so that C15's theorem applies: in every codeword of the matrix the last repair symbol is null *)
Theorem gpchk_last_repair_null : last_symbol_null_claim n1 extra = true ->
  forall (Sy : Type) (sxor : Sy -> Sy -> Sy) (s0 : Sy),
  (forall a b c, sxor a (sxor b c) = sxor (sxor a b) c) -> (forall a b, sxor a b = sxor b a) ->
  (forall a, sxor s0 a = a) -> (forall a, sxor a a = s0) ->
  forall cw : nat -> Sy, (forall row, In row (rws m) -> LastNull.rowsum Sy sxor s0 cw row = s0) ->
  cw (r - 1) = s0.
Proof.
  unfold last_symbol_null_claim. intros Hc. apply andb_true_iff in Hc as (Hev & Hex).
  apply negb_true_iff in Hex. destruct (glast_null_claim_premises Hex Hev) as (A & B & C & D).
  intros Sy sxor s0 H1 H2 H3 H4 cw Hcw.
  apply (LastNull.last_repair_is_null_proof Sy sxor s0 H1 H2 H3 H4 cw (rws m) r (k + r) r_pos ltac:(lia) A Hcw B C D).
Qed.

End Main.
End PRNG.

Lemma pchk_is_gpchk fuel k r n1 seed g0 :
  pchk fuel k r n1 seed g0 = gpchk rnd of_rfc5170_srand fuel k r n1 seed g0.
Proof. reflexivity. Qed.

Lemma colcount_rows (H : list (list nat)) c :
  LastNull.colcount H c = length (filter (fun i => existsb (Nat.eqb c) (nth i H [])) (seq 0 (length H))).
Proof. unfold LastNull.colcount. apply flen_index. Qed.

(* no hypothesis on the PRNG *)
Section Unconditional.
Variables (fuel k r n1 : nat) (seed g0 : Z) (m : smat) (extra : bool) (g : Z).
Hypothesis k_pos : 1 <= k.
Hypothesis r_pos : 1 <= r.
Hypothesis Hpchk : pchk fuel k r n1 seed g0 = Some (m, extra, g).

Theorem pchk_wf : WF m /\ nr m = r /\ nc m = k + r.
Proof. exact (gpchk_wf rnd of_rfc5170_srand k_pos r_pos Hpchk). Qed.

Theorem pchk_n1_le_r : n1 <= r.
Proof. exact (gpchk_n1_le_r rnd of_rfc5170_srand k_pos r_pos Hpchk). Qed.

Theorem pchk_rows : length (rws m) = r /\
  forall i, i < r -> NoDup (nth i (rws m) []) /\ (forall c, In c (nth i (rws m) []) -> c < k + r).
Proof. exact (gpchk_rows rnd of_rfc5170_srand k_pos r_pos Hpchk). Qed.

Theorem pchk_stair : LdpcEnc.stair r (rws m).
Proof. exact (gpchk_stair rnd of_rfc5170_srand k_pos r_pos Hpchk). Qed.

Theorem pchk_repair_columns : forall c i, c < r -> i < r -> (In c (nth i (rws m) []) <-> i = c \/ i = c + 1).
Proof. exact (gpchk_repair_columns rnd of_rfc5170_srand k_pos r_pos Hpchk). Qed.

Theorem pchk_repair_colcount : forall c, c < r - 1 -> LastNull.colcount (rws m) c = 2.
Proof. exact (gpchk_repair_colcount rnd of_rfc5170_srand k_pos r_pos Hpchk). Qed.

Theorem pchk_last_repair_colcount : LastNull.colcount (rws m) (r - 1) = 1.
Proof. exact (gpchk_last_repair_colcount rnd of_rfc5170_srand k_pos r_pos Hpchk). Qed.
End Unconditional.

(* under the plain range hypothesis: the invariant that every state satisfies *)
Section Range.
Hypothesis rnd_range : forall g maxv x g', 1 <= maxv -> rnd g maxv = Some (x, g') -> x < maxv.
Variables (fuel k r n1 : nat) (seed g0 : Z) (m : smat) (extra : bool) (g : Z).
Hypothesis k_pos : 1 <= k.
Hypothesis r_pos : 1 <= r.
Hypothesis Hpchk : pchk fuel k r n1 seed g0 = Some (m, extra, g).

Let goodT : Z -> Prop := fun _ => True.
Let okT : nat -> Prop := fun _ => True.
Let preT : Z -> Z -> Prop := fun _ _ => True.
Let hT1 : forall g maxv x g', goodT g -> rnd g maxv = Some (x, g') -> goodT g'.
Proof. intros; exact I. Qed.
Let hT2 : forall g maxv x g', goodT g -> okT maxv -> 1 <= maxv -> rnd g maxv = Some (x, g') -> x < maxv.
Proof. intros g1 maxv x g' _ _ Hm E. exact (rnd_range g1 maxv x g' Hm E). Qed.
Let hT3 : forall g0 seed g, preT g0 seed -> of_rfc5170_srand g0 seed = Some g -> goodT g.
Proof. intros; exact I. Qed.

Theorem pchk_source_columns : forall c, r <= c < k + r ->
  n1 <= LastNull.colcount (rws m) c /\ (extra = false -> LastNull.colcount (rws m) c = n1).
Proof. exact (gpchk_source_columns rnd of_rfc5170_srand k_pos r_pos Hpchk goodT okT preT hT1 hT2 hT3 I I I). Qed.

Theorem pchk_cols_covered : 1 <= n1 -> forall c, c < k + r -> exists i, i < r /\ In c (nth i (rws m) []).
Proof. exact (gpchk_cols_covered rnd of_rfc5170_srand k_pos r_pos Hpchk goodT okT preT hT1 hT2 hT3 I I I). Qed.

Theorem pchk_row_degree_exact : forall i, i < r ->
  rowdeg k + (if i =? 0 then 1 else 2) <= length (nth i (rws m) []).
Proof. exact (gpchk_row_degree_exact rnd of_rfc5170_srand k_pos r_pos Hpchk goodT okT preT hT1 hT2 hT3 I I I). Qed.

Theorem pchk_row_degree : forall i, i < r -> 2 <= length (nth i (rws m) []).
Proof. exact (gpchk_row_degree rnd of_rfc5170_srand k_pos r_pos Hpchk goodT okT preT hT1 hT2 hT3 I I I). Qed.

Theorem last_null_claim_premises : extra = false -> Nat.even n1 = true ->
  (forall row, In row (rws m) -> NoDup row /\ forall c, In c row -> c < k + r) /\
  (forall c, r <= c < k + r -> Nat.even (LastNull.colcount (rws m) c) = true) /\
  (forall c, c < r - 1 -> LastNull.colcount (rws m) c = 2) /\
  LastNull.colcount (rws m) (r - 1) = 1.
Proof. exact (glast_null_claim_premises rnd of_rfc5170_srand k_pos r_pos Hpchk goodT okT preT hT1 hT2 hT3 I I I). Qed.

Theorem pchk_last_repair_null : last_symbol_null_claim n1 extra = true ->
  forall (Sy : Type) (sxor : Sy -> Sy -> Sy) (s0 : Sy),
  (forall a b c, sxor a (sxor b c) = sxor (sxor a b) c) -> (forall a b, sxor a b = sxor b a) ->
  (forall a, sxor s0 a = a) -> (forall a, sxor a a = s0) ->
  forall cw : nat -> Sy, (forall row, In row (rws m) -> LastNull.rowsum Sy sxor s0 cw row = s0) ->
  cw (r - 1) = s0.
Proof. exact (gpchk_last_repair_null rnd of_rfc5170_srand k_pos r_pos Hpchk goodT okT preT hT1 hT2 hT3 I I I). Qed.
End Range.

(* the proofs: closed under the global context *)
Print Assumptions gpchk_wf.
Print Assumptions gpchk_rows.
Print Assumptions gpchk_stair.
Print Assumptions gpchk_repair_columns.
Print Assumptions gpchk_repair_colcount.
Print Assumptions gpchk_last_repair_colcount.
Print Assumptions gpchk_source_columns.
Print Assumptions gpchk_cols_covered.
Print Assumptions gpchk_row_degree_exact.
Print Assumptions gpchk_row_degree.
Print Assumptions glast_null_claim_premises.
Print Assumptions gpchk_last_repair_null.

(* the statements about Pchk.pchk mention of_rfc5170_rand, whose definition (not these proofs) rests on
   the Reals library: the same four axioms are printed for the bare definition and for the theorems *)
Print Assumptions pchk.
Print Assumptions pchk_wf.
Print Assumptions pchk_rows.
Print Assumptions pchk_stair.
Print Assumptions pchk_repair_columns.
Print Assumptions pchk_source_columns.
Print Assumptions pchk_cols_covered.
Print Assumptions pchk_row_degree.
Print Assumptions last_null_claim_premises.
Print Assumptions pchk_last_repair_null.
