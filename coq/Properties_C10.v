(* C10 — status codes and queries tell the truth about decoding progress.
   RS codecs (model of the shared API layer, RSApi.v): of_finish_decoding returns OK iff complete
   afterwards, FAILURE iff not, and complete iff k distinct symbols were submitted.
   LDPC-Staircase streaming decoder (ITModel.v): the completion query is true exactly when all k
   source symbols are available, and availability (hence completion) never reverts along a history.
   Pointer identity (StableTables.v; buffers are opaque values of the models, so "the same pointer" is
   "the same value of type B / Sy"): the table entry written for a fresh submission is the submitted
   buffer itself, and no later call replaces an entry that is set - in the streaming decoder, in the ML
   finish and in the Reed-Solomon API layer.
   The LDPC of_finish_decoding status is OK iff all sources are available afterwards
   (ldpc_finish_status_truthful, a clause of the session theorem of Properties_C03.v). *)
From Coq Require Import Arith List Bool.
From OFV Require Import ListAux RSApi RSApiProofs LdpcEnc ITModel ITProofs MLModel MLCorollaries StableTables.
Import ListNotations.

(* word for word Properties_C02.rs_finish_truthful: the sentence belongs to both properties *)
Theorem rs_finish_status_truthful :
  forall (B : Type) (core : nat -> list (option B) -> option (list B)) (cb : bool) (mk : nat -> B -> B) (k n : nat),
  k <= n ->
  (forall t, length t = n -> k <= count_some t -> exists vals, core k t = Some vals /\ length vals = k) ->
  forall h : list (nat * B), 1 <= k -> (forall ev, In ev h -> fst ev < n) ->
  let r := rs_finish core cb mk (RSApiProofs.run B core cb mk k n h) in
  ((snd r = OK) <-> (rs_is_complete (fst r) = true)) /\ ((snd r = FAILURE) <-> (rs_is_complete (fst r) = false)) /\
  ((rs_is_complete (fst r) = true) <-> (k <= ndistinct n (map fst h))).
Proof. exact rs_finish_truthful_proof. Qed.

(* word for word Properties_C01.ldpc_complete_implies_all_sources_available *)
Theorem ldpc_complete_query_truthful :
  forall (Sy : Type) (sxor : Sy -> Sy -> Sy) (s0 : Sy) (H0 : list (list nat)) (R0 N0 : nat),
  length H0 = R0 -> (forall i, i < R0 -> NoDup (nth i H0 [])) ->
  (forall i c, i < R0 -> In c (nth i H0 []) -> c < N0) -> (forall i, i < R0 -> 2 <= length (nth i H0 [])) -> R0 <= N0 ->
  forall fuel (hist : list (nat * Sy)) (s : st Sy),
  (forall ev, In ev hist -> fst ev < N0) -> ITProofs.run Sy sxor s0 H0 R0 N0 fuel hist = Some s ->
  (fst (is_complete s) = true <-> forall c, R0 <= c < N0 -> known s c = true).
Proof. exact run_complete_flag. Qed.

Theorem ldpc_availability_never_reverts :
  forall (Sy : Type) (sxor : Sy -> Sy -> Sy) (s0 : Sy) (H0 : list (list nat)) (R0 N0 : nat),
  length H0 = R0 -> (forall i, i < R0 -> NoDup (nth i H0 [])) ->
  (forall i c, i < R0 -> In c (nth i H0 []) -> c < N0) -> (forall i, i < R0 -> 2 <= length (nth i H0 [])) -> R0 <= N0 ->
  forall fuel (h1 h2 : list (nat * Sy)) (s1 s2 : st Sy),
  (forall ev, In ev (h1 ++ h2) -> fst ev < N0) ->
  ITProofs.run Sy sxor s0 H0 R0 N0 fuel h1 = Some s1 -> ITProofs.run Sy sxor s0 H0 R0 N0 fuel (h1 ++ h2) = Some s2 ->
  forall c, known s1 c = true -> known s2 c = true.
Proof. exact run_monotone. Qed.

Theorem rs_table_entry_is_the_submitted_buffer :
  forall (B : Type) (core : nat -> list (option B) -> option (list B)) (cb : bool) (mk : nat -> B -> B) (k n : nat) (h1 h2 : list (nat * B)) esi b,
  let s := RSApiProofs.run B core cb mk k n h1 in
  RSApi.fin s = false -> esi < length (RSApi.tab s) -> nth esi (RSApi.tab s) None = None ->
  nth esi (RSApi.tab (RSApiProofs.run B core cb mk k n (h1 ++ (esi, b) :: h2))) None = Some b.
Proof. exact rs_run_keeps_submitted. Qed.

Theorem ldpc_table_entry_is_the_submitted_symbol :
  forall (Sy : Type) (sxor : Sy -> Sy -> Sy) (s0 : Sy) fuel s c v s',
  ITModel.decode sxor s0 fuel s c v = Some s' -> c < length (ITModel.tab s) -> nth c (ITModel.tab s) None = None ->
  nth c (ITModel.tab s') None = Some v.
Proof. exact decode_stores_submitted. Qed.

Theorem ldpc_entries_survive_later_calls_and_finish :
  forall (Sy : Type) (sxor : Sy -> Sy -> Sy) (s0 : Sy) (H0 : list (list nat)) (R0 N0 : nat) fuel h1 h2 s1 s2 fuel' perm o,
  ITProofs.run Sy sxor s0 H0 R0 N0 fuel h1 = Some s1 -> ITProofs.run Sy sxor s0 H0 R0 N0 fuel (h1 ++ h2) = Some s2 ->
  MLModel.ml_finish sxor s0 fuel' perm s2 = Some o ->
  forall e x, nth e (ITModel.tab s1) None = Some x -> nth e (ITModel.tab (MLModel.o_st o)) None = Some x.
Proof.
  intros Sy sxor s0 H0 R0 N0 fuel h1 h2 s1 s2 fuel' perm o R1 R2 Hf e x Hx.
  exact (ml_finish_tab_stable Sy sxor s0 fuel' perm s2 o Hf e x (run_tab_stable Sy sxor s0 H0 R0 N0 fuel h1 h2 s1 s2 R1 R2 e x Hx)).
Qed.

Theorem ldpc_finish_status_truthful :
  forall (Sy : Type) (sxor : Sy -> Sy -> Sy) (s0 : Sy),
  (forall a b c, sxor a (sxor b c) = sxor (sxor a b) c) -> (forall a b, sxor a b = sxor b a) ->
  (forall a, sxor s0 a = a) -> (forall a, sxor a a = s0) ->
  forall (H0 : list (list nat)) (R0 N0 : nat),
  length H0 = R0 -> (forall i, i < R0 -> NoDup (nth i H0 [])) ->
  (forall i c, i < R0 -> In c (nth i H0 []) -> c < N0) -> (forall i, i < R0 -> 2 <= length (nth i H0 [])) -> R0 <= N0 ->
  (forall c, c < N0 -> exists i, i < R0 /\ In c (nth i H0 [])) -> stair R0 H0 -> (exists a : Sy, a <> s0) ->
  forall cw : nat -> Sy, (forall i, i < R0 -> fold_right sxor s0 (map cw (nth i H0 [])) = s0) ->
  forall (hist : list (nat * Sy)) (s : ITModel.st Sy) fuel perm (o : outcome Sy),
  (forall ev, In ev hist -> fst ev < N0 /\ snd ev = cw (fst ev)) -> ITProofs.run Sy sxor s0 H0 R0 N0 (S N0) hist = Some s ->
  N0 < fuel -> (forall c, c < R0 -> In c perm) -> (forall c, In c perm -> c < R0) ->
  ml_finish sxor s0 fuel perm s = Some o ->
  (o_ok o = true <-> forall c, R0 <= c < N0 -> known (o_st o) c = true).
Proof. exact ml_session_status. Qed.

Print Assumptions rs_finish_status_truthful.
Print Assumptions ldpc_finish_status_truthful.
Print Assumptions rs_table_entry_is_the_submitted_buffer.
Print Assumptions ldpc_entries_survive_later_calls_and_finish.
Print Assumptions ldpc_complete_query_truthful.
Print Assumptions ldpc_availability_never_reverts.
