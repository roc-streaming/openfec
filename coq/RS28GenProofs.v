(* The generator model run on /repo's parameters.  Its exp, log and inverse tables are checked by evaluation
   like the header's; its 256 x 256 product table is not evaluated: entry (a, b) is exp[modnn (log a + log b)],
   which is a * b by the exp and log facts, so the table equals the header's gf28_mul (rs28_mulm_is_gf28_mul). *)
From Coq Require Import NArith Arith List Bool Lia.
From OFV Require Import GF2Poly GFField Tables TablesProofs RS28Gen.
From OFV.gen Require Import GenTables.
Import ListNotations.
Local Open Scope N_scope.

(* the tables the model of the generator computes from /repo's GF_BITS and polynomial string *)
Definition rs28_tabs := generate_gf rs28_gf_bits rs28_Pp.
Definition rs28_mulm := init_mul_table rs28_gf_bits rs28_tabs.

Lemma rs28_bits : rs28_gf_bits = 8.                                    Proof. reflexivity. Qed.
Lemma rs28m_exp_ok : chk_exp 510 8 P256 (t_exp rs28_tabs) = true.      Proof. vm_compute. reflexivity. Qed.
Lemma rs28m_log_ok : chk_log 256 8 P256 (t_log rs28_tabs) = true.      Proof. vm_compute. reflexivity. Qed.
Lemma rs28m_inv_ok : chk_inv 256 mul256 (t_inv rs28_tabs) = true.      Proof. vm_compute. reflexivity. Qed.

(* of_rs_init_mul_table: a zero row and a zero column, exp[modnn (log a + log b)] elsewhere *)
Lemma init_mul_table_eq gb t :
  init_mul_table gb t =
  mul_table (N.to_nat (gf_size gb + 1))
    (fun a b => if (a =? 0) || (b =? 0) then 0
                else getn (t_exp t) (modnn gb (getn (t_log t) a + getn (t_log t) b))).
Proof.
  unfold init_mul_table, mul_table. cbv zeta. rewrite map_map.
  destruct (N.to_nat (gf_size gb + 1)) as [|n]; [reflexivity|].
  cbn [seq map]. f_equal.
  - f_equal. rewrite !map_map. reflexivity.
  - rewrite map_map. apply map_ext_in. intros a Ha. apply in_seq in Ha.
    rewrite orb_true_r, !map_map. f_equal. apply map_ext_in. intros b Hb. apply in_seq in Hb.
    replace (N.of_nat a =? 0) with false by (symmetry; apply N.eqb_neq; lia).
    replace (N.of_nat b =? 0) with false by (symmetry; apply N.eqb_neq; lia).
    reflexivity.
Qed.

Lemma rs28_modnn_ok :
  forallN 510 (fun s => modnn rs28_gf_bits s =? (if s <? 255 then s else s - 255)) = true.
Proof. vm_compute. reflexivity. Qed.

Lemma rs28_log_length : length (t_log rs28_tabs) = 256%nat.
Proof. vm_compute. reflexivity. Qed.

Lemma xpow256_255 : xpow 8 P256 255 = 1.
Proof. vm_compute. reflexivity. Qed.

(* In a field GF(2)[x]/(p) where x has order o: the sum of two logarithms, reduced modulo o and looked up
   in an exp table of o + o entries, is the product, since x^(la + lb) = a * b and x^o = 1. *)
Lemma exp_of_log_sum mn p (o : nat) (E : list N) (la lb a b : N) :
  basis_ok mn p = true -> (2 <= mn)%nat -> xpow (N.of_nat mn) p o = 1 ->
  (forall i, (i < o + o)%nat -> nth i E 0 = xpow (N.of_nat mn) p i) ->
  la < N.of_nat o -> xpow (N.of_nat mn) p (N.to_nat la) = a ->
  lb < N.of_nat o -> xpow (N.of_nat mn) p (N.to_nat lb) = b ->
  getn E (if la + lb <? N.of_nat o then la + lb else la + lb - N.of_nat o) = gfmul (N.of_nat mn) p a b.
Proof.
  intros Hb Hmn Ho HE La <- Lb <-. rewrite <- (xpow_add mn p Hb Hmn). unfold getn.
  destruct (N.ltb_spec (la + lb) (N.of_nat o)) as [L|L]; rewrite HE by lia.
  - f_equal. lia.
  - replace (N.to_nat la + N.to_nat lb)%nat with (o + N.to_nat (la + lb - N.of_nat o))%nat by lia.
    rewrite (xpow_add mn p Hb Hmn), Ho. symmetry. apply (gf_mul_1_l mn p Hb), (xpow_lt mn p Hb Hmn).
Qed.

Lemma rs28_entry a b : 0 < a -> a < 256 -> 0 < b -> b < 256 ->
  getn (t_exp rs28_tabs) (modnn rs28_gf_bits (getn (t_log rs28_tabs) a + getn (t_log rs28_tabs) b)) =
  mul256 a b.
Proof.
  intros Ha0 Ha Hb0 Hb.
  destruct (chk_log_spec1 256 _ _ _ rs28m_log_ok rs28_log_length) as [_ HL].
  destruct (HL a Ha0 Ha) as [La Ea]. destruct (HL b Hb0 Hb) as [Lb Eb].
  pose proof (forallN_spec 510 _ rs28_modnn_ok _ (N.add_lt_mono _ 255 _ 255 La Lb)) as M. cbv beta in M.
  apply N.eqb_eq in M. etransitivity; [apply f_equal, M|].
  exact (exp_of_log_sum 8 P256 255 _ _ _ a b gf256_basis_ok (proj1 (Nat.leb_le 2 8) eq_refl) xpow256_255
           (proj2 (chk_exp_spec _ _ _ _ rs28m_exp_ok)) La Ea Lb Eb).
Qed.

Lemma rs28_mulm_is_gf28_mul : rs28_mulm = gf28_mul.
Proof.
  rewrite gf28_mul_table. unfold rs28_mulm. rewrite init_mul_table_eq.
  change (N.to_nat (gf_size rs28_gf_bits + 1)) with 256%nat.
  apply map_ext_in. intros a Ha. apply map_ext_in. intros b Hb. apply in_seq in Ha, Hb.
  destruct (N.eqb_spec (N.of_nat a) 0) as [->|Na]; [symmetry; apply (gf_mul_0_l 8 P256)|].
  destruct (N.eqb_spec (N.of_nat b) 0) as [->|Nb]; [symmetry; apply (additive_0 _ (gfmul_xor_r 8 P256 _))|].
  apply rs28_entry; lia.
Qed.

Lemma rs28_generated_tables_are_field_proof :
  rs28_gf_bits = 8 /\
  (forall a b, a < 256 -> b < 256 -> get2 rs28_mulm a b = mul256 a b) /\
  (length (t_exp rs28_tabs) = 510%nat /\ forall i, (i < 510)%nat -> nth i (t_exp rs28_tabs) 0 = xpow 8 P256 i) /\
  (length (t_log rs28_tabs) = 256%nat /\ getN (t_log rs28_tabs) 0 = 255 /\
     forall a, 0 < a -> a < 256 -> getN (t_log rs28_tabs) a < 255 /\
                                   xpow 8 P256 (N.to_nat (getN (t_log rs28_tabs) a)) = a) /\
  (length (t_inv rs28_tabs) = 256%nat /\ getN (t_inv rs28_tabs) 0 = 0 /\
     forall a, 0 < a -> a < 256 -> getN (t_inv rs28_tabs) a < 256 /\ mul256 a (getN (t_inv rs28_tabs) a) = 1).
Proof.
  split; [reflexivity|].
  split; [rewrite rs28_mulm_is_gf28_mul; apply gf28_tables_are_field_proof|].
  split; [exact (chk_exp_spec _ _ _ _ rs28m_exp_ok)|].
  split; [split; [exact rs28_log_length|exact (chk_log_spec1 256 _ _ _ rs28m_log_ok rs28_log_length)]|].
  exact (chk_inv_spec 256 mul256 _ rs28m_inv_ok).
Qed.
