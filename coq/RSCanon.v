(* RSCanon: the canonical systematic Reed-Solomon code over GF(256) and GF(16),
   as executable N-level definitions, with the abstract theory of RSSpec.v
   transferred along val : GF q -> N. *)
From Coq Require Import List Arith NArith Bool Lia.
From OFV Require Import ListAux GF2Poly RSSpec GFField.
Import ListNotations.

Section NDDefs.
  Variable F : Type.
  Variables (zero one : F) (add mul : F -> F -> F) (opp inv : F -> F).

  (* `lagr` as the encoders compute it: the product of the numerators times ONE inverse, that of the product
     of the denominators (n for numerator, d for denominator); equal to `lagr` on distinct points, lagr_nd_eq. *)
  Definition lagr_nd (pts : list F) (i : nat) (x : F) : F :=
    mul (prod F one mul
           (map (fun j => sub F add opp x (nth j pts zero))
                (filter (fun j => negb (Nat.eqb j i)) (seq 0 (length pts)))))
        (inv (prod F one mul
           (map (fun j => sub F add opp (nth i pts zero) (nth j pts zero))
                (filter (fun j => negb (Nat.eqb j i)) (seq 0 (length pts)))))).
End NDDefs.

Section NDHom.
  Variables F1 F2 : Type.
  Variables (zero1 one1 : F1) (add1 mul1 : F1 -> F1 -> F1) (opp1 inv1 : F1 -> F1).
  Variables (zero2 one2 : F2) (add2 mul2 : F2 -> F2 -> F2) (opp2 inv2 : F2 -> F2).
  Variable phi : F1 -> F2.
  Hypothesis phi_zero : phi zero1 = zero2.
  Hypothesis phi_one : phi one1 = one2.
  Hypothesis phi_add : forall a b, phi (add1 a b) = add2 (phi a) (phi b).
  Hypothesis phi_mul : forall a b, phi (mul1 a b) = mul2 (phi a) (phi b).
  Hypothesis phi_opp : forall a, phi (opp1 a) = opp2 (phi a).
  Hypothesis phi_inv : forall a, phi (inv1 a) = inv2 (phi a).

  Lemma hom_lagr_nd : forall pts i x,
    phi (lagr_nd F1 zero1 one1 add1 mul1 opp1 inv1 pts i x)
    = lagr_nd F2 zero2 one2 add2 mul2 opp2 inv2 (map phi pts) i (phi x).
  Proof.
    intros pts i x. unfold lagr_nd.
    rewrite phi_mul, phi_inv.
    rewrite !(hom_prod F1 F2 one1 mul1 one2 mul2 phi phi_one phi_mul).
    rewrite !map_map, map_length.
    (* numerator and denominator, factor by factor *)
    f_equal; [|f_equal]; f_equal; apply map_ext; intros j.
    - rewrite (hom_sub F1 F2 add1 opp1 add2 opp2 phi phi_add phi_opp).
      rewrite (hom_nth F1 F2 zero1 zero2 phi phi_zero). reflexivity.
    - rewrite (hom_sub F1 F2 add1 opp1 add2 opp2 phi phi_add phi_opp).
      rewrite !(hom_nth F1 F2 zero1 zero2 phi phi_zero). reflexivity.
  Qed.
End NDHom.

Local Open Scope N_scope.

Definition ptsN (m p : N) (k : nat) : list N := map (rs_point m p) (seq 0 k).

(* generator entry G[j][i] *)
Definition coefN (m p : N) (mul : N -> N -> N) (inv : N -> N) (k i j : nat) : N :=
  lagr_nd N 0 1 N.lxor mul (fun a => a) inv (ptsN m p k) i (rs_point m p j).

(* element j of the codeword of the k field elements src *)
Definition elemN (m p : N) (mul : N -> N -> N) (inv : N -> N)
                 (k : nat) (src : list N) (j : nat) : N :=
  fold_right N.lxor 0
    (map (fun i => mul (nth i src 0) (coefN m p mul inv k i j)) (seq 0 k)).

Definition coef256 (k i j : nat) : N := coefN 8 P256 mul256 inv256 k i j.
Definition elem256 (k : nat) (src : list N) (j : nat) : N :=
  elemN 8 P256 mul256 inv256 k src j.
Definition coef16 (k i j : nat) : N := coefN 4 P16 mul16 inv16 k i j.
Definition elem16 (k : nat) (src : list N) (j : nat) : N :=
  elemN 4 P16 mul16 inv16 k src j.

Definition pow256 (x : N) (t : nat) : N := pow N 1 mul256 x t.
Definition pow16 (x : N) (t : nat) : N := pow N 1 mul16 x t.

Section Canon.
  Variables (m p : N) (mulN : N -> N -> N) (invN : N -> N).
  Variable q : N.
  Variable qn : nat.
  Variable G : Type.
  Variables (zero one : G) (add mul : G -> G -> G) (opp inv : G -> G).

  Hypothesis eq_dec : forall a b : G, {a = b} + {a <> b}.
  Hypothesis add_comm : forall a b, add a b = add b a.
  Hypothesis add_assoc : forall a b c, add a (add b c) = add (add a b) c.
  Hypothesis add_0_l : forall a, add zero a = a.
  Hypothesis add_opp_r : forall a, add a (opp a) = zero.
  Hypothesis mul_comm : forall a b, mul a b = mul b a.
  Hypothesis mul_assoc : forall a b c, mul a (mul b c) = mul (mul a b) c.
  Hypothesis mul_1_l : forall a, mul one a = a.
  Hypothesis mul_add_distr_l : forall a b c, mul a (add b c) = add (mul a b) (mul a c).
  Hypothesis mul_inv_r : forall a, a <> zero -> mul a (inv a) = one.
  Hypothesis one_neq_zero : one <> zero.

  Variable phi : G -> N.
  Variable psi : N -> G.
  Hypothesis phi_zero : phi zero = 0.
  Hypothesis phi_one : phi one = 1.
  Hypothesis phi_add : forall a b, phi (add a b) = N.lxor (phi a) (phi b).
  Hypothesis phi_mul : forall a b, phi (mul a b) = mulN (phi a) (phi b).
  Hypothesis phi_opp : forall a, phi (opp a) = phi a.
  Hypothesis phi_inv : forall a, phi (inv a) = invN (phi a).
  Hypothesis phi_inj : forall a b, phi a = phi b -> a = b.
  Hypothesis phi_lt : forall a, phi a < q.
  Hypothesis phi_psi : forall a, a < q -> phi (psi a) = a.
  Hypothesis pt_lt : forall j, (j < qn)%nat -> rs_point m p j < q.
  Hypothesis pt_inj : forall i j, (i < qn)%nat -> (j < qn)%nat ->
    rs_point m p i = rs_point m p j -> i = j.

  Local Notation idN := (fun a : N => a).
  Local Notation lagrG := (lagr G zero one add mul opp inv).
  Local Notation lagr_ndG := (lagr_nd G zero one add mul opp inv).
  Local Notation rsG := (rs_sym G zero one add mul opp inv).
  Local Notation sumG := (sum G zero add).
  Local Notation powG := (pow G one mul).
  Local Notation powN := (pow N 1 mulN).
  Local Notation pt := (rs_point m p).
  Local Notation ltq := (fun a : N => a < q).

  Definition ptsG (k : nat) : list G := map psi (ptsN m p k).

  Lemma lagr_nd_eq : forall pts i x,
    NoDup pts -> (i < length pts)%nat -> lagr_ndG pts i x = lagrG pts i x.
  Proof.
    intros pts i x ND Hi. symmetry.
    exact (lagr_one_inv G zero one add mul opp inv eq_dec add_comm add_assoc add_0_l add_opp_r
             mul_comm mul_assoc mul_1_l mul_add_distr_l mul_inv_r one_neq_zero pts i x ND Hi).
  Qed.

  Lemma psi_zero : psi 0 = zero.
  Proof.
    apply phi_inj. rewrite phi_zero. apply phi_psi. rewrite <- phi_zero. apply phi_lt.
  Qed.

  Lemma map_phi_psi : forall l, Forall ltq l -> map phi (map psi l) = l.
  Proof.
    intros l HF. induction HF as [|a l Ha HF IH].
    - reflexivity.
    - cbn [map]. rewrite (phi_psi a Ha), IH. reflexivity.
  Qed.

  Lemma phi_nth_psi : forall l i, Forall ltq l -> phi (nth i (map psi l) zero) = nth i l 0.
  Proof.
    intros l i HF. rewrite <- (hom_nth G N zero 0 phi phi_zero), (map_phi_psi l HF). reflexivity.
  Qed.

  Lemma ptsN_length : forall k, length (ptsN m p k) = k.
  Proof. intros k. unfold ptsN. rewrite map_length, seq_length. reflexivity. Qed.

  Lemma ptsN_lt : forall k, (k <= qn)%nat -> Forall ltq (ptsN m p k).
  Proof.
    intros k Hk. apply Forall_forall. intros x Hx. unfold ptsN in Hx.
    apply in_map_iff in Hx. destruct Hx as [j [<- Hj]].
    apply in_seq in Hj. apply pt_lt. lia.
  Qed.

  Lemma nth_ptsN : forall k j, (j < k)%nat -> nth j (ptsN m p k) 0 = pt j.
  Proof. intros k j Hj. unfold ptsN. apply nth_map_seq. exact Hj. Qed.

  Lemma ptsG_length : forall k, length (ptsG k) = k.
  Proof. intros k. unfold ptsG. rewrite map_length. apply ptsN_length. Qed.

  Lemma map_phi_ptsG : forall k, (k <= qn)%nat -> map phi (ptsG k) = ptsN m p k.
  Proof.
    intros k Hk. unfold ptsG. apply map_phi_psi. apply ptsN_lt. exact Hk.
  Qed.

  Lemma nth_ptsG : forall k j, (j < k)%nat -> nth j (ptsG k) zero = psi (pt j).
  Proof.
    intros k j Hj. unfold ptsG. rewrite <- psi_zero, map_nth, nth_ptsN by exact Hj. reflexivity.
  Qed.

  Lemma phi_psi_pt : forall j, (j < qn)%nat -> phi (psi (pt j)) = pt j.
  Proof. intros j Hj. apply phi_psi. apply pt_lt. exact Hj. Qed.

  Lemma NoDup_psi_pt : forall J : list nat, NoDup J ->
    (forall j, In j J -> (j < qn)%nat) -> NoDup (map (fun j => psi (pt j)) J).
  Proof.
    intros J ND HJ. apply NoDup_map_iff. split; [exact ND|].
    intros x y Hx Hy E. apply (pt_inj x y (HJ x Hx) (HJ y Hy)).
    rewrite <- (phi_psi_pt x (HJ x Hx)), <- (phi_psi_pt y (HJ y Hy)), E. reflexivity.
  Qed.

  Lemma ptsG_NoDup : forall k, (k <= qn)%nat -> NoDup (ptsG k).
  Proof.
    intros k Hk. unfold ptsG, ptsN. rewrite map_map.
    apply NoDup_psi_pt; [apply seq_NoDup|].
    intros j Hj. apply in_seq in Hj. lia.
  Qed.

  Lemma coefN_phi : forall k i j, (k <= qn)%nat -> (i < k)%nat -> (j < qn)%nat ->
    coefN m p mulN invN k i j = phi (lagrG (ptsG k) i (psi (pt j))).
  Proof.
    intros k i j Hk Hi Hj. unfold coefN.
    rewrite <- (lagr_nd_eq (ptsG k) i (psi (pt j)) (ptsG_NoDup k Hk))
      by (rewrite ptsG_length; exact Hi).
    rewrite (hom_lagr_nd G N zero one add mul opp inv 0 1 N.lxor mulN idN invN phi
               phi_zero phi_one phi_add phi_mul phi_opp phi_inv).
    rewrite (map_phi_ptsG k Hk), (phi_psi_pt j Hj). reflexivity.
  Qed.

  Theorem coefN_lt : forall k i j, (k <= qn)%nat -> (i < k)%nat -> (j < qn)%nat ->
    coefN m p mulN invN k i j < q.
  Proof.
    intros k i j Hk Hi Hj. rewrite (coefN_phi k i j Hk Hi Hj). apply phi_lt.
  Qed.

  Theorem coefN_systematic : forall k i j, (k <= qn)%nat -> (i < k)%nat -> (j < k)%nat ->
    coefN m p mulN invN k i j = if Nat.eqb i j then 1 else 0.
  Proof.
    intros k i j Hk Hi Hj.
    rewrite (coefN_phi k i j Hk Hi) by lia.
    rewrite <- (nth_ptsG k j Hj).
    rewrite (lagr_delta G zero one add mul opp inv add_comm add_assoc add_0_l add_opp_r
               mul_comm mul_assoc mul_1_l mul_add_distr_l mul_inv_r
               (ptsG k) i j (ptsG_NoDup k Hk))
      by (rewrite ptsG_length; assumption).
    destruct (Nat.eqb i j); [exact phi_one|exact phi_zero].
  Qed.

  Lemma elemN_phi : forall k src j, (k <= qn)%nat -> Forall ltq src -> (j < qn)%nat ->
    elemN m p mulN invN k src j = phi (rsG (ptsG k) (map psi src) (psi (pt j))).
  Proof.
    intros k src j Hk HF Hj. unfold rs_sym.
    rewrite (hom_sum G N zero add 0 N.lxor phi phi_zero phi_add), map_map, ptsG_length.
    apply (f_equal (fold_right N.lxor 0)), map_ext_in. intros i Hi. apply in_seq in Hi.
    rewrite phi_mul, (phi_nth_psi src i HF), (coefN_phi k i j Hk) by lia. reflexivity.
  Qed.

  Theorem elemN_systematic : forall k src j,
    (k <= qn)%nat -> length src = k -> Forall ltq src -> (j < k)%nat ->
    elemN m p mulN invN k src j = nth j src 0.
  Proof.
    intros k src j Hk HL HF Hj.
    rewrite (elemN_phi k src j Hk HF) by lia.
    rewrite <- (nth_ptsG k j Hj).
    rewrite (rs_systematic G zero one add mul opp inv add_comm add_assoc add_0_l add_opp_r
               mul_comm mul_assoc mul_1_l mul_add_distr_l mul_inv_r
               (ptsG k) (map psi src) j (ptsG_NoDup k Hk)).
    - apply phi_nth_psi. exact HF.
    - rewrite map_length, ptsG_length. exact HL.
    - rewrite ptsG_length. exact Hj.
  Qed.

  Theorem elemN_mds : forall k src src',
    (k <= qn)%nat -> length src = k -> length src' = k ->
    Forall ltq src -> Forall ltq src' ->
    forall J : list nat, NoDup J -> length J = k ->
      (forall j, In j J -> (j < qn)%nat) ->
      (forall j, In j J -> elemN m p mulN invN k src j = elemN m p mulN invN k src' j) ->
      src = src'.
  Proof.
    intros k src src' Hk HL HL' HF HF' J ND HLJ HJ HE.
    rewrite <- (map_phi_psi src HF), <- (map_phi_psi src' HF'). f_equal.
    apply (rs_mds G zero one add mul opp inv eq_dec add_comm add_assoc add_0_l add_opp_r
             mul_comm mul_assoc mul_1_l mul_add_distr_l mul_inv_r
             (ptsG k) (map psi src) (map psi src') (map (fun j => psi (pt j)) J)).
    - apply ptsG_NoDup. exact Hk.
    - rewrite map_length, ptsG_length. exact HL.
    - rewrite map_length, ptsG_length. exact HL'.
    - apply NoDup_psi_pt; assumption.
    - rewrite map_length, ptsG_length. exact HLJ.
    - intros y Hy. apply in_map_iff in Hy. destruct Hy as [j [<- Hj]].
      apply phi_inj.
      rewrite <- (elemN_phi k src j Hk HF (HJ j Hj)), <- (elemN_phi k src' j Hk HF' (HJ j Hj)).
      apply HE. exact Hj.
  Qed.

  (* the image under phi of a row of the product "coefficients times Vandermonde matrix" *)
  Lemma phi_vdm : forall (c : nat -> G) (cN : nat -> N) k t,
    (k <= qn)%nat -> (forall i, (i < k)%nat -> phi (c i) = cN i) ->
    phi (sumG (map (fun i => mul (c i) (powG (nth i (ptsG k) zero) t)) (seq 0 k)))
    = fold_right N.lxor 0 (map (fun i => mulN (cN i) (powN (pt i) t)) (seq 0 k)).
  Proof.
    intros c cN k t Hk Hc.
    rewrite (hom_sum G N zero add 0 N.lxor phi phi_zero phi_add), map_map.
    apply (f_equal (fold_right N.lxor 0)), map_ext_in. intros i Hi. apply in_seq in Hi.
    rewrite phi_mul, (hom_pow G N one mul 1 mulN phi phi_one phi_mul), (Hc i), (nth_ptsG k i),
      (phi_psi_pt i) by lia.
    reflexivity.
  Qed.

  Theorem coefN_vandermonde : forall k j t,
    (k <= qn)%nat -> (j < qn)%nat -> (t < k)%nat ->
    fold_right N.lxor 0
      (map (fun i => mulN (coefN m p mulN invN k i j) (powN (pt i) t)) (seq 0 k))
    = powN (pt j) t.
  Proof.
    intros k j t Hk Hj Ht.
    pose proof (rs_vandermonde G zero one add mul opp inv eq_dec add_comm add_assoc add_0_l
                  add_opp_r mul_comm mul_assoc mul_1_l mul_add_distr_l mul_inv_r
                  (ptsG k) t (psi (pt j)) (ptsG_NoDup k Hk)) as HV.
    rewrite ptsG_length in HV. apply (f_equal phi) in HV; [|exact Ht].
    rewrite (phi_vdm _ (fun i => coefN m p mulN invN k i j) k t Hk) in HV
      by (intros i Hi; symmetry; apply (coefN_phi k i j Hk Hi Hj)).
    rewrite (hom_pow G N one mul 1 mulN phi phi_one phi_mul), (phi_psi_pt j Hj) in HV. exact HV.
  Qed.

  Theorem coefN_unique : forall k j g,
    (k <= qn)%nat -> (j < qn)%nat -> length g = k -> Forall ltq g ->
    (forall t, (t < k)%nat ->
       fold_right N.lxor 0
         (map (fun i => mulN (nth i g 0) (powN (pt i) t)) (seq 0 k)) = powN (pt j) t) ->
    forall i, (i < k)%nat -> nth i g 0 = coefN m p mulN invN k i j.
  Proof.
    intros k j g Hk Hj HL HF HV i Hi.
    rewrite (coefN_phi k i j Hk Hi Hj), <- (phi_nth_psi g i HF). f_equal.
    apply (gen_row_unique G zero one add mul opp inv add_comm add_assoc add_0_l
             add_opp_r mul_comm mul_assoc mul_1_l mul_add_distr_l mul_inv_r
             (ptsG k) (map psi g) (psi (pt j)) (ptsG_NoDup k Hk)).
    - rewrite map_length, ptsG_length. exact HL.
    - rewrite ptsG_length. intros t Ht. apply phi_inj.
      rewrite (phi_vdm _ (fun i' => nth i' g 0) k t Hk) by (intros i' _; apply phi_nth_psi; exact HF).
      rewrite (hom_pow G N one mul 1 mulN phi phi_one phi_mul), (phi_psi_pt j Hj).
      apply HV. exact Ht.
    - rewrite ptsG_length. exact Hi.
  Qed.
End Canon.

(* The hypotheses of Section Canon at GF(16), for a user that gives phi and psi and leaves the rest open.
   val_inv is tried first: on the goal val (F16_inv a) = inv16 (val a) every other lemma is refuted (or,
   for val_opp, accepted) only after the product inv16 has been unfolded. *)
Ltac field16 :=
  first [ exact F16_val_inv
        | exact F16_eq_dec | exact F16_add_comm | exact F16_add_assoc
        | exact F16_add_0_l | exact F16_add_opp_r | exact F16_mul_comm
        | exact F16_mul_assoc | exact F16_mul_1_l | exact F16_mul_add_distr_l
        | exact F16_mul_inv_r | exact F16_one_neq_zero
        | exact F16_val_zero | exact F16_val_one | exact F16_val_add
        | exact F16_val_mul | exact F16_val_opp
        | exact (val_inj 16) | exact F16_val_lt | exact of_N16_val_lt
        | exact rs_point16_lt | exact rs_point16_inj ].

Theorem coef256_lt : forall k i j,
  (k <= 256)%nat -> (i < k)%nat -> (j < 256)%nat -> coef256 k i j < 256.
Proof.
  exact (coefN_lt 8 P256 mul256 inv256 256 256%nat (GF 256)
           F256_zero F256_one F256_add F256_mul F256_opp F256_inv F256_eq_dec
           F256_add_comm F256_add_assoc F256_add_0_l F256_add_opp_r F256_mul_comm F256_mul_assoc
           F256_mul_1_l F256_mul_add_distr_l F256_mul_inv_r F256_one_neq_zero val of_N256
           F256_val_zero F256_val_one F256_val_add F256_val_mul F256_val_opp F256_val_inv
           F256_val_lt of_N256_val_lt rs_point256_lt rs_point256_inj).
Qed.

Theorem elem256_systematic : forall k src j,
  (k <= 256)%nat -> length src = k -> Forall (fun a => a < 256) src -> (j < k)%nat ->
  elem256 k src j = nth j src 0.
Proof.
  exact (elemN_systematic 8 P256 mul256 inv256 256 256%nat (GF 256)
           F256_zero F256_one F256_add F256_mul F256_opp F256_inv F256_eq_dec
           F256_add_comm F256_add_assoc F256_add_0_l F256_add_opp_r F256_mul_comm F256_mul_assoc
           F256_mul_1_l F256_mul_add_distr_l F256_mul_inv_r F256_one_neq_zero val of_N256
           F256_val_zero F256_val_one F256_val_add F256_val_mul F256_val_opp F256_val_inv
           (val_inj 256) F256_val_lt of_N256_val_lt rs_point256_lt rs_point256_inj).
Qed.

Theorem coef16_lt : forall k i j,
  (k <= 16)%nat -> (i < k)%nat -> (j < 16)%nat -> coef16 k i j < 16.
Proof.
  exact (coefN_lt 4 P16 mul16 inv16 16 16%nat (GF 16)
           F16_zero F16_one F16_add F16_mul F16_opp F16_inv F16_eq_dec
           F16_add_comm F16_add_assoc F16_add_0_l F16_add_opp_r F16_mul_comm F16_mul_assoc
           F16_mul_1_l F16_mul_add_distr_l F16_mul_inv_r F16_one_neq_zero val of_N16
           F16_val_zero F16_val_one F16_val_add F16_val_mul F16_val_opp F16_val_inv
           F16_val_lt of_N16_val_lt rs_point16_lt rs_point16_inj).
Qed.

Theorem coef16_systematic : forall k i j,
  (k <= 16)%nat -> (i < k)%nat -> (j < k)%nat ->
  coef16 k i j = if Nat.eqb i j then 1 else 0.
Proof.
  exact (coefN_systematic 4 P16 mul16 inv16 16 16%nat (GF 16)
           F16_zero F16_one F16_add F16_mul F16_opp F16_inv F16_eq_dec
           F16_add_comm F16_add_assoc F16_add_0_l F16_add_opp_r F16_mul_comm F16_mul_assoc
           F16_mul_1_l F16_mul_add_distr_l F16_mul_inv_r F16_one_neq_zero val of_N16
           F16_val_zero F16_val_one F16_val_add F16_val_mul F16_val_opp F16_val_inv
           (val_inj 16) F16_val_lt of_N16_val_lt rs_point16_lt rs_point16_inj).
Qed.

Theorem elem16_systematic : forall k src j,
  (k <= 16)%nat -> length src = k -> Forall (fun a => a < 16) src -> (j < k)%nat ->
  elem16 k src j = nth j src 0.
Proof.
  exact (elemN_systematic 4 P16 mul16 inv16 16 16%nat (GF 16)
           F16_zero F16_one F16_add F16_mul F16_opp F16_inv F16_eq_dec
           F16_add_comm F16_add_assoc F16_add_0_l F16_add_opp_r F16_mul_comm F16_mul_assoc
           F16_mul_1_l F16_mul_add_distr_l F16_mul_inv_r F16_one_neq_zero val of_N16
           F16_val_zero F16_val_one F16_val_add F16_val_mul F16_val_opp F16_val_inv
           (val_inj 16) F16_val_lt of_N16_val_lt rs_point16_lt rs_point16_inj).
Qed.

(* Expected values computed independently as rows of V_n * V_k^-1 (Vandermonde matrices on the
   points 0, 1, x, x^2, ...).  k = 2: the line through (0,s0), (1,s1) at the point x = 2 is
   s0 + 2*(s0+s1) = 3*s0 + 2*s1. *)
Example coef256_2_0_2 : coef256 2 0 2 = 3.
Proof. vm_compute. reflexivity. Qed.
Example coef256_2_1_2 : coef256 2 1 2 = 2.
Proof. vm_compute. reflexivity. Qed.
Example coef256_2_row4 : (coef256 2 0 4, coef256 2 1 4) = (9, 8).
Proof. vm_compute. reflexivity. Qed.
Example coef256_3_row4 : map (fun i => coef256 3 i 4) (seq 0 3) = [45; 48; 28].
Proof. vm_compute. reflexivity. Qed.
Example elem256_3_123_4 : elem256 3 [1; 2; 3] 4 = 105.
Proof. vm_compute. reflexivity. Qed.
Example coef256_4_row255 : map (fun i => coef256 4 i 255) (seq 0 4) = [74; 100; 25; 54].
Proof. vm_compute. reflexivity. Qed.
Example coef16_2_0_2 : coef16 2 0 2 = 3.
Proof. vm_compute. reflexivity. Qed.
Example coef16_2_1_2 : coef16 2 1 2 = 2.
Proof. vm_compute. reflexivity. Qed.
Example coef16_3_row4 : map (fun i => coef16 3 i 4) (seq 0 3) = [11; 5; 15].
Proof. vm_compute. reflexivity. Qed.
Example coef16_3_row15 : map (fun i => coef16 3 i 15) (seq 0 3) = [10; 4; 15].
Proof. vm_compute. reflexivity. Qed.
Example elem16_3_123_4 : elem16 3 [1; 2; 3] 4 = 3.
Proof. vm_compute. reflexivity. Qed.
Example elem16_3_123_15 : elem16 3 [1; 2; 3] 15 = 0.
Proof. vm_compute. reflexivity. Qed.

Print Assumptions lagr_nd_eq.
Print Assumptions hom_lagr_nd.
Print Assumptions elem256_systematic.
Print Assumptions elem16_systematic.
