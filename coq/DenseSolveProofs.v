(* Soundness of the dense solver of DenseSolve.v over any XOR group of symbols.  Eqv relates two systems by
   their solutions restricted to a family of rows P (solP); Lower and Diag are the invariant of the column
   loop of triangularize, each step an Eqv; on a unit upper triangular system back_subst returns what every
   solution must be, so the result agrees with any solution and is one whenever one exists. *)
From Coq Require Import Arith List Bool Lia.
From OFV Require Import ListAux XorGroup DenseSolve.
Import ListNotations.

Lemma nth_swap {X} (l : list X) i j d r : i < length l -> j < length l ->
  nth r (swap l i j d) d = if r =? j then nth i l d else if r =? i then nth j l d else nth r l d.
Proof.
  intros Hi%Nat.ltb_lt Hj%Nat.ltb_lt. unfold swap. rewrite !nth_upd, upd_length, Hi, Hj, !andb_true_r. reflexivity.
Qed.

Section P.
Variable Sy : Type. Variable sxor : Sy -> Sy -> Sy. Variable s0 : Sy.
Hypothesis sxor_assoc : forall a b c, sxor a (sxor b c) = sxor (sxor a b) c.
Hypothesis sxor_comm : forall a b, sxor a b = sxor b a.
Hypothesis sxor_0_l : forall a, sxor s0 a = a.
Hypothesis sxor_nilp : forall a, sxor a a = s0.
Variable p q : nat.     (* p equations, q unknowns *)

Notation xsum := (xsum Sy sxor s0).
Notation sys := (sys Sy).
Notation val := (val Sy s0).
Notation elim_row := (elim_row Sy sxor s0).
Notation col_forward := (col_forward Sy sxor s0).
Notation triangularize := (triangularize Sy sxor s0).
Notation back_subst := (back_subst Sy sxor s0).
Let s0r := sxor_0_r Sy sxor s0 sxor_comm sxor_0_l.

Definition dot (row : list bool) (x : list Sy) : Sy :=
  xsum (map (fun j => if bit row j then nth j x s0 else s0) (seq 0 q)).
Definition sol (y : sys) (x : list Sy) : Prop :=
  forall r, r < p -> dot (getrow (sA y) r) x = val (nth r (sb y) None).
Record WFs (y : sys) : Prop := {
  w_rows : length (sA y) = p; w_b : length (sb y) = p;
  w_len : forall r, r < p -> length (getrow (sA y) r) = q }.

(* word-granular row XOR = full row XOR when the added row is zero before that word *)
Lemma bit_xor_from_aux c0 : forall s t i c, length s = length t ->
  bit (xor_from_aux c0 i s t) c = if c0 <=? i + c then xorb (bit s c) (bit t c) else bit s c.
Proof.
  unfold bit. induction s as [|x s IH]; intros [|y t] i c Hl; simpl in *; try discriminate.
  - destruct c; simpl; destruct (c0 <=? _); reflexivity.
  - destruct c as [|c]; simpl.
    + now rewrite Nat.add_0_r.
    + rewrite IH by lia. now rewrite Nat.add_succ_r.
Qed.

Lemma bit_xor_row_from c0 s t c : length s = length t -> (forall c', c' < c0 -> bit t c' = false) ->
  bit (xor_row_from c0 s t) c = xorb (bit s c) (bit t c).
Proof.
  intros Hl Hz. unfold xor_row_from. rewrite bit_xor_from_aux by exact Hl. simpl.
  destruct (Nat.leb_spec c0 c); [reflexivity|]. rewrite (Hz c) by lia. now rewrite xorb_false_r.
Qed.

Lemma xor_from_aux_length c0 : forall s t i, length (xor_from_aux c0 i s t) = length s.
Proof. induction s as [|x s IH]; intros [|y t] i; simpl; auto. Qed.

Lemma find_pivot_spec A i : forall cnt j,
  match find_pivot A i j cnt with
  | Some j' => j <= j' < j + cnt /\ bit (getrow A j') i = true
  | None => forall r, j <= r < j + cnt -> bit (getrow A r) i = false
  end.
Proof.
  induction cnt as [|c IH]; intros j; simpl; [intros r Hr; lia|].
  destruct (bit (getrow A j) i) eqn:E; [split; [lia|exact E]|].
  specialize (IH (S j)). destruct (find_pivot A i (S j) c) as [j'|]; [split; [lia|apply IH]|].
  intros r Hr. destruct (Nat.eq_dec r j) as [->|Hne]; [exact E|apply IH; lia].
Qed.

Lemma col_forward_lt (y y' : sys) i : col_forward p y i = Some y' -> i < p.
Proof.
  unfold col_forward. pose proof (find_pivot_spec (sA y) i (p - i) i) as F.
  destruct (find_pivot (sA y) i i (p - i)); [lia|discriminate].
Qed.

(* every step keeps the shape: p rows of q bits, p constant terms *)
Lemma WFs_upd (y : sys) j row b' : WFs y -> (j < p -> length row = q) -> length b' = p ->
  WFs {| sA := upd (sA y) j row; sb := b' |}.
Proof.
  intros W Hrow Hb. constructor; cbn [sA sb]; [rewrite upd_length; apply W|exact Hb|].
  intros r Hr. unfold getrow. destruct (Nat.eq_dec j r) as [->|Hne].
  - rewrite nth_upd_eq by (rewrite (w_rows y W); exact Hr). apply Hrow, Hr.
  - rewrite nth_upd_neq by exact Hne. apply W, Hr.
Qed.

Lemma elim_row_WFs (y : sys) i j : WFs y -> WFs (elim_row i y j).
Proof.
  intros W. unfold elim_row. destruct (bit (getrow (sA y) j) i); [|exact W].
  assert (Hx : j < p -> length (xor_row_from (32 * (i / 32)) (getrow (sA y) j) (getrow (sA y) i)) = q).
  { intros Hj. unfold xor_row_from. rewrite xor_from_aux_length. apply W, Hj. }
  destruct (nth i (sb y) None); apply WFs_upd; auto; rewrite upd_length; apply W.
Qed.

Lemma swap_WFs (y : sys) i j : WFs y -> i < p -> j < p -> WFs {| sA := swap (sA y) i j []; sb := swap (sb y) i j None |}.
Proof.
  intros W Hi Hj. unfold swap.
  apply (WFs_upd {| sA := upd (sA y) i (getrow (sA y) j); sb := sb y |});
    [apply WFs_upd; [exact W|intros _; apply W, Hj|apply W]|intros _; apply W, Hi|].
  rewrite !upd_length. apply W.
Qed.

Lemma col_forward_WFs (y y' : sys) i : WFs y -> col_forward p y i = Some y' -> WFs y'.
Proof.
  intros W H. pose proof (col_forward_lt y y' i H) as Hi. unfold col_forward in H.
  pose proof (find_pivot_spec (sA y) i (p - i) i) as F.
  destruct (find_pivot (sA y) i i (p - i)) as [j|]; [|discriminate]. injection H as <-.
  apply (fold_left_inv WFs); [intros a r; apply elim_row_WFs|]. destruct (j =? i); [exact W|]. apply swap_WFs; [exact W|lia|lia].
Qed.

Lemma triangularize_WFs : forall cols (y y' : sys), WFs y -> triangularize p cols y = Some y' -> WFs y'.
Proof.
  induction cols as [|i rest IH]; intros y y' W H; cbn [DenseSolve.triangularize] in H; [now injection H as <-|].
  destruct (col_forward p y i) as [y1|] eqn:E; [|discriminate].
  exact (IH y1 y' (col_forward_WFs y y1 i W E) H).
Qed.

(* a column that found its pivot is a row index: back-substitution over q columns only runs when q <= p *)
Lemma triangularize_lt : forall cols (y y' : sys), triangularize p cols y = Some y' -> forall i, In i cols -> i < p.
Proof.
  induction cols as [|i rest IH]; intros y y' H k Hk; [destruct Hk|]. cbn [DenseSolve.triangularize] in H.
  destruct (col_forward p y i) as [y1|] eqn:E; [|discriminate].
  destruct Hk as [<-|Hk]; [exact (col_forward_lt y y1 i E)|exact (IH y1 y' H k Hk)].
Qed.

Lemma back_subst_length (y : sys) : forall cnt x, length (back_subst q y cnt x) = length x.
Proof. induction cnt as [|c IH]; intros x; simpl; [reflexivity|]. now rewrite IH, upd_length. Qed.

Lemma solve_length (y : sys) x : solve Sy sxor s0 p q y = Some x -> length x = q.
Proof.
  unfold solve. destruct (triangularize p (seq 0 q) y) as [y'|]; [|discriminate]. intros H. injection H as <-.
  rewrite back_subst_length. apply repeat_length.
Qed.

Lemma dot_xor r' s t x : (forall c, c < q -> bit r' c = xorb (bit s c) (bit t c)) -> dot r' x = sxor (dot s x) (dot t x).
Proof.
  intros H. unfold dot. rewrite <- (xsum_pointwise Sy sxor s0 sxor_assoc sxor_comm sxor_0_l).
  f_equal. apply map_ext_in. intros c Hc. apply in_seq in Hc. rewrite H by lia.
  destruct (bit s c), (bit t c); simpl; auto.
Qed.

Lemma dot_ext_x r x x' : (forall j, j < q -> bit r j = true -> nth j x s0 = nth j x' s0) -> dot r x = dot r x'.
Proof.
  intros H. unfold dot. f_equal. apply map_ext_in. intros c Hc. apply in_seq in Hc.
  destruct (bit r c) eqn:E; [apply H; [lia|exact E]|reflexivity].
Qed.

(* a row of a unit upper triangular matrix: x_i + sum_{j > i, A_ij} x_j *)
Lemma dot_tri row x i : i < q -> (forall c, c < i -> bit row c = false) -> bit row i = true ->
  dot row x = sxor (nth i x s0) (xsum (map (fun j => if bit row j then nth j x s0 else s0) (seq (S i) (q - S i)))).
Proof.
  intros Hi Hz Hd. unfold dot.
  replace q with (i + S (q - S i)) at 1 by lia. rewrite seq_app. cbn [seq Nat.add].
  rewrite map_app, (xsum_app Sy sxor s0 sxor_assoc sxor_0_l).
  rewrite (map_ext_in _ (fun _ => s0)) by (intros c Hc; apply in_seq in Hc; now rewrite Hz by lia).
  rewrite (xsum_zero Sy sxor s0 sxor_0_l), sxor_0_l. cbn [map]. now rewrite Hd.
Qed.

Definition vb (y : sys) (r : nat) : Sy := val (nth r (sb y) None).

(* The equations of the rows selected by P.  Rows that are zero on the q columns cannot become pivots, are
   never changed and their constant term is never read, so what the solver preserves is the solutions of any
   family of rows that contains the non-zero ones; only for the family of all rows does the converse hold. *)
Definition solP (P : list bool -> Prop) (y : sys) (x : list Sy) : Prop :=
  forall r, r < p -> P (getrow (sA y) r) -> dot (getrow (sA y) r) x = vb y r.
Definition covers (P : list bool -> Prop) : Prop := forall row c, c < q -> bit row c = true -> P row.
Definition Eqv (y y' : sys) : Prop :=
  (forall P x, covers P -> solP P y x -> solP P y' x) /\
  (forall x, solP (fun _ => True) y' x -> solP (fun _ => True) y x).

Lemma sol_all (y : sys) x : sol y x <-> solP (fun _ => True) y x.
Proof. split; intros H r Hr; [intros _|]; apply H; auto. Qed.

Lemma Eqv_refl y : Eqv y y.
Proof. split; auto. Qed.
Lemma Eqv_trans y1 y2 y3 : Eqv y1 y2 -> Eqv y2 y3 -> Eqv y1 y3.
Proof. intros [F1 B1] [F2 B2]. split; [intros P x HP H; apply F2, F1; assumption|intros x H; apply B1, B2, H]. Qed.

Lemma Eqv_sol y y' : Eqv y y' -> forall x, sol y' x <-> sol y x.
Proof.
  intros [F B] x. rewrite !sol_all. split; [apply B|]. apply F. intros row c _ _. exact I.
Qed.

(* adding row i to row j *)
Definition rowop i j (y y' : sys) : Prop :=
  (forall r, r <> j -> getrow (sA y') r = getrow (sA y) r) /\
  (forall c, bit (getrow (sA y') j) c = xorb (bit (getrow (sA y) j) c) (bit (getrow (sA y) i) c)) /\
  (forall r, r < p -> r <> j -> vb y' r = vb y r) /\ vb y' j = sxor (vb y j) (vb y i).

Lemma elim_row_sA (y : sys) i j : sA (elim_row i y j) =
  if bit (getrow (sA y) j) i then upd (sA y) j (xor_row_from (32 * (i / 32)) (getrow (sA y) j) (getrow (sA y) i)) else sA y.
Proof. unfold elim_row. destruct (bit (getrow (sA y) j) i); [destruct (nth i (sb y) None)|]; reflexivity. Qed.

Lemma elim_row_rowop (y : sys) i j : WFs y -> i < p -> j < p -> i <> j ->
  (forall c, c < 32 * (i / 32) -> bit (getrow (sA y) i) c = false) ->
  bit (getrow (sA y) j) i = true -> rowop i j y (elim_row i y j).
Proof.
  intros W Hi Hj Hne Hz Eb. pose proof (elim_row_sA y i j) as EA. rewrite Eb in EA.
  pose proof (w_rows y W) as HA. pose proof (w_b y W) as HB.
  split; [|split; [|split]].
  - intros r Hr. unfold getrow. rewrite EA. apply nth_upd_neq. auto.
  - intros c. unfold getrow at 1. rewrite EA, nth_upd_eq by lia.
    apply bit_xor_row_from; [rewrite !(w_len y W); auto|exact Hz].
  - intros r Hr Hrj. unfold vb, DenseSolve.elim_row. rewrite Eb. destruct (nth i (sb y) None) eqn:Eci; cbn [sb].
    + now rewrite nth_upd_neq by auto.
    + destruct (Nat.eq_dec r i) as [->|Hri]; [rewrite nth_upd_eq by lia; now rewrite Eci|now rewrite nth_upd_neq by auto].
  - unfold vb, DenseSolve.elim_row. rewrite Eb. destruct (nth i (sb y) None) eqn:Eci; cbn [sb].
    + rewrite nth_upd_eq by lia. destruct (nth j (sb y) None); simpl; [reflexivity|now rewrite sxor_0_l].
    + rewrite nth_upd_neq by exact Hne. simpl. now rewrite s0r.
Qed.

(* the equations of rows i and j are used, so both must be selected: they have a bit in column i *)
Lemma rowop_Eqv (y y' : sys) i j : rowop i j y y' -> i < p -> j < p -> i <> j -> i < q ->
  bit (getrow (sA y) i) i = true -> bit (getrow (sA y) j) i = true -> Eqv y y'.
Proof.
  intros (Hrows & Hrowj & Hvb & Hvbj) Hi Hj Hne Hiq Bi Bj.
  assert (Hd : forall x, dot (getrow (sA y') j) x = sxor (dot (getrow (sA y) j) x) (dot (getrow (sA y) i) x))
    by (intros x; apply dot_xor; intros; apply Hrowj).
  split.
  - intros P x HP H r Hr HPr. destruct (Nat.eq_dec r j) as [->|Hrj].
    + rewrite Hd, Hvbj, (H j), (H i); eauto.
    + rewrite Hrows in * by exact Hrj. rewrite Hvb by assumption. apply H; assumption.
  - intros x H r Hr _. destruct (Nat.eq_dec r j) as [->|Hrj].
    + pose proof (H j Hj I) as Ej. pose proof (H i Hi I) as Ei.
      rewrite Hd, Hvbj in Ej. rewrite Hrows, Hvb in Ei by auto. rewrite Ei in Ej.
      rewrite (sxor_comm (dot _ x)), (sxor_comm (vb y j)) in Ej.
      exact (sxor_cancel Sy sxor s0 sxor_assoc sxor_0_l sxor_nilp _ _ _ Ej).
    + rewrite <- (Hrows r), <- (Hvb r) by assumption. apply H; auto.
Qed.

Lemma swap_Eqv (y : sys) i j : WFs y -> i < p -> j < p ->
  Eqv y {| sA := swap (sA y) i j []; sb := swap (sb y) i j None |}.
Proof.
  intros W Hi Hj. set (y1 := Build_sys _ _).
  assert (HA : forall r, getrow (sA y1) r = if r =? j then getrow (sA y) i else if r =? i then getrow (sA y) j else getrow (sA y) r).
  { intros r. apply nth_swap; rewrite (w_rows y W); assumption. }
  assert (HB : forall r, vb y1 r = if r =? j then vb y i else if r =? i then vb y j else vb y r).
  { intros r. unfold vb. cbn [sb y1]. rewrite nth_swap by (rewrite (w_b y W); assumption).
    destruct (r =? j), (r =? i); reflexivity. }
  split.
  - intros P x _ H r Hr. rewrite HA, HB. destruct (r =? j); [apply H, Hi|]. destruct (r =? i); apply H; assumption.
  - (* equation r of y is equation r' of y1, r' the image of r under the transposition *)
    intros x H r Hr _.
    pose proof (H (if r =? i then j else if r =? j then i else r)) as E. rewrite HA, HB in E.
    destruct (Nat.eqb_spec r i) as [->|Hri].
    + rewrite Nat.eqb_refl in E. apply E; auto.
    + destruct (Nat.eqb_spec r j) as [->|Hrj].
      * destruct (Nat.eqb_spec i j); [congruence|]. rewrite Nat.eqb_refl in E. apply E; auto.
      * destruct (Nat.eqb_spec r j); [congruence|]. destruct (Nat.eqb_spec r i); [congruence|]. apply E; auto.
Qed.

(* structure reached after processing columns 0..i-1 *)
Definition Lower (y : sys) (i : nat) : Prop := forall r c, c < i -> c < r -> r < p -> bit (getrow (sA y) r) c = false.
Definition Diag (y : sys) (i : nat) : Prop := forall c, c < i -> bit (getrow (sA y) c) c = true.

(* the rows below the pivot row i, which starts with its pivot bit: columns < i stay as they are, column i is
   cleared in the rows visited and stays cleared *)
Lemma elim_loop i : i < p -> i < q -> forall js (y : sys), (forall j, In j js -> i < j < p) -> WFs y ->
  bit (getrow (sA y) i) i = true -> (forall c, c < i -> bit (getrow (sA y) i) c = false) ->
  let y' := fold_left (elim_row i) js y in
  (forall r, r <= i -> getrow (sA y') r = getrow (sA y) r) /\
  (forall r c, c < i -> bit (getrow (sA y') r) c = bit (getrow (sA y) r) c) /\
  (forall r, In r js \/ bit (getrow (sA y) r) i = false -> bit (getrow (sA y') r) i = false) /\
  Eqv y y'.
Proof.
  intros Hi Hiq. induction js as [|j js IH]; intros y Hjs W Hpiv Hzero; cbv zeta.
  - split; [reflexivity|]. split; [reflexivity|]. split; [intros r [[]|H]; exact H|apply Eqv_refl].
  - cbn [fold_left]. assert (Hj : i < j < p) by (apply Hjs; now left).
    specialize (IH (elim_row i y j) (fun j' Hj' => Hjs j' (or_intror Hj')) (elim_row_WFs y i j W)).
    destruct (bit (getrow (sA y) j) i) eqn:Eb.
    + assert (Hz32 : forall c, c < 32 * (i / 32) -> bit (getrow (sA y) i) c = false).
      { intros c Hc. apply Hzero. pose proof (Nat.mul_div_le i 32 ltac:(lia)). lia. }
      pose proof (elim_row_rowop y i j W Hi ltac:(lia) ltac:(lia) Hz32 Eb) as R.
      pose proof (rowop_Eqv _ _ i j R Hi ltac:(lia) ltac:(lia) Hiq Hpiv Eb) as E.
      destruct R as (Hrows & Hrowj & _). rewrite Hrows in IH by lia.
      destruct (IH Hpiv Hzero) as (Ha & Hb & Hc & E').
      split; [|split; [|split; [|exact (Eqv_trans _ _ _ E E')]]].
      * intros r Hr. rewrite Ha by exact Hr. apply Hrows. lia.
      * intros r c Hc'. rewrite Hb by exact Hc'. destruct (Nat.eq_dec r j) as [->|Hrj]; [|now rewrite Hrows by exact Hrj].
        now rewrite Hrowj, (Hzero c Hc'), xorb_false_r.
      * intros r H. apply Hc. destruct (Nat.eq_dec r j) as [->|Hrj]; [right; now rewrite Hrowj, Eb, Hpiv|].
        rewrite Hrows by exact Hrj. destruct H as [[->|H]|H]; [contradiction|now left|now right].
    + replace (elim_row i y j) with y in * by (unfold DenseSolve.elim_row; now rewrite Eb).
      destruct (IH Hpiv Hzero) as (Ha & Hb & Hc & E). split; [exact Ha|]. split; [exact Hb|]. split; [|exact E].
      intros r [[<-|H]|H]; apply Hc; auto.
Qed.

(* bringing the pivot row j >= i to place i exchanges two rows >= i: the triangle of the first i columns stays *)
Lemma pivot_to_front (y : sys) i j : WFs y -> Lower y i -> Diag y i -> i <= j < p ->
  let y1 := if j =? i then y else {| sA := swap (sA y) i j []; sb := swap (sb y) i j None |} in
  WFs y1 /\ Eqv y y1 /\ Lower y1 i /\ Diag y1 i /\ getrow (sA y1) i = getrow (sA y) j.
Proof.
  intros W HL HD Hj. cbv zeta. destruct (Nat.eqb_spec j i) as [->|Hne].
  { split; [exact W|]. split; [apply Eqv_refl|]. auto. }
  split; [apply swap_WFs; [exact W|lia|lia]|]. split; [apply swap_Eqv; [exact W|lia|lia]|]. cbn [sA].
  assert (HA : forall r, getrow (swap (sA y) i j []) r =
                         if r =? j then getrow (sA y) i else if r =? i then getrow (sA y) j else getrow (sA y) r)
    by (intros r; apply nth_swap; rewrite (w_rows y W); lia).
  split; [|split].
  - intros r c Hc Hcr Hr. rewrite HA. destruct (r =? j); [|destruct (r =? i)]; apply HL; lia.
  - intros c Hc. rewrite HA. destruct (Nat.eqb_spec c j); [lia|]. destruct (Nat.eqb_spec c i); [lia|]. apply HD, Hc.
  - rewrite HA. destruct (Nat.eqb_spec i j); [lia|]. now rewrite Nat.eqb_refl.
Qed.

Lemma col_forward_spec (y y' : sys) i : WFs y -> Lower y i -> Diag y i -> i < q ->
  col_forward p y i = Some y' -> Lower y' (S i) /\ Diag y' (S i) /\ Eqv y y'.
Proof.
  intros W HL HD Hiq Hcf. pose proof (col_forward_lt y y' i Hcf) as Hip. unfold col_forward in Hcf.
  pose proof (find_pivot_spec (sA y) i (p - i) i) as F.
  destruct (find_pivot (sA y) i i (p - i)) as [j|]; [|discriminate]. destruct F as (Hj & Hbj).
  injection Hcf as <-.
  destruct (pivot_to_front y i j W HL HD ltac:(lia)) as (W1 & E1 & HL1 & HD1 & Ri).
  set (y1 := if j =? i then y else _) in *.
  destruct (elim_loop i Hip Hiq (seq (S i) (p - S i)) y1) as (Ha & Hb & Hc & E').
  { intros j' Hj'. apply in_seq in Hj'. lia. }
  { exact W1. }
  { now rewrite Ri. }
  { intros c Hc. apply HL1; lia. }
  split; [|split; [|exact (Eqv_trans _ _ _ E1 E')]].
  - intros r c Hc' Hcr Hr. destruct (Nat.eq_dec c i) as [->|Hci].
    + apply Hc. left. apply in_seq. lia.
    + rewrite Hb by lia. apply HL1; lia.
  - intros c Hc'. rewrite Ha by lia. destruct (Nat.eq_dec c i) as [->|Hci]; [now rewrite Ri|apply HD1; lia].
Qed.

Lemma triangularize_inv : forall cnt i (y y' : sys), WFs y -> Lower y i -> Diag y i -> i + cnt <= q ->
  triangularize p (seq i cnt) y = Some y' -> Lower y' (i + cnt) /\ Diag y' (i + cnt) /\ Eqv y y'.
Proof.
  induction cnt as [|cnt IH]; intros i y y' W HL HD Hq Ht; simpl in Ht.
  - injection Ht as <-. rewrite Nat.add_0_r. split; [exact HL|]. split; [exact HD|apply Eqv_refl].
  - destruct (col_forward p y i) as [y1|] eqn:Ecf; [|discriminate].
    destruct (col_forward_spec y y1 i W HL HD ltac:(lia) Ecf) as (HL1 & HD1 & E1).
    destruct (IH (S i) y1 y' (col_forward_WFs y y1 i W Ecf) HL1 HD1 ltac:(lia) Ht) as (HL' & HD' & E').
    replace (i + S cnt) with (S i + cnt) by lia. split; [exact HL'|]. split; [exact HD'|exact (Eqv_trans _ _ _ E1 E')].
Qed.

Lemma fold_left_xsum (f : nat -> bool) (x : list Sy) : forall l a,
  fold_left (fun a j => if f j then sxor a (nth j x s0) else a) l a = sxor a (xsum (map (fun j => if f j then nth j x s0 else s0) l)).
Proof.
  induction l as [|j l IH]; intros a; simpl; [now rewrite s0r|].
  rewrite IH. destruct (f j); [now rewrite sxor_assoc|now rewrite sxor_0_l].
Qed.

Lemma back_subst_spec P (y : sys) x' : Lower y q -> Diag y q -> q <= p -> covers P -> solP P y x' ->
  forall cnt x, cnt <= q -> length x = q -> (forall j, cnt <= j < q -> nth j x s0 = nth j x' s0) ->
  forall j, j < q -> nth j (back_subst q y cnt x) s0 = nth j x' s0.
Proof.
  intros HL HD Hqp HP Hs. induction cnt as [|c IH]; intros x Hc Hl Hag j Hj; simpl.
  - apply Hag. lia.
  - apply IH; [lia|rewrite upd_length; exact Hl| |exact Hj].
    intros j' Hj'. destruct (Nat.eq_dec j' c) as [->|Hne]; [rewrite nth_upd_eq by lia|rewrite nth_upd_neq by lia; apply Hag; lia].
    (* row c < q has its diagonal bit, so its equation is among those selected; in a unit upper triangular
       system it reads x'_c + sum_{j > c, A_cj} x'_j = b_c *)
    pose proof (Hs c ltac:(lia) (HP _ c ltac:(lia) (HD c ltac:(lia)))) as Ec.
    rewrite (dot_tri _ x' c) in Ec by (try (intros; apply HL || apply HD); lia).
    rewrite fold_left_xsum, (sxor_move Sy sxor s0 sxor_assoc sxor_comm sxor_0_l sxor_nilp _ _ _ Ec). f_equal. f_equal.
    apply map_ext_in. intros k Hk. apply in_seq in Hk. rewrite Hag by lia. reflexivity.
Qed.

(* conversely back-substitution from row i upwards solves the equations 0..i-1 of a system that is unit upper
   triangular in its first i columns, whatever the unknowns >= i are set to *)
Lemma back_subst_solves (y : sys) i : Lower y i -> Diag y i -> i <= q -> i <= p ->
  forall cnt x, cnt <= i -> length x = q -> (forall r, cnt <= r < i -> dot (getrow (sA y) r) x = vb y r) ->
  (forall k, i <= k -> nth k (back_subst q y cnt x) s0 = nth k x s0) /\
  (forall r, r < i -> dot (getrow (sA y) r) (back_subst q y cnt x) = vb y r).
Proof.
  intros HL HD Hiq Hip. induction cnt as [|c IH]; intros x Hc Hl Hrows; simpl.
  - split; [reflexivity|]. intros r Hr. apply Hrows. lia.
  - rewrite fold_left_xsum. fold (vb y c). set (x1 := upd x c _).
    destruct (IH x1) as (Hk & Hr); [lia|unfold x1; now rewrite upd_length| |].
    + intros r Hr. destruct (Nat.eq_dec r c) as [->|Hne].
      * rewrite (dot_tri _ x1 c) by (try (intros; apply HL || apply HD); lia). unfold x1 at 1. rewrite nth_upd_eq by lia.
        rewrite (map_ext_in (fun j => if bit (getrow (sA y) c) j then nth j x1 s0 else s0)
                            (fun j => if bit (getrow (sA y) c) j then nth j x s0 else s0))
          by (intros j Hj; apply in_seq in Hj; unfold x1; now rewrite nth_upd_neq by lia).
        now rewrite <- sxor_assoc, sxor_nilp, s0r.
      * rewrite <- (Hrows r) by lia. apply dot_ext_x. intros j Hj Hb. unfold x1. apply nth_upd_neq.
        intros ->. rewrite (HL r j) in Hb by lia. discriminate.
    + split; [|exact Hr]. intros k Hk'. rewrite Hk by exact Hk'. unfold x1. apply nth_upd_neq. lia.
Qed.

(* the solver returns THE solution: whatever satisfies the equations of a family of rows containing
   the non-zero ones coincides with the result on all q unknowns *)
Theorem solve_sound_gen (y : sys) (x : list Sy) : WFs y -> solve Sy sxor s0 p q y = Some x ->
  length x = q /\ forall P x', covers P -> solP P y x' -> forall j, j < q -> nth j x s0 = nth j x' s0.
Proof.
  intros W Hsolve. split; [exact (solve_length y x Hsolve)|]. unfold DenseSolve.solve in Hsolve.
  destruct (triangularize p (seq 0 q) y) as [y'|] eqn:Et; [|discriminate]. injection Hsolve as <-.
  destruct (triangularize_inv q 0 y y' W) as (HL & HD & F & _); auto.
  { intros r c Hc. lia. } { intros c Hc. lia. }
  intros P x' HP Hx' j Hj.
  assert (Hqp : q <= p) by (pose proof (triangularize_lt _ y y' Et (q - 1) ltac:(apply in_seq; lia)); lia).
  apply (back_subst_spec P y' x' HL HD Hqp HP (F P x' HP Hx') q); auto; [apply repeat_length|intros; lia].
Qed.

(* hence the result is itself a solution whenever one exists *)
Theorem solve_sound_proof (y : sys) (x : list Sy) : WFs y -> solve Sy sxor s0 p q y = Some x ->
  length x = q /\
  (forall x', sol y x' -> forall j, j < q -> nth j x s0 = nth j x' s0) /\
  ((exists x', sol y x') -> sol y x).
Proof.
  intros W Hsolve. destruct (solve_sound_gen y x W Hsolve) as (Hlen & Hag).
  assert (Hag' : forall x', sol y x' -> forall j, j < q -> nth j x s0 = nth j x' s0).
  { intros x' Hx'. apply (Hag (fun _ => True)); [intros row c _ _; exact I|apply sol_all, Hx']. }
  split; [exact Hlen|]. split; [exact Hag'|].
  intros (x' & Hx') r Hr. rewrite (dot_ext_x _ _ x' (fun j Hj _ => Hag' x' Hx' j Hj)). apply Hx', Hr.
Qed.
End P.
