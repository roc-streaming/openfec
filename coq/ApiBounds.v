(* C07 for the Reed-Solomon API layer (RSApi.v) and the LDPC-Staircase / 2D encoder (LdpcEnc.v):
   no access to a symbol table is out of range.

   The plain models read with [nth i l d] and write with [upd l i x] (RS) or with a function update
   (encoder); all are total, so an index bug would be masked.  Here every function is copied with its
   table accesses going through [ITBounds.nth_chk] / [ITBounds.upd_chk], which FAIL out of range.
   One exception: [rs_set_available_chk] is the plain function behind a guard on the two table lengths (the
   range condition of the C loop, stated rather than derived from accessors).
   RS: refinement, no hypothesis on the state; safety under [RInv]; histories of calls.
   Encoder: refinement; safety under ITProofs' H0_range / R_le_N.
   The closed examples: the checked copy is OutOfBounds where the plain model returns a value. *)
From Coq Require Import Arith List Bool Lia.
From OFV Require Import ListAux RSApi RSApiProofs XorGroup LdpcEnc.
From OFV Require ITBounds ITLemmas.
Import ListNotations.

Notation nth_chk := ITBounds.nth_chk.
Notation upd_chk := ITBounds.upd_chk.

(* ITBounds states its accessor lemmas with ITModel's copy of upd; RSApi uses ListAux's (same text) *)
Lemma upd_chk_sound {X} (l : list X) i x l' : upd_chk l i x = Some l' -> i < length l /\ upd l i x = l'.
Proof. intros H. rewrite <- ITLemmas.upd_same. apply ITBounds.upd_chk_sound. exact H. Qed.
Lemma upd_chk_in {X} (l : list X) i x : i < length l -> upd_chk l i x = Some (upd l i x).
Proof. intros H. rewrite <- ITLemmas.upd_same. apply ITBounds.upd_chk_in. exact H. Qed.

Section RSA.
Variable B : Type.
Variable core : nat -> list (option B) -> option (list B).
Variable cb : bool. Variable mk : nat -> B -> B.
Notation rs := (rs B).

(* result of a checked call: the plain (state, status) pair, or an out-of-range table access, or
   BadCore: the algebraic decoder handed back MORE than k values (the C copies k of them, the plain
   model would walk on; excluded by core_len below) *)
Inductive rres : Type := Ret (x : rs * status) | OutOfBounds | BadCore.

(* copy-out loop of finish_decoding, "for (i = 0; i < k; i++) if (tab[i] == NULL) tab[i] = mk (i, vals[i])",
   through the checked accessors: fails when tab or vals has no entry i *)
Fixpoint fill_chk (cnt : nat) (vals : list B) (t : list (option B)) (i : nat) (ev : list nat)
  : option (list (option B) * list nat) :=
  match cnt with
  | O => Some (t, ev)
  | S c =>
    match nth_chk t i, nth_chk vals i with
    | Some e, Some v =>
      match e with
      | Some _ => fill_chk c vals t (S i) ev
      | None => match upd_chk t i (Some (mk i v)) with
                | None => None
                | Some t1 => fill_chk c vals t1 (S i) (if cb then ev ++ [i] else ev)
                end
      end
    | _, _ => None
    end
  end.

Definition rs_finish_chk (s : rs) : rres :=
  if fin s then Ret (s, OK) else
  if navail s <? rk s then Ret (s, FAILURE) else
  if navail_src s =? rk s then
    Ret ({| rk := rk s; rn := rn s; tab := tab s; navail := navail s; navail_src := navail_src s; fin := true; evs := evs s |}, OK)
  else match core (rk s) (tab s) with
       | None => Ret (s, ERROR)
       | Some vals =>
         if rk s <? length vals then BadCore else
         match fill_chk (rk s) vals (tab s) 0 (evs s) with
         | None => OutOfBounds
         | Some (t2, ev2) =>
           Ret ({| rk := rk s; rn := rn s; tab := t2; navail := navail s; navail_src := navail_src s; fin := true; evs := ev2 |}, OK)
         end
       end.

Definition rs_decode_with_new_symbol_chk (s : rs) (esi : nat) (b : B) : rres :=
  if fin s then Ret (s, OK) else
  match nth_chk (tab s) esi with
  | None => OutOfBounds
  | Some (Some _) => Ret (s, OK)
  | Some None =>
    match upd_chk (tab s) esi (Some b) with
    | None => OutOfBounds
    | Some t1 =>
      let s1 := {| rk := rk s; rn := rn s; tab := t1; navail := S (navail s);
                   navail_src := if esi <? rk s then S (navail_src s) else navail_src s; fin := false; evs := evs s |} in
      if navail_src s1 =? rk s1 then
        Ret ({| rk := rk s1; rn := rn s1; tab := tab s1; navail := navail s1; navail_src := navail_src s1; fin := true; evs := evs s1 |}, OK)
      else if rk s1 <=? navail s1 then
        match rs_finish_chk s1 with
        | Ret (s2, OK) => Ret (s2, OK)
        | Ret (s2, _) => Ret (s2, ERROR)
        | x => x
        end
      else Ret (s1, OK)
    end
  end.

(* the C loop "for i < n: own[i] = caller[i]" reads n entries of the caller's table and writes n of its own *)
Definition rs_set_available_chk (s : rs) (t : list (option B)) : rres :=
  if (length t <? rn s) || (length (tab s) <? rn s) then OutOfBounds else Ret (rs_set_available s t).

Lemma nth_chk_app_len {X} (pre rest : list X) i : i = length pre -> nth_chk (pre ++ rest) i = hd_error rest.
Proof. intros ->. induction pre as [|h pre IH]; [destruct rest; reflexivity|exact IH]. Qed.

Lemma upd_chk_app_len {X} (pre : list X) e rest x : upd_chk (pre ++ e :: rest) (length pre) x = Some (pre ++ x :: rest).
Proof. induction pre as [|h pre IH]; [reflexivity|]. cbn [app length ITBounds.upd_chk]. rewrite IH. reflexivity. Qed.

(* the copy-out loop is RSApi.fill on the first cnt values: index i of the loop = what has been walked over
   already (pre, vpre); it fails exactly when one of the two tables has fewer than cnt entries left *)
Lemma fill_chk_gen : forall cnt pre vpre rest vrest ev, length vpre = length pre ->
  fill_chk cnt (vpre ++ vrest) (pre ++ rest) (length pre) ev =
  if (cnt <=? length vrest) && (cnt <=? length rest)
  then let (t2, ev2) := fill cb mk (firstn cnt vrest) rest (length pre) ev in Some (pre ++ t2, ev2)
  else None.
Proof.
  induction cnt as [|c IH]; intros pre vpre rest vrest ev Hl; [reflexivity|].
  cbn [fill_chk]. rewrite (nth_chk_app_len pre rest), (nth_chk_app_len vpre vrest) by congruence.
  destruct rest as [|e t']; [rewrite andb_false_r; reflexivity|].
  destruct vrest as [|v vals']; [reflexivity|].
  cbn [hd_error length firstn fill Nat.leb].
  destruct e as [x|].
  - specialize (IH (pre ++ [Some x]) (vpre ++ [v]) t' vals' ev).
    rewrite <- !app_assoc, !last_length in IH. cbn [app] in IH. rewrite IH by congruence.
    destruct (_ && _); [|reflexivity]. destruct (fill cb mk _ _ _ _) as [t2 ev2].
    rewrite <- app_assoc. reflexivity.
  - rewrite upd_chk_app_len.
    specialize (IH (pre ++ [Some (mk (length pre) v)]) (vpre ++ [v]) t' vals' (if cb then ev ++ [length pre] else ev)).
    rewrite <- !app_assoc, !last_length in IH. cbn [app] in IH. rewrite IH by congruence.
    destruct (_ && _); [|reflexivity]. destruct (fill cb mk _ _ _ _) as [t2 ev2].
    rewrite <- app_assoc. reflexivity.
Qed.

Lemma fill_chk_spec cnt vals t ev : fill_chk cnt vals t 0 ev =
  if (cnt <=? length vals) && (cnt <=? length t) then Some (fill cb mk (firstn cnt vals) t 0 ev) else None.
Proof.
  pose proof (fill_chk_gen cnt [] [] t vals ev eq_refl) as E. cbn [length app] in E. rewrite E.
  destruct (_ && _); [|reflexivity]. destruct (fill cb mk _ _ _ _). reflexivity.
Qed.

(* refinement: no hypothesis on the state or on core *)
Definition refines (x : rres) (p : rs * status) : Prop :=
  match x with Ret q => q = p | OutOfBounds => True | BadCore => True end.

Theorem fill_chk_none cnt vals t ev : fill_chk cnt vals t 0 ev = None <-> (length vals < cnt \/ length t < cnt).
Proof.
  rewrite fill_chk_spec.
  destruct (Nat.leb_spec cnt (length vals)), (Nat.leb_spec cnt (length t)); cbn [andb];
    (split; intros E; [try discriminate E|try reflexivity]); lia.
Qed.

Theorem fill_chk_refines cnt vals t ev r : length vals <= cnt ->
  fill_chk cnt vals t 0 ev = Some r -> fill cb mk vals t 0 ev = r.
Proof.
  intros Hl. rewrite fill_chk_spec, firstn_all2 by exact Hl. destruct (_ && _); congruence.
Qed.

Theorem rs_finish_chk_refines (s : rs) : refines (rs_finish_chk s) (rs_finish core cb mk s).
Proof.
  unfold rs_finish_chk, rs_finish.
  destruct (fin s); [reflexivity|]. destruct (navail s <? rk s); [reflexivity|].
  destruct (navail_src s =? rk s); [reflexivity|].
  destruct (core (rk s) (tab s)) as [vals|]; [|reflexivity].
  destruct (rk s <? length vals) eqn:El; [exact I|]. apply Nat.ltb_ge in El.
  destruct (fill_chk (rk s) vals (tab s) 0 (evs s)) as [[t2 ev2]|] eqn:E; [|exact I].
  rewrite (fill_chk_refines _ _ _ _ _ El E). reflexivity.
Qed.

Corollary rs_finish_chk_ret (s : rs) p : rs_finish_chk s = Ret p -> rs_finish core cb mk s = p.
Proof. intros H. pose proof (rs_finish_chk_refines s) as R. rewrite H in R. symmetry. exact R. Qed.

Theorem rs_decode_with_new_symbol_chk_refines (s : rs) esi b :
  refines (rs_decode_with_new_symbol_chk s esi b) (rs_decode_with_new_symbol core cb mk s esi b).
Proof.
  unfold rs_decode_with_new_symbol_chk, rs_decode_with_new_symbol.
  destruct (fin s); [reflexivity|].
  destruct (nth_chk (tab s) esi) as [o|] eqn:En; [|exact I].
  destruct (ITBounds.nth_chk_sound _ _ _ None En) as (_ & ->).
  destruct o as [x|]; [reflexivity|].
  destruct (upd_chk (tab s) esi (Some b)) as [t1|] eqn:Eu; [|exact I].
  destruct (upd_chk_sound _ _ _ _ Eu) as (_ & ->). cbv zeta. cbn [rk rn tab navail navail_src fin evs].
  destruct (_ =? _); [reflexivity|]. destruct (_ <=? _); [|reflexivity].
  destruct (rs_finish_chk _) as [[s2 st]| |] eqn:E; try exact I.
  rewrite (rs_finish_chk_ret _ _ E). destruct st; reflexivity.
Qed.

Theorem rs_set_available_chk_refines (s : rs) t : refines (rs_set_available_chk s t) (rs_set_available s t).
Proof. unfold rs_set_available_chk. destruct (_ || _); [exact I|reflexivity]. Qed.

Corollary rs_decode_chk_ret (s : rs) esi b p :
  rs_decode_with_new_symbol_chk s esi b = Ret p -> rs_decode_with_new_symbol core cb mk s esi b = p.
Proof. intros H. pose proof (rs_decode_with_new_symbol_chk_refines s esi b) as R. rewrite H in R. symmetry. exact R. Qed.

Lemma rs_finish_chk_badcore (s : rs) : rs_finish_chk s = BadCore ->
  exists vals, core (rk s) (tab s) = Some vals /\ rk s < length vals.
Proof.
  unfold rs_finish_chk. destruct (fin s); [discriminate|]. destruct (navail s <? rk s); [discriminate|].
  destruct (navail_src s =? rk s); [discriminate|].
  destruct (core (rk s) (tab s)) as [vals|]; [|discriminate].
  destruct (rk s <? length vals) eqn:El; [|destruct (fill_chk _ _ _ _ _) as [[? ?]|]; discriminate].
  intros _. exists vals. split; [reflexivity|]. apply Nat.ltb_lt. exact El.
Qed.

(* the minimal invariant: the availability table has n entries and k <= n *)
Definition RInv (s : rs) : Prop := length (tab s) = rn s /\ rk s <= rn s.

Theorem fill_chk_safe cnt vals t ev : length vals = cnt -> cnt <= length t ->
  fill_chk cnt vals t 0 ev = Some (fill cb mk vals t 0 ev).
Proof.
  intros <- Ht. apply Nat.leb_le in Ht. rewrite fill_chk_spec, firstn_all, Nat.leb_refl, Ht. reflexivity.
Qed.

(* the three calls keep k, n and the table length: no hypothesis (rs_finish_fields for of_finish_decoding) *)
Lemma rs_decode_fields (s : rs) esi b : let s' := fst (rs_decode_with_new_symbol core cb mk s esi b) in
  rk s' = rk s /\ rn s' = rn s /\ length (tab s') = length (tab s).
Proof.
  cbv zeta. unfold rs_decode_with_new_symbol. destruct (fin s); [auto|].
  destruct (nth esi (tab s) None); [auto|]. cbv zeta. cbn [rk rn tab navail navail_src fin evs].
  destruct (_ =? _); [cbn; rewrite upd_length; auto|]. destruct (_ <=? _); [|cbn; rewrite upd_length; auto].
  match goal with |- context [rs_finish core cb mk ?s1] => pose proof (rs_finish_fields B core cb mk s1) as F;
    destruct (rs_finish core cb mk s1) as [s2 st] end.
  cbv zeta in F. cbn [fst rk rn tab] in F. rewrite upd_length in F. destruct st; exact F.
Qed.

Lemma rs_finish_inv (s : rs) : RInv s -> RInv (fst (rs_finish core cb mk s)).
Proof. intros (A & C). destruct (rs_finish_fields B core cb mk s) as (E1 & E2 & E3). unfold RInv. rewrite E1, E2, E3. auto. Qed.

Lemma rs_decode_inv (s : rs) esi b : RInv s -> RInv (fst (rs_decode_with_new_symbol core cb mk s esi b)).
Proof. intros (A & C). destruct (rs_decode_fields s esi b) as (E1 & E2 & E3). unfold RInv. rewrite E1, E2, E3. auto. Qed.

Lemma rs_set_available_inv (s : rs) t : RInv s -> length t = rn s -> RInv (fst (rs_set_available s t)).
Proof. intros (A & C) Ht. unfold RInv. simpl. auto. Qed.

Lemma rs_init_inv k n : k <= n -> RInv (rs_init B k n).
Proof. intros H. unfold RInv. simpl. rewrite repeat_length. auto. Qed.

(* the postcondition of the algebraic decoder that matters here: it hands back k values *)
Hypothesis core_len : forall k t vals, core k t = Some vals -> length vals = k.

Theorem rs_finish_chk_safe (s : rs) : RInv s -> rs_finish_chk s = Ret (rs_finish core cb mk s).
Proof.
  intros (A & C). unfold rs_finish_chk, rs_finish.
  destruct (fin s); [reflexivity|]. destruct (navail s <? rk s); [reflexivity|].
  destruct (navail_src s =? rk s); [reflexivity|].
  destruct (core (rk s) (tab s)) as [vals|] eqn:Ec; [|reflexivity].
  pose proof (core_len _ _ _ Ec) as Hl.
  assert (El : rk s <? length vals = false) by (apply Nat.ltb_ge; lia). rewrite El.
  rewrite fill_chk_safe by lia. destruct (fill cb mk vals (tab s) 0 (evs s)). reflexivity.
Qed.

Theorem rs_decode_with_new_symbol_chk_safe (s : rs) esi b : RInv s -> esi < rn s ->
  rs_decode_with_new_symbol_chk s esi b = Ret (rs_decode_with_new_symbol core cb mk s esi b).
Proof.
  intros (A & C) He. unfold rs_decode_with_new_symbol_chk, rs_decode_with_new_symbol.
  destruct (fin s); [reflexivity|].
  rewrite (ITBounds.nth_chk_in (tab s) esi None) by lia.
  destruct (nth esi (tab s) None) as [x|]; [reflexivity|].
  rewrite (upd_chk_in (tab s) esi (Some b)) by lia. cbv zeta. cbn [rk rn tab navail navail_src fin evs].
  destruct (_ =? _); [reflexivity|]. destruct (_ <=? _); [|reflexivity].
  rewrite rs_finish_chk_safe by (unfold RInv; cbn; rewrite upd_length; auto).
  destruct (rs_finish core cb mk _) as [s2 [| |]]; reflexivity.
Qed.

Theorem rs_set_available_chk_safe (s : rs) t : RInv s -> length t = rn s ->
  rs_set_available_chk s t = Ret (rs_set_available s t).
Proof.
  intros (A & C) Ht. unfold rs_set_available_chk.
  assert (E1 : length t <? rn s = false) by (apply Nat.ltb_ge; lia).
  assert (E2 : length (tab s) <? rn s = false) by (apply Nat.ltb_ge; lia). rewrite E1, E2. reflexivity.
Qed.

Corollary rs_decode_chk_never_oob (s : rs) esi b : RInv s -> esi < rn s ->
  rs_decode_with_new_symbol_chk s esi b <> OutOfBounds /\ rs_decode_with_new_symbol_chk s esi b <> BadCore.
Proof. intros HI He. rewrite (rs_decode_with_new_symbol_chk_safe s esi b HI He). split; discriminate. Qed.

Corollary rs_finish_chk_never_oob (s : rs) : RInv s ->
  rs_finish_chk s <> OutOfBounds /\ rs_finish_chk s <> BadCore.
Proof. intros HI. rewrite (rs_finish_chk_safe s HI). split; discriminate. Qed.

Inductive op : Type := Dec (esi : nat) (b : B) | Fin | SetTab (t : list (option B)).

Definition call (s : rs) (o : op) : rs * status :=
  match o with
  | Dec e b => rs_decode_with_new_symbol core cb mk s e b
  | Fin => rs_finish core cb mk s
  | SetTab t => rs_set_available s t
  end.
Definition call_chk (s : rs) (o : op) : rres :=
  match o with
  | Dec e b => rs_decode_with_new_symbol_chk s e b
  | Fin => rs_finish_chk s
  | SetTab t => rs_set_available_chk s t
  end.
(* what the caller must respect: ESIs below n, tables of n entries *)
Definition op_ok (n : nat) (o : op) : Prop :=
  match o with Dec e _ => e < n | Fin => True | SetTab t => length t = n end.

Definition runs (s : rs) (h : list op) : rs := fold_left (fun s o => fst (call s o)) h s.
(* the checked run stops at the first call that is not a normal return; the status of the last call is kept *)
Definition step_chk (x : rres) (o : op) : rres := match x with Ret (s, _) => call_chk s o | y => y end.
Definition runs_chk (s : rs) (h : list op) : rres := fold_left step_chk h (Ret (s, OK)).

Lemma call_inv (s : rs) o : RInv s -> op_ok (rn s) o -> RInv (fst (call s o)) /\ rn (fst (call s o)) = rn s.
Proof.
  intros HI Ho. destruct o as [e b| |t]; cbn [call op_ok] in *.
  - split; [apply rs_decode_inv; exact HI|apply (rs_decode_fields s e b)].
  - split; [apply rs_finish_inv; exact HI|apply (rs_finish_fields B core cb mk s)].
  - split; [apply rs_set_available_inv; assumption|reflexivity].
Qed.

Theorem call_chk_refines (s : rs) o : refines (call_chk s o) (call s o).
Proof.
  destruct o as [e b| |t]; cbn [call call_chk].
  - apply rs_decode_with_new_symbol_chk_refines.
  - apply rs_finish_chk_refines.
  - apply rs_set_available_chk_refines.
Qed.

Theorem call_chk_safe (s : rs) o : RInv s -> op_ok (rn s) o -> call_chk s o = Ret (call s o).
Proof.
  intros HI Ho. destruct o as [e b| |t]; cbn [call call_chk op_ok] in *.
  - apply rs_decode_with_new_symbol_chk_safe; assumption.
  - apply rs_finish_chk_safe; assumption.
  - apply rs_set_available_chk_safe; assumption.
Qed.

Lemma runs_chk_eq_gen : forall h (s : rs) st0, RInv s -> (forall o, In o h -> op_ok (rn s) o) ->
  RInv (runs s h) /\ rn (runs s h) = rn s /\ exists st, fold_left step_chk h (Ret (s, st0)) = Ret (runs s h, st).
Proof.
  induction h as [|o h IH]; intros s st0 HI Hh; [split; [exact HI|split; [reflexivity|exists st0; reflexivity]]|].
  cbn [fold_left step_chk]. rewrite (call_chk_safe s o HI (Hh o (or_introl eq_refl))).
  destruct (call_inv s o HI (Hh o (or_introl eq_refl))) as (HI1 & En).
  unfold runs. cbn [fold_left]. fold (runs (fst (call s o)) h).
  destruct (call s o) as [s1 st1]. cbn [fst] in *. rewrite <- En.
  apply IH; [exact HI1|]. intros o' Ho'. rewrite En. apply Hh. now right.
Qed.

Theorem rs_history_chk_eq k n (h : list op) : k <= n -> (forall o, In o h -> op_ok n o) ->
  exists st, runs_chk (rs_init B k n) h = Ret (runs (rs_init B k n) h, st).
Proof. intros Hk Hh. apply runs_chk_eq_gen; [apply rs_init_inv; exact Hk|exact Hh]. Qed.

Corollary rs_history_never_oob k n (h : list op) : k <= n -> (forall o, In o h -> op_ok n o) ->
  runs_chk (rs_init B k n) h <> OutOfBounds /\ runs_chk (rs_init B k n) h <> BadCore.
Proof. intros Hk Hh. destruct (rs_history_chk_eq k n h Hk Hh) as (st & ->). split; discriminate. Qed.

(* every single call of the history returns normally, from a state satisfying the invariant *)
Theorem rs_history_every_call k n (h : list op) : k <= n -> (forall o, In o h -> op_ok n o) ->
  forall h1 o h2, h = h1 ++ o :: h2 ->
  let s := runs (rs_init B k n) h1 in
  RInv s /\ rn s = n /\ call_chk s o = Ret (call s o) /\ RInv (fst (call s o)).
Proof.
  intros Hk Hh h1 o h2 E. cbv zeta.
  assert (H1 : forall o', In o' h1 -> op_ok (rn (rs_init B k n)) o').
  { intros o' Ho'. apply Hh. rewrite E. apply in_or_app. now left. }
  assert (Ho : op_ok n o) by (apply Hh; rewrite E; apply in_or_app; right; now left).
  destruct (runs_chk_eq_gen h1 (rs_init B k n) OK (rs_init_inv k n Hk) H1) as (HI & En & _). cbn [rs_init rn] in En.
  rewrite <- En in Ho. split; [exact HI|]. split; [exact En|].
  split; [apply call_chk_safe; assumption|apply call_inv; assumption].
Qed.

End RSA.
Arguments OutOfBounds {B}.
Arguments BadCore {B}.

Section ENC.
Variable Sy : Type. Variable sxor : Sy -> Sy -> Sy. Variable s0 : Sy.
Notation xsum := (xsum Sy sxor s0).
Notation build := (build Sy sxor s0).
Notation encode_all := (encode_all Sy sxor s0).

(* LdpcEnc's symbol table is a function nat -> Sy; the checked copy works on a table of n entries given
   as a list, and is related to the model through [nth] *)
Definition tabf (d : Sy) (l : list Sy) : nat -> Sy := fun x => nth x l d.

Inductive eres : Type := EOk (l : list Sy) | EOutOfBounds.

(* parity = 0; for every entry x of the row other than c: parity ^= tab[x]   (tab[x] checked) *)
Fixpoint xsum_chk (l : list Sy) (xs : list nat) : option Sy :=
  match xs with
  | [] => Some s0
  | x :: xs' => match nth_chk l x, xsum_chk l xs' with
                | Some v, Some a => Some (sxor v a)
                | _, _ => None
                end
  end.

(* build repair symbol c: read the other entries of row c, write position c *)
Definition build_chk (H : list (list nat)) (c : nat) (l : list Sy) : eres :=
  match xsum_chk l (others (nth c H []) c) with
  | None => EOutOfBounds
  | Some p => match upd_chk l c p with None => EOutOfBounds | Some l' => EOk l' end
  end.

Definition bstep (H : list (list nat)) (x : eres) (c : nat) : eres :=
  match x with EOk l => build_chk H c l | y => y end.
(* build the repair symbols of the columns cs in that order; encode_all: columns 0 .. r-1 *)
Definition encode_chk (H : list (list nat)) (cs : list nat) (l : list Sy) : eres := fold_left (bstep H) cs (EOk l).
Definition encode_all_chk (r : nat) (H : list (list nat)) (l : list Sy) : eres := encode_chk H (seq 0 r) l.

(* refinement: no hypothesis on the matrix or on the table *)
Lemma xsum_chk_spec (ok : Prop) d l xs : (ok -> forall x, In x xs -> x < length l) ->
  ITBounds.chk ok (xsum_chk l xs) (xsum (map (tabf d l) xs)).
Proof.
  induction xs as [|x xs' IH]; intros H; [reflexivity|]. cbn [xsum_chk map].
  eapply ITBounds.chk_bind; [apply ITBounds.chk_nth with (d := d); intros K; apply (H K); now left|].
  eapply ITBounds.chk_bind; [apply IH; intros K y Hy; apply (H K); now right|]. reflexivity.
Qed.

Lemma tabf_upd d l c p x : c < length l -> tabf d (upd l c p) x = if x =? c then p else tabf d l x.
Proof.
  intros Hc. unfold tabf. destruct (Nat.eqb_spec x c) as [->|Hne].
  - apply nth_upd_eq. exact Hc.
  - apply nth_upd_neq. intros E. apply Hne. symmetry. exact E.
Qed.

(* one repair symbol: a normal result is the model's table, position by position, and has n entries *)
Theorem build_chk_refines d H c l l' : build_chk H c l = EOk l' ->
  c < length l /\ length l' = length l /\ forall x, tabf d l' x = build H c (tabf d l) x.
Proof.
  unfold build_chk. intros E.
  destruct (xsum_chk l (others (nth c H []) c)) as [p|] eqn:Ep; [|discriminate].
  destruct (upd_chk l c p) as [l1|] eqn:Eu; [|discriminate]. inversion E; subst l1.
  destruct (upd_chk_sound _ _ _ _ Eu) as (Hc & <-).
  pose proof (ITBounds.chk_sound False _ _ _ (xsum_chk_spec False d l _ (fun K => match K with end)) Ep) as Hp.
  split; [exact Hc|]. split; [apply upd_length|].
  intros x. rewrite (tabf_upd d l c p x Hc). unfold LdpcEnc.build. rewrite Hp. reflexivity.
Qed.

Lemma build_ext H c (t1 t2 : nat -> Sy) : (forall x, t1 x = t2 x) -> forall x, build H c t1 x = build H c t2 x.
Proof.
  intros E x. unfold LdpcEnc.build. destruct (x =? c); [|apply E].
  f_equal. apply map_ext. exact E.
Qed.

Lemma builds_ext H cs : forall (t1 t2 : nat -> Sy), (forall x, t1 x = t2 x) ->
  forall x, fold_left (fun t c => build H c t) cs t1 x = fold_left (fun t c => build H c t) cs t2 x.
Proof.
  induction cs as [|c cs IH]; intros t1 t2 E; [exact E|]. cbn [fold_left]. apply IH. apply build_ext. exact E.
Qed.

Lemma bstep_oob H cs : fold_left (bstep H) cs EOutOfBounds = EOutOfBounds.
Proof. induction cs as [|c cs IH]; [reflexivity|exact IH]. Qed.

Theorem encode_chk_refines d H cs : forall l l', encode_chk H cs l = EOk l' ->
  length l' = length l /\ forall x, tabf d l' x = fold_left (fun t c => build H c t) cs (tabf d l) x.
Proof.
  unfold encode_chk. induction cs as [|c cs IH]; intros l l' E.
  - inversion E. split; reflexivity.
  - cbn [fold_left bstep] in E. destruct (build_chk H c l) as [l1|] eqn:Eb; [|rewrite bstep_oob in E; discriminate].
    destruct (build_chk_refines d H c l l1 Eb) as (_ & Hl1 & Hb). destruct (IH l1 l' E) as (Hl' & Hf).
    split; [congruence|]. intros x. rewrite Hf. cbn [fold_left]. apply builds_ext. exact Hb.
Qed.

Corollary encode_all_chk_refines d r H l l' : encode_all_chk r H l = EOk l' ->
  length l' = length l /\ forall x, nth x l' d = encode_all r H (fun y => nth y l d) x.
Proof. intros E. apply (encode_chk_refines d H (seq 0 r) l l' E). Qed.

(* safety: ITProofs' H0_range and R_le_N *)
Variable H : list (list nat).
Variable r n : nat.
Hypothesis H_range : forall i x, i < r -> In x (nth i H []) -> x < n.
Hypothesis r_le_n : r <= n.

Theorem build_chk_safe d c l : length l = n -> c < r ->
  build_chk H c l = EOk (upd l c (xsum (map (tabf d l) (others (nth c H []) c)))).
Proof.
  intros Hl Hc. unfold build_chk.
  assert (Hx : forall x, In x (others (nth c H []) c) -> x < length l).
  { intros x Hx. unfold others in Hx. apply filter_In in Hx. rewrite Hl. apply (H_range c x Hc (proj1 Hx)). }
  rewrite (ITBounds.chk_in True _ _ (xsum_chk_spec True d l _ (fun _ => Hx)) I), upd_chk_in by lia. reflexivity.
Qed.

(* any sequence of repair columns, in any order *)
Lemma encode_chk_safe d cs : forall l, length l = n -> (forall c, In c cs -> c < r) ->
  exists l', encode_chk H cs l = EOk l' /\ length l' = n /\
             forall x, nth x l' d = fold_left (fun t c => build H c t) cs (fun y => nth y l d) x.
Proof.
  assert (G : forall cs l, length l = n -> (forall c, In c cs -> c < r) -> exists l', encode_chk H cs l = EOk l').
  { clear cs. unfold encode_chk. induction cs as [|c cs IH]; intros l Hl Hcs; [exists l; reflexivity|].
    cbn [fold_left bstep]. rewrite (build_chk_safe d c l Hl (Hcs c (or_introl eq_refl))).
    apply IH; [rewrite upd_length; exact Hl|]. intros c' Hc'. apply Hcs. now right. }
  intros l Hl Hcs. destruct (G cs l Hl Hcs) as (l' & E). exists l'. split; [exact E|].
  destruct (encode_chk_refines d H cs l l' E) as (A & C). split; [congruence|exact C].
Qed.

Theorem encode_all_chk_safe d l : length l = n ->
  exists l', encode_all_chk r H l = EOk l' /\ length l' = n /\
             forall x, nth x l' d = encode_all r H (fun y => nth y l d) x.
Proof.
  intros Hl. apply (encode_chk_safe d (seq 0 r) l Hl). intros c Hc. apply in_seq in Hc. lia.
Qed.

Corollary build_chk_never_oob c l : length l = n -> c < r -> build_chk H c l <> EOutOfBounds.
Proof. intros Hl Hc. rewrite (build_chk_safe s0 c l Hl Hc). discriminate. Qed.

Corollary encode_all_chk_never_oob l : length l = n -> encode_all_chk r H l <> EOutOfBounds.
Proof. intros Hl. destruct (encode_all_chk_safe s0 l Hl) as (l' & -> & _). discriminate. Qed.

(* every single build of the increasing-order run returns normally, on a table of n entries *)
Theorem encode_all_chk_every_build d l c : length l = n -> c < r ->
  exists l1 l2, encode_chk H (seq 0 c) l = EOk l1 /\ length l1 = n /\ build_chk H c l1 = EOk l2 /\ length l2 = n /\
                forall x, nth x l2 d = LdpcEnc.encode_all Sy sxor s0 (S c) H (fun y => nth y l d) x.
Proof.
  intros Hl Hc.
  destruct (encode_chk_safe d (seq 0 c) l Hl) as (l1 & E1 & L1 & F1); [intros c' Hc'; apply in_seq in Hc'; lia|].
  pose proof (build_chk_safe d c l1 L1 Hc) as E2.
  destruct (build_chk_refines d H c l1 _ E2) as (_ & L2 & F2).
  eexists l1, _. split; [exact E1|]. split; [exact L1|]. split; [exact E2|]. split; [congruence|].
  intros x. unfold tabf in F2. rewrite F2. unfold LdpcEnc.encode_all. rewrite seq_S, fold_left_app. cbn [fold_left Nat.add].
  apply build_ext. exact F1.
Qed.

End ENC.
Arguments EOutOfBounds {Sy}.

(* the premises are needed: the checked copies really are stricter *)
(* esi = n: the plain model reads the default, drops the write, counts a phantom symbol and says OK *)
Example rs_oob_esi :
  let core := fun (_ : nat) (_ : list (option nat)) => @None (list nat) in
  let mk := fun (_ : nat) (v : nat) => v in
  let s := rs_init nat 2 3 in
  RInv nat s /\
  rs_decode_with_new_symbol_chk nat core true mk s 3 7 = OutOfBounds /\
  rs_decode_with_new_symbol core true mk s 3 7 =
    ({| rk := 2; rn := 3; tab := [None; None; None]; navail := 1; navail_src := 0; fin := false; evs := [] |}, OK).
Proof. cbv zeta. split; [split; [reflexivity|simpl; lia]|]. vm_compute. split; reflexivity. Qed.

(* a state whose table (2 entries) is shorter than k = 3: the copy-out loop walks to entry 2 *)
Example rs_oob_finish_short_table :
  let core := fun (_ : nat) (_ : list (option nat)) => Some [10; 11; 12] in
  let mk := fun (_ : nat) (v : nat) => v in
  let s := {| rk := 3; rn := 4; tab := [Some 10; None]; navail := 3; navail_src := 1; fin := false; evs := [] |} in
  (forall k t vals, core k t = Some vals -> length vals = 3) /\
  rs_finish_chk nat core true mk s = OutOfBounds /\
  rs_finish core true mk s =
    ({| rk := 3; rn := 4; tab := [Some 10; Some 11]; navail := 3; navail_src := 1; fin := true; evs := [1] |}, OK).
Proof.
  cbv zeta. split; [intros k t vals E; inversion E; reflexivity|]. vm_compute. split; reflexivity.
Qed.

(* core_len is needed too: a core handing back only 2 values for k = 3 makes the loop read vals[2] *)
Example rs_oob_finish_short_vals :
  let core := fun (_ : nat) (_ : list (option nat)) => Some [10; 11] in
  let mk := fun (_ : nat) (v : nat) => v in
  let s := {| rk := 3; rn := 4; tab := [None; None; None; Some 5]; navail := 3; navail_src := 0; fin := false; evs := [] |} in
  RInv nat s /\
  rs_finish_chk nat core true mk s = OutOfBounds /\
  rs_finish core true mk s =
    ({| rk := 3; rn := 4; tab := [Some 10; Some 11; None; Some 5]; navail := 3; navail_src := 0; fin := true; evs := [0; 1] |}, OK).
Proof. cbv zeta. split; [split; [reflexivity|simpl; lia]|]. vm_compute. split; reflexivity. Qed.

(* set_available_symbols with a caller's table of n - 1 entries *)
Example rs_oob_set_available :
  let s := rs_init nat 2 3 in
  RInv nat s /\ rs_set_available_chk nat s [Some 1; Some 2] = OutOfBounds /\
  fst (rs_set_available s [Some 1; Some 2]) =
    {| rk := 2; rn := 3; tab := [Some 1; Some 2]; navail := 2; navail_src := 2; fin := false; evs := [] |}.
Proof. cbv zeta. split; [split; [reflexivity|simpl; lia]|]. vm_compute. split; reflexivity. Qed.

(* encoder: r = 1, n = 2, and row 0 names column 2 = n: the plain model reads the default there *)
Example enc_oob_column :
  let H := [[0; 2]] in
  let l := [5; 6] in
  length l = 2 /\ 0 < 1 /\ 1 <= 2 /\
  build_chk nat Nat.lxor 0 H 0 l = EOutOfBounds /\
  encode_all_chk nat Nat.lxor 0 1 H l = EOutOfBounds /\
  build nat Nat.lxor 0 H 0 (fun x => nth x l 9) 0 = 9 /\
  encode_all nat Nat.lxor 0 1 H (fun x => nth x l 9) 0 = 9.
Proof. cbv zeta. split; [reflexivity|]. split; [lia|]. split; [lia|]. vm_compute. repeat split. Qed.

(* encoder: the matrix is fine (entries < n = 2) but the table handed in has a single entry *)
Example enc_oob_short_table :
  let H := [[0; 1]] in
  (forall i x, i < 1 -> In x (nth i H []) -> x < 2) /\
  build_chk nat Nat.lxor 0 H 0 [5] = EOutOfBounds /\
  build nat Nat.lxor 0 H 0 (fun x => nth x [5] 9) 0 = 9.
Proof.
  cbv zeta. split.
  - intros i x Hi Hx. assert (i = 0) by lia. subst i. simpl in Hx. lia.
  - vm_compute. split; reflexivity.
Qed.

Print Assumptions fill_chk_none.
Print Assumptions rs_finish_chk_refines.
Print Assumptions rs_decode_with_new_symbol_chk_refines.
Print Assumptions call_chk_refines.
Print Assumptions rs_finish_chk_safe.
Print Assumptions rs_decode_with_new_symbol_chk_safe.
Print Assumptions rs_set_available_chk_safe.
Print Assumptions rs_decode_inv.
Print Assumptions rs_finish_inv.
Print Assumptions rs_set_available_inv.
Print Assumptions rs_history_chk_eq.
Print Assumptions rs_history_never_oob.
Print Assumptions rs_history_every_call.
Print Assumptions build_chk_refines.
Print Assumptions encode_chk_refines.
Print Assumptions encode_all_chk_refines.
Print Assumptions build_chk_safe.
Print Assumptions encode_all_chk_safe.
Print Assumptions encode_all_chk_never_oob.
Print Assumptions encode_all_chk_every_build.
Print Assumptions rs_oob_esi.
Print Assumptions rs_oob_finish_short_table.
Print Assumptions rs_oob_finish_short_vals.
Print Assumptions rs_oob_set_available.
Print Assumptions enc_oob_column.
Print Assumptions enc_oob_short_table.
