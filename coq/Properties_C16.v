(* C16 — 2D parity codec.  Model: Pchk2D.v (matrix construction of of_create_2D_pchk_matrix /
   of_fill_2D_pchk_matrix on the sparse-matrix model, argument swap included), decoded through the
   generic streaming decoder model (ITModel.v) and encoded by the generic staircase-shaped builder
   (LdpcEnc.v) - in the C, codec 5 uses the same engines through a pointer cast.
   Theorems, for ALL d, l >= 1 (no bound on k or n):
   - structure: each check has its own repair symbol and no other; every source symbol is in exactly
     one row check and one column check (from the closed form of the rows, Pchk2D.rows2d_row_checks and
     rows2d_col_checks);
   - the parameter search accepts (r, n) only with a product shape and builds exactly that matrix; the two
     limit tests before it are k <= MAX_K and total <= MAX_N;
   - encoder: after building the repair symbols every check sums to zero, sources untouched;
   - decoder: every symbol the streaming decoder holds equals the codeword's; what it makes available
     is exactly the peeling closure of the received set (any order, duplicates); any single loss is
     recovered, whatever the order of arrival.
   - of_finish_decoding (the ML model of C03 on this matrix): the session always returns, never holds
     a wrong symbol, reports OK iff all sources are available, and that happens iff the checks determine
     the sources uniquely given the received set (every GF(2) kernel vector of the matrix vanishing on
     the received set vanishes on the sources).
   Not a theorem: release without leak (run-time allocation accounting on the compiled C).
   The matrix model is compared with the C for every (k, n-k) of the property's domain, and every
   session is replayed on the extracted decoder models. *)
From Coq Require Import Arith List Bool.
From OFV Require Import ListAux Sparse Pchk XorGroup LdpcEnc ITModel ITProofs MLModel Pchk2D P2DProofs.
Import ListNotations.

Theorem p2d_each_check_has_its_own_repair :
  forall d l, 1 <= d -> 1 <= l -> forall i c, i < d + l -> c < d + l -> (In c (nth i (rows2d d l) []) <-> c = i).
Proof. exact p2d_own_repair. Qed.

Theorem p2d_each_source_in_one_row_check_and_one_column_check :
  forall d l, 1 <= d -> 1 <= l -> forall a b, a < d -> b < l -> forall i, i < d + l ->
  (In (d + l + a * l + b) (nth i (rows2d d l) []) <-> i = a \/ i = d + b).
Proof. exact p2d_source_checks. Qed.

Theorem p2d_accepts_only_product_shapes :
  forall r n d l m, create2d r n = Some (d, l, m) -> m = fill2d d l /\ d + l = r /\ d * l + d + l = n /\ 1 <= d /\ 1 <= l.
Proof. exact create2d_spec. Qed.

Theorem p2d_encoder_satisfies_every_check :
  forall (Sy : Type) (sxor : Sy -> Sy -> Sy) (s0 : Sy),
  (forall a b c, sxor a (sxor b c) = sxor (sxor a b) c) -> (forall a b, sxor a b = sxor b a) -> (forall a, sxor a a = s0) ->
  forall d l, 1 <= d -> 1 <= l -> forall tab : nat -> Sy,
  let t' := encode_all Sy sxor s0 (d + l) (rows2d d l) tab in
  (forall c, c < d + l -> rowsum Sy sxor s0 t' (nth c (rows2d d l) []) = s0) /\ (forall x, d + l <= x -> t' x = tab x).
Proof. exact p2d_encode_zero_sum. Qed.

Theorem p2d_decoder_never_returns_a_wrong_symbol :
  forall (Sy : Type) (sxor : Sy -> Sy -> Sy) (s0 : Sy),
  (forall a b c, sxor a (sxor b c) = sxor (sxor a b) c) -> (forall a b, sxor a b = sxor b a) ->
  (forall a, sxor s0 a = a) -> (forall a, sxor a a = s0) ->
  forall d l, 1 <= d -> 1 <= l -> forall cw : nat -> Sy,
  (forall i, i < d + l -> fold_right sxor s0 (map cw (nth i (rows2d d l) [])) = s0) ->
  forall fuel (hist : list (nat * Sy)) (s : st Sy),
  (forall ev, In ev hist -> fst ev < d * l + d + l /\ snd ev = cw (fst ev)) ->
  run Sy sxor s0 (rows2d d l) (d + l) (d * l + d + l) fuel hist = Some s ->
  forall c v, nth c (tab s) None = Some v -> v = cw c.
Proof. exact p2d_decoder_values. Qed.

Theorem p2d_streaming_decoder_is_the_peeling_closure :
  forall (Sy : Type) (sxor : Sy -> Sy -> Sy) (s0 : Sy) d l, 1 <= d -> 1 <= l -> forall hist : list (nat * Sy),
  (forall ev, In ev hist -> fst ev < d * l + d + l) ->
  exists s, run Sy sxor s0 (rows2d d l) (d + l) (d * l + d + l) (S (d * l + d + l)) hist = Some s /\
    let Rc := fun e => In e (map fst hist) in
    (forall c, d + l <= c < d * l + d + l -> (known s c = true <-> peel (rows2d d l) (d + l) Rc c)) /\
    ((forall c, d + l <= c < d * l + d + l -> known s c = true) <-> (forall c, d + l <= c < d * l + d + l -> peel (rows2d d l) (d + l) Rc c)).
Proof. exact p2d_decoder_is_peeling. Qed.

Theorem p2d_any_single_loss_is_recovered :
  forall (Sy : Type) (sxor : Sy -> Sy -> Sy) (s0 : Sy) d l, 1 <= d -> 1 <= l -> forall (e : nat) (hist : list (nat * Sy)),
  e < d * l + d + l -> (forall ev, In ev hist -> fst ev < d * l + d + l) ->
  (forall c, c < d * l + d + l -> c <> e -> In c (map fst hist)) ->
  exists s, run Sy sxor s0 (rows2d d l) (d + l) (d * l + d + l) (S (d * l + d + l)) hist = Some s /\
            fst (is_complete s) = true /\ forall c, d + l <= c < d * l + d + l -> known s c = true.
Proof. exact p2d_any_single_loss_recovered. Qed.

Theorem p2d_finish_recovers_exactly_the_determined_patterns :
  forall (Sy : Type) (sxor : Sy -> Sy -> Sy) (s0 : Sy),
  (forall a b c, sxor a (sxor b c) = sxor (sxor a b) c) -> (forall a b, sxor a b = sxor b a) ->
  (forall a, sxor s0 a = a) -> (forall a, sxor a a = s0) ->
  forall d l, 1 <= d -> 1 <= l -> (exists a : Sy, a <> s0) -> forall cw : nat -> Sy,
  (forall i, i < d + l -> fold_right sxor s0 (map cw (nth i (rows2d d l) [])) = s0) ->
  forall (hist : list (nat * Sy)) (s : st Sy) (fuel : nat) (perm : list nat) (o : outcome Sy),
  (forall ev, In ev hist -> fst ev < d * l + d + l /\ snd ev = cw (fst ev)) ->
  run Sy sxor s0 (rows2d d l) (d + l) (d * l + d + l) (S (d * l + d + l)) hist = Some s ->
  d * l + d + l < fuel -> (forall c, c < d + l -> In c perm) -> (forall c, In c perm -> c < d + l) ->
  ml_finish sxor s0 fuel perm s = Some o ->
  (forall c v, nth c (tab (o_st o)) None = Some v -> v = cw c) /\
  (forall c x, nth c (tab s) None = Some x -> nth c (tab (o_st o)) None = Some x) /\
  (o_ok o = true <-> (forall c, d + l <= c < d * l + d + l -> known (o_st o) c = true)) /\
  ((forall c, d + l <= c < d * l + d + l -> known (o_st o) c = true) <->
   (forall z : nat -> bool, (forall i, i < d + l -> fold_right xorb false (map z (nth i (rows2d d l) [])) = false) ->
      (forall c, In c (map fst hist) -> z c = false) -> forall c, d + l <= c < d * l + d + l -> z c = false)).
Proof. exact p2d_session_finish. Qed.

Theorem p2d_finish_always_returns :
  forall (Sy : Type) (sxor : Sy -> Sy -> Sy) (s0 : Sy),
  (forall a b c, sxor a (sxor b c) = sxor (sxor a b) c) -> (forall a b, sxor a b = sxor b a) ->
  (forall a, sxor s0 a = a) -> (forall a, sxor a a = s0) ->
  forall d l, 1 <= d -> 1 <= l -> (exists a : Sy, a <> s0) -> forall cw : nat -> Sy,
  (forall i, i < d + l -> fold_right sxor s0 (map cw (nth i (rows2d d l) [])) = s0) ->
  forall (hist : list (nat * Sy)) (fuel : nat) (perm : list nat),
  (forall ev, In ev hist -> fst ev < d * l + d + l /\ snd ev = cw (fst ev)) ->
  d * l + d + l < fuel -> (forall c, c < d + l -> In c perm) -> (forall c, In c perm -> c < d + l) ->
  exists (s : st Sy) (o : outcome Sy),
    run Sy sxor s0 (rows2d d l) (d + l) (d * l + d + l) (S (d * l + d + l)) hist = Some s /\ ml_finish sxor s0 fuel perm s = Some o.
Proof. exact p2d_session_total. Qed.

(* the two limit tests at the head of of_2d_parity_set_fec_parameters, regenerated from the source on every run
   (gen/GenParams.v): passed iff k <= MAX_K and the (UINT32) total <= MAX_N; the shape test is create2d's *)
From Coq Require Import ZArith.
From OFV Require Import CSem Params ParamsTie.
From OFV.gen Require Import GenConsts GenParams.
Theorem p2d_source_checks_are_the_two_limits : forall k r L : Z, is_u32 k -> is_u32 r ->
  p2d_prefix k c_p2d_max_k r c_p2d_max_n L = Some ((k <=? c_p2d_max_k)%Z && (u32 (k + r) <=? c_p2d_max_n)%Z).
Proof. exact p2d_prefix_is_limits. Qed.

Print Assumptions p2d_each_check_has_its_own_repair.
Print Assumptions p2d_finish_recovers_exactly_the_determined_patterns.
Print Assumptions p2d_each_source_in_one_row_check_and_one_column_check.
Print Assumptions p2d_accepts_only_product_shapes.
Print Assumptions p2d_encoder_satisfies_every_check.
Print Assumptions p2d_decoder_never_returns_a_wrong_symbol.
Print Assumptions p2d_streaming_decoder_is_the_peeling_closure.
Print Assumptions p2d_any_single_loss_is_recovered.
