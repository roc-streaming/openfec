From Coq Require Import ZArith Bool Lia ZifyBool.
From OFV Require Import Params.
From OFV.gen Require Import GenConsts.
Local Open Scope Z_scope.

Lemma accept_ldpc_iff_limits_proof k r L n1 seed :
  0 <= k < 2^32 -> 0 <= r < 2^32 -> accept_ldpc k r L n1 seed = limits_ldpc k r L n1 seed.
Proof.
  intros Hk Hr. unfold accept_ldpc, limits_ldpc, u32, c_ldpc_max_k, c_ldpc_max_n.
  change (2 ^ 32) with 4294967296 in *.
  destruct (Z_lt_le_dec (k + r) 4294967296) as [Hs|Hs].
  - rewrite (Z.mod_small (k + r)) by lia. lia.
  - assert (E : (k + r) mod 4294967296 = k + r - 4294967296).
    { symmetry. apply Z.mod_unique with 1; lia. }
    rewrite E. lia.
Qed.

Lemma accept_ldpc_valid_proof k r L n1 seed : 0 <= k < 2^32 -> 0 <= r < 2^32 -> accept_ldpc k r L n1 seed = true ->
  1 <= k /\ 3 <= n1 <= r /\ 1 <= L /\ 1 <= seed <= 2147483646 /\ k + r <= 50000.
Proof.
  intros Hk Hr H. rewrite accept_ldpc_iff_limits_proof in H by assumption. unfold limits_ldpc, c_ldpc_max_k, c_ldpc_max_n in H. lia.
Qed.
