(* C12: a generic interleaving theorem.  If every API step's effect on its own session and its
   output do not depend on the shared global state, then whatever a session returns in ANY
   interleaving with other sessions equals what it returns when run alone from ANY global state. *)
From Coq Require Import Arith List Bool.
Import ListNotations.

Section I.
Variables G S Op Out : Type.
Variable step : G -> S -> Op -> G * S * Out.
Hypothesis step_local : forall g g' s o,
  snd (fst (step g s o)) = snd (fst (step g' s o)) /\ snd (step g s o) = snd (step g' s o).

(* global run: sessions are numbered, each has its own state *)
Fixpoint grun (g : G) (st : nat -> S) (h : list (nat * Op)) : list (nat * Out) :=
  match h with
  | [] => []
  | (i, o) :: rest =>
    let '(g', s', out) := step g (st i) o in
    (i, out) :: grun g' (fun j => if j =? i then s' else st j) rest
  end.

Fixpoint solo (g : G) (s : S) (ops : list Op) : list Out :=
  match ops with
  | [] => []
  | o :: rest => let '(g', s', out) := step g s o in out :: solo g' s' rest
  end.

Definition ops_of (i : nat) (h : list (nat * Op)) : list Op := map snd (filter (fun e => fst e =? i) h).
Definition outs_of (i : nat) (l : list (nat * Out)) : list Out := map snd (filter (fun e => fst e =? i) l).

(* The general form: the steps need only preserve a relation R between session states and agree on
   the outputs of R-related states, whatever the two global states are. *)
Definition preserves (R : S -> S -> Prop) : Prop := forall s s', R s s' -> forall g g' o,
  R (snd (fst (step g s o))) (snd (fst (step g' s' o))) /\ snd (step g s o) = snd (step g' s' o).

Lemma solo_rel R : preserves R -> forall ops g g' s s', R s s' -> solo g s ops = solo g' s' ops.
Proof.
  intros HP. induction ops as [|o ops IH]; intros g g' s s' HR; [reflexivity|].
  cbn [solo]. destruct (HP s s' HR g g' o) as (Hs & Ho).
  destruct (step g s o) as [[g1 s1] o1], (step g' s' o) as [[g2 s2] o2].
  cbn [fst snd] in Hs, Ho. subst o2. f_equal. exact (IH g1 g2 s1 s2 Hs).
Qed.

Theorem grun_solo_rel R : preserves R -> forall h g st i g' s', R (st i) s' ->
  outs_of i (grun g st h) = solo g' s' (ops_of i h).
Proof.
  intros HP. induction h as [|[j o] h IH]; intros g st i g' s' HR; [reflexivity|].
  cbn [grun]. destruct (step g (st j) o) as [[g1 s1] o1] eqn:E.
  unfold outs_of, ops_of in *. cbn [filter fst].
  destruct (Nat.eqb_spec j i) as [->|Hne].
  - (* session i moves: both sides take the same step from related states *)
    cbn [map snd solo]. destruct (HP (st i) s' HR g g' o) as (Hs & Ho). rewrite E in Hs, Ho.
    destruct (step g' s' o) as [[g2 s2] o2]. cbn [fst snd] in Hs, Ho. subst o2. f_equal.
    apply (IH g1 _ i g2 s2). rewrite Nat.eqb_refl. exact Hs.
  - apply (IH g1 _ i g' s'). destruct (Nat.eqb_spec i j); [congruence|exact HR].
Qed.

Lemma step_local_eq : preserves eq.
Proof. intros s _ <- g g' o. apply step_local. Qed.

Lemma solo_any_global : forall ops g g' s, solo g s ops = solo g' s ops.
Proof. intros ops g g' s. exact (solo_rel eq step_local_eq ops g g' s s eq_refl). Qed.

Theorem sessions_independent_proof : forall h g st i g',
  outs_of i (grun g st h) = solo g' (st i) (ops_of i h).
Proof. intros h g st i g'. exact (grun_solo_rel eq step_local_eq h g st i g' (st i) eq_refl). Qed.
End I.
