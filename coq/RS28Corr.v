(* Correspondence (evaluated inside Coq): the tables dumped from the compiled C after of_rs_init()
   are exactly the tables the model of the generator computes. *)
From Coq Require Import NArith List.
From OFV Require Import RS28Gen RS28GenProofs.
From OFV.gen Require Import GenTables GenRS28Dump.
Lemma rs28_c_exp_eq_model : c_rs28_exp = t_exp rs28_tabs.  Proof. vm_compute. reflexivity. Qed.
Lemma rs28_c_log_eq_model : c_rs28_log = t_log rs28_tabs.  Proof. vm_compute. reflexivity. Qed.
Lemma rs28_c_inv_eq_model : c_rs28_inv = t_inv rs28_tabs.  Proof. vm_compute. reflexivity. Qed.
(* the dumped product table and the header's gf28_mul are the same literal, so no evaluation here *)
Lemma rs28_c_mul_eq_model : c_rs28_mul = rs28_mulm.        Proof. rewrite rs28_mulm_is_gf28_mul. reflexivity. Qed.
