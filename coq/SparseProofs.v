(* C17: a well-formed sparse matrix (WF) is a set of pairs (has).  Both searches of of_mod2sparse_insert compute the
   insertion into a strictly increasing list, SparseOpt.v's ins_before (ins_fast_before); insert and delete are the two
   instances of set_entry_spec; every copy is the insertion of a list of pairs, whose set is read off by insert_all_set. *)
From Coq Require Import Arith List Bool Lia.
From OFV Require Import ListAux Sparse SparseOpt.
Import ListNotations.

Lemma in_rowpairs (f : nat -> list nat) n i j :
  In (i, j) (flat_map (fun i => map (fun j => (i, j)) (f i)) (seq 0 n)) <-> i < n /\ In j (f i).
Proof.
  rewrite in_flat_map. split.
  - intros (i' & Hi' & Hin). apply in_seq in Hi'. apply in_map_iff in Hin as (j' & E & Hj').
    inversion E; subst. split; [lia|exact Hj'].
  - intros (Hi & Hj). exists i. split; [apply in_seq; lia|]. apply in_map_iff. exists j. auto.
Qed.

Lemma in_colpairs (f : nat -> list nat) n i j :
  In (i, j) (flat_map (fun j => map (fun i => (i, j)) (f j)) (seq 0 n)) <-> j < n /\ In i (f j).
Proof.
  rewrite in_flat_map. split.
  - intros (j' & Hj' & Hin). apply in_seq in Hj'. apply in_map_iff in Hin as (i' & E & Hi').
    inversion E; subst. split; [lia|exact Hi'].
  - intros (Hj & Hi). exists j. split; [apply in_seq; lia|]. apply in_map_iff. exists i. auto.
Qed.

Lemma existsb_pair (es : list (nat * nat)) i j :
  existsb (fun e => (i =? fst e) && (j =? snd e)) es = true <-> In (i, j) es.
Proof.
  rewrite existsb_exists. split.
  - intros ((a, b) & Hin & E). simpl in E. apply andb_true_iff in E as (E1 & E2).
    apply Nat.eqb_eq in E1. apply Nat.eqb_eq in E2. subst. exact Hin.
  - intros Hin. exists (i, j). simpl. rewrite !Nat.eqb_refl. auto.
Qed.

Lemma existsb_map {A B} (f : B -> bool) (g : A -> B) l : existsb f (map g l) = existsb (fun x => f (g x)) l.
Proof. induction l as [|a t IH]; simpl; [reflexivity|]. now rewrite IH. Qed.

Fixpoint ssorted (l : list nat) : Prop :=
  match l with [] => True | x :: t => (forall y, In y t -> x < y) /\ ssorted t end.

Lemma mem_In x l : mem x l = true <-> In x l.
Proof. apply existsb_eqb_In. Qed.
Lemma mem_false x l : mem x l = false <-> ~ In x l.
Proof. now rewrite <- not_true_iff_false, mem_In. Qed.
Lemma mem_cons x a t : mem x (a :: t) = (a =? x) || mem x t.
Proof. unfold mem. cbn [existsb]. now rewrite Nat.eqb_sym. Qed.

Lemma ssorted_nodup : forall l, ssorted l -> NoDup l.
Proof.
  induction l as [|x l IH]; intros Hs; [constructor|]. destruct Hs as (Hx & Hs).
  constructor; [|apply IH; exact Hs]. intros Hin. specialize (Hx x Hin). lia.
Qed.

Lemma last_opt_spec l : ssorted l ->
  match last_opt l with None => l = [] | Some y => In y l /\ forall x, In x l -> x <= y end.
Proof.
  induction l as [|a t IH]; simpl; auto. intros (Ha & Ht). destruct t as [|b t'].
  - split; [now left|]. intros x [->|[]]. lia.
  - specialize (IH Ht). destruct (last_opt (b :: t')) as [y|]; [|discriminate].
    destruct IH as (Hy & Hmax). split; [now right|]. intros x [->|Hx]; [|auto].
    specialize (Ha y Hy). lia.
Qed.

Lemma ssorted_app_last l x : ssorted l -> (forall y, In y l -> y < x) -> ssorted (l ++ [x]).
Proof.
  induction l as [|a t IH]; simpl; intros Hs Hlt; [tauto|]. destruct Hs as (Ha & Ht). split.
  - intros y Hy. apply in_app_or in Hy as [Hy|[<-|[]]]; auto.
  - apply IH; auto.
Qed.

Lemma mem_ins_before y x l : mem y (ins_before x l) = (y =? x) || mem y l.
Proof.
  unfold mem. induction l as [|a t IH]; simpl; [reflexivity|].
  destruct (a <? x); simpl; [rewrite IH|reflexivity]. now destruct (y =? a), (y =? x).
Qed.

Lemma ins_before_length x l : length (ins_before x l) = S (length l).
Proof. induction l as [|a t IH]; simpl; [reflexivity|]. destruct (a <? x); simpl; now rewrite ?IH. Qed.

Lemma ins_before_sorted x l : ssorted l -> ~ In x l -> ssorted (ins_before x l).
Proof.
  induction l as [|a t IH]; simpl; intros Hs Hn; [tauto|]. destruct Hs as (Ha & Ht).
  destruct (Nat.ltb_spec a x) as [Hlt|Hge]; simpl.
  - split; [|apply IH; tauto]. intros y Hy. apply mem_In in Hy. rewrite mem_ins_before in Hy.
    apply orb_true_iff in Hy as [E|Hy]; [apply Nat.eqb_eq in E; lia|apply Ha, mem_In, Hy].
  - split; [|tauto]. intros y [<-|Hy]; [lia|]. specialize (Ha y Hy). lia.
Qed.

Lemma ins_before_app x l : (forall y, In y l -> y < x) -> ins_before x l = l ++ [x].
Proof.
  induction l as [|a t IH]; intros H; simpl; [reflexivity|]. pose proof (H a (or_introl eq_refl)).
  destruct (Nat.ltb_spec a x); [|lia]. f_equal. apply IH. intros y Hy. apply H. now right.
Qed.

Lemma ins_walk_before x : forall l, ssorted l -> ins_walk x l = if mem x l then None else Some (ins_before x l).
Proof.
  induction l as [|a t IH]; intros Hs; [reflexivity|]. destruct Hs as (Ha & Ht).
  cbn [ins_walk ins_before]. rewrite mem_cons.
  destruct (Nat.eqb_spec a x) as [->|Hne]; [reflexivity|]. cbn [orb].
  destruct (Nat.ltb_spec x a) as [Hlt|Hge].
  - destruct (Nat.ltb_spec a x); [lia|]. rewrite (proj2 (mem_false x t)); [reflexivity|].
    intros Hin. specialize (Ha x Hin). lia.
  - destruct (Nat.ltb_spec a x); [|lia]. rewrite (IH Ht). now destruct (mem x t).
Qed.

(* the C's shortcut through the last element changes nothing *)
Lemma ins_fast_before x l : ssorted l -> ins_fast x l = if mem x l then None else Some (ins_before x l).
Proof.
  intros Hs. unfold ins_fast. pose proof (last_opt_spec l Hs) as HL.
  destruct (last_opt l) as [y|]; [|subst l; reflexivity]. destruct HL as (Hy & Hmax).
  destruct (Nat.eqb_spec y x) as [->|Hne]; [now rewrite (proj2 (mem_In x l) Hy)|].
  destruct (Nat.ltb_spec y x) as [Hlt|_]; [|apply ins_walk_before, Hs].
  assert (Hall : forall z, In z l -> z < x) by (intros z Hz; specialize (Hmax z Hz); lia).
  rewrite (proj2 (mem_false x l)), ins_before_app; [reflexivity|exact Hall|].
  intros Hx. specialize (Hall x Hx). lia.
Qed.

(* The searches compare with an end of a strictly increasing list first: that decides membership, or leaves it
   to what the search does next (k). *)
Lemma mem_eq_iff x l y l' : (In x l <-> In y l') -> mem x l = mem y l'.
Proof. intros H. apply eq_true_iff_eq. now rewrite !mem_In. Qed.

Lemma head_shortcut x a t k : ssorted (a :: t) -> (a < x -> k = mem x t) ->
  (if x <? a then false else if a =? x then true else k) = mem x (a :: t).
Proof.
  intros (Ha & _) Hk. rewrite mem_cons.
  destruct (Nat.ltb_spec x a) as [H|H].
  - destruct (Nat.eqb_spec a x); [lia|]. symmetry. apply mem_false. intros Hin. specialize (Ha x Hin). lia.
  - destruct (Nat.eqb_spec a x); [reflexivity|]. apply Hk. lia.
Qed.

Lemma last_shortcut x l k : ssorted l -> k = mem x l ->
  match last_opt l with None => false | Some y => if y <? x then false else if y =? x then true else k end = mem x l.
Proof.
  intros Hs Hk. pose proof (last_opt_spec l Hs) as H. destruct (last_opt l) as [y|]; [|now subst l].
  destruct H as (Hy & Hmax).
  destruct (Nat.ltb_spec y x); [symmetry; apply mem_false; intros Hx; specialize (Hmax x Hx); lia|].
  destruct (Nat.eqb_spec y x) as [->|]; [symmetry; now apply mem_In|exact Hk].
Qed.

Lemma find_walk_spec i j : forall row col, ssorted row -> ssorted col ->
  (In j row <-> In i col) -> find_walk row col i j = mem j row.
Proof.
  induction row as [|c row' IH]; intros col Hsr Hsc Hiff; [reflexivity|]. simpl find_walk.
  apply head_shortcut; [exact Hsr|]. intros Hc.
  assert (Hiff' : In j row' <-> In i col) by (rewrite <- Hiff; simpl; intuition lia).
  rewrite (mem_eq_iff _ _ _ _ Hiff'). destruct col as [|r col']; [reflexivity|].
  apply head_shortcut; [exact Hsc|]. intros Hr.
  assert (Hiff'' : In j row' <-> In i col') by (rewrite Hiff'; simpl; intuition lia).
  rewrite <- (mem_eq_iff _ _ _ _ Hiff''). apply IH; [apply Hsr|apply Hsc|exact Hiff''].
Qed.

Lemma mem_remove1 y x l : mem y (remove1 x l) = negb (y =? x) && mem y l.
Proof. apply eq_true_iff_eq. unfold remove1. rewrite andb_true_iff, !mem_In, filter_In. tauto. Qed.

Lemma ssorted_filter f l : ssorted l -> ssorted (filter f l).
Proof.
  induction l as [|a t IH]; simpl; [auto|]. intros (Ha & Ht). destruct (f a); simpl; auto.
  split; [|auto]. intros y Hy. apply filter_In in Hy. apply Ha, Hy.
Qed.

(* an entry occurs at most once in a strictly increasing list *)
Lemma remove1_length x l : ssorted l -> length l = length (remove1 x l) + if mem x l then 1 else 0.
Proof.
  induction l as [|a t IH]; intros Hs; [reflexivity|]. destruct Hs as (Ha & Ht). specialize (IH Ht).
  rewrite mem_cons. simpl.
  destruct (Nat.eqb_spec a x) as [->|Hne]; simpl; [|lia].
  rewrite (proj2 (mem_false x t)) in IH by (intros H; specialize (Ha x H); lia). lia.
Qed.

Lemma BLOCK_pos : 0 < BLOCK.  Proof. unfold BLOCK. apply Nat.lt_0_succ. Qed.
Global Opaque BLOCK.

Definition total (m : smat) : nat := list_sum (map (@length nat) (rws m)).

Record WF (m : smat) : Prop := {
  wf_rl : length (rws m) = nr m;
  wf_cl : length (cls m) = nc m;
  wf_rs : forall i, i < nr m -> ssorted (nth i (rws m) []) /\ forall j, In j (nth i (rws m) []) -> j < nc m;
  wf_cs : forall j, j < nc m -> ssorted (nth j (cls m) []) /\ forall i, In i (nth j (cls m) []) -> i < nr m;
  wf_cons : forall i j, i < nr m -> j < nc m -> (In j (nth i (rws m) []) <-> In i (nth j (cls m) []));
  wf_pool : nblocks m * BLOCK = nfree m + total m }.

Definition has (m : smat) (i j : nat) : bool := mem j (nth i (rws m) []).

Lemma has_In m i j : has m i j = true <-> In j (nth i (rws m) []).
Proof. apply mem_In. Qed.

(* a row beyond the last is empty, so nothing need be asked of i *)
Lemma wf_row m i : WF m -> ssorted (nth i (rws m) []) /\ forall j, has m i j = true -> i < nr m /\ j < nc m.
Proof.
  intros W. destruct (Nat.lt_ge_cases i (nr m)) as [Hi|Hi].
  - destruct (wf_rs m W i Hi) as (Hs & Hr). split; [exact Hs|]. intros j Hj. split; [exact Hi|apply Hr, has_In, Hj].
  - unfold has. rewrite nth_overflow by (rewrite (wf_rl m W); exact Hi). split; [exact I|discriminate].
Qed.

Lemma list_sum_repeat0 k : list_sum (map (@length nat) (repeat [] k)) = 0.
Proof. induction k; simpl; auto. Qed.

Lemma allocate_wf r c : WF (s_allocate r c) /\ forall i j, has (s_allocate r c) i j = false.
Proof.
  split; [constructor; simpl; rewrite ?repeat_length; auto|].
  - intros i _. rewrite nth_repeat. simpl. tauto.
  - intros j _. rewrite nth_repeat. simpl. tauto.
  - intros i j _ _. rewrite !nth_repeat. simpl. tauto.
  - unfold total. simpl. now rewrite list_sum_repeat0.
  - intros i j. unfold has. simpl. now rewrite nth_repeat.
Qed.

(* of_mod2sparse_clear leaves what of_mod2sparse_allocate builds *)
Lemma clear_wf m : WF (s_clear m) /\ forall i j, has (s_clear m) i j = false.
Proof. exact (allocate_wf (nr m) (nc m)). Qed.

Lemma total_upd (l : list (list nat)) i x : i < length l ->
  list_sum (map (@length nat) (upd l i x)) + length (nth i l []) = list_sum (map (@length nat) l) + length x.
Proof.
  revert i. induction l as [|a t IH]; intros [|i] Hi; simpl in *; try lia.
  specialize (IH i ltac:(lia)). lia.
Qed.

Theorem find_spec m i j : WF m -> i < nr m -> j < nc m -> s_find m i j = Some (has m i j).
Proof.
  intros W Hi Hj. unfold s_find, has.
  destruct (Nat.leb_spec (nr m) i); [lia|]. destruct (Nat.leb_spec (nc m) j); [lia|]. simpl. f_equal.
  destruct (wf_rs m W i Hi) as (Hsr & _). destruct (wf_cs m W j Hj) as (Hsc & _).
  pose proof (mem_eq_iff _ _ _ _ (wf_cons m W i j Hi Hj)) as E.
  apply last_shortcut; [exact Hsr|]. rewrite E. apply last_shortcut; [exact Hsc|].
  rewrite <- E. apply find_walk_spec; [exact Hsr|exact Hsc|apply (wf_cons m W i j Hi Hj)].
Qed.

(* What insert and delete share: row i and column j are replaced by strictly increasing lists that differ from
   the old ones only in whether they hold j (resp. i), and the pool counters follow the number of entries. *)
Lemma set_entry_spec m i j (b : bool) row' col' nb nf :
  WF m -> i < nr m -> j < nc m ->
  ssorted row' -> (forall y, mem y row' = if y =? j then b else mem y (nth i (rws m) [])) ->
  ssorted col' -> (forall x, mem x col' = if x =? i then b else mem x (nth j (cls m) [])) ->
  nb * BLOCK + length (nth i (rws m) []) = nf + total m + length row' ->
  let m' := {| nr := nr m; nc := nc m; rws := upd (rws m) i row'; cls := upd (cls m) j col'; nblocks := nb; nfree := nf |} in
  WF m' /\ forall i' j', has m' i' j' = if (i' =? i) && (j' =? j) then b else has m i' j'.
Proof.
  intros W Hi Hj Sr Mr Sc Mc Hp m'.
  assert (Li : i < length (rws m)) by (rewrite (wf_rl m W); exact Hi).
  assert (Lj : j < length (cls m)) by (rewrite (wf_cl m W); exact Hj).
  pose proof (proj2 (Nat.ltb_lt _ _) Li) as Li'. pose proof (proj2 (Nat.ltb_lt _ _) Lj) as Lj'.
  assert (R : forall i' y, mem y (nth i' (rws m') []) = if (i' =? i) && (y =? j) then b else mem y (nth i' (rws m) [])).
  { intros i' y. simpl. rewrite nth_upd, Li', andb_true_r. destruct (Nat.eqb_spec i' i) as [->|]; [apply Mr|reflexivity]. }
  assert (C : forall j' x, mem x (nth j' (cls m') []) = if (x =? i) && (j' =? j) then b else mem x (nth j' (cls m) [])).
  { intros j' x. simpl. rewrite nth_upd, Lj', andb_true_r. rewrite andb_comm. destruct (Nat.eqb_spec j' j) as [->|]; [apply Mc|reflexivity]. }
  split; [constructor|exact R].
  - simpl. rewrite upd_length. apply (wf_rl m W).
  - simpl. rewrite upd_length. apply (wf_cl m W).
  - intros i' Hi'. split.
    + simpl. rewrite nth_upd, Li', andb_true_r. destruct (i' =? i); [exact Sr|apply (wf_rs m W i' Hi')].
    + intros y Hy. apply mem_In in Hy. rewrite R in Hy. destruct ((i' =? i) && (y =? j)) eqn:E.
      * apply andb_true_iff in E as (_ & E). apply Nat.eqb_eq in E. subst y. exact Hj.
      * apply (wf_rs m W i' Hi'), mem_In, Hy.
  - intros j' Hj'. split.
    + simpl. rewrite nth_upd, Lj', andb_true_r. destruct (j' =? j); [exact Sc|apply (wf_cs m W j' Hj')].
    + intros x Hx. apply mem_In in Hx. rewrite C in Hx. destruct ((x =? i) && (j' =? j)) eqn:E.
      * apply andb_true_iff in E as (E & _). apply Nat.eqb_eq in E. subst x. exact Hi.
      * apply (wf_cs m W j' Hj'), mem_In, Hx.
  - intros i' j' Hi' Hj'. rewrite <- !mem_In, R, C.
    destruct ((i' =? i) && (j' =? j)); [reflexivity|]. rewrite !mem_In. apply (wf_cons m W i' j' Hi' Hj').
  - unfold total in *. simpl. pose proof (total_upd (rws m) i row' Li). lia.
Qed.

Lemma has_same m i j i' j' : has m i' j' = if (i' =? i) && (j' =? j) then has m i j else has m i' j'.
Proof. destruct (Nat.eqb_spec i' i) as [->|]; [destruct (Nat.eqb_spec j' j) as [->|]|]; reflexivity. Qed.

(* in range, of_mod2sparse_insert is the sorted insertion into row and column, paid for by one pool entry;
   the column search cannot find what the row search missed, so the result is never "garbled" *)
Lemma s_insert_inrange m i j : WF m -> i < nr m -> j < nc m ->
  s_insert m i j =
  if has m i j then (m, Existed) else
  ({| nr := nr m; nc := nc m; rws := upd (rws m) i (ins_before j (nth i (rws m) []));
      cls := upd (cls m) j (ins_before i (nth j (cls m) [])); nblocks := fst (pool_take m); nfree := snd (pool_take m) |}, Inserted).
Proof.
  intros W Hi Hj. unfold s_insert, has.
  destruct (Nat.leb_spec (nr m) i); [lia|]. destruct (Nat.leb_spec (nc m) j); [lia|]. cbn [orb].
  rewrite (ins_fast_before j) by apply (wf_rs m W i Hi).
  destruct (mem j (nth i (rws m) [])) eqn:E; [reflexivity|].
  rewrite (ins_fast_before i) by apply (wf_cs m W j Hj).
  rewrite (proj2 (mem_false i _)); [now destruct (pool_take m)|].
  intros Hin. apply (wf_cons m W i j Hi Hj), mem_In in Hin. congruence.
Qed.

Theorem insert_spec m i j : WF m -> i < nr m -> j < nc m ->
  let '(m', st) := s_insert m i j in
  WF m' /\ nr m' = nr m /\ nc m' = nc m /\
  (forall i' j', has m' i' j' = has m i' j' || ((i' =? i) && (j' =? j))) /\
  (st = if has m i j then Existed else Inserted).
Proof.
  intros W Hi Hj. rewrite (s_insert_inrange m i j W Hi Hj). destruct (has m i j) eqn:Eh.
  { split; [exact W|]. split; [reflexivity|]. split; [reflexivity|]. split; [|reflexivity].
    intros i' j'. rewrite (has_same m i j i' j'), Eh. now destruct (_ && _), (has m i' j'). }
  apply mem_false in Eh.
  assert (Ec : ~ In i (nth j (cls m) [])) by (rewrite <- (wf_cons m W i j Hi Hj); exact Eh).
  assert (Hpool : fst (pool_take m) * BLOCK = snd (pool_take m) + S (total m)).
  { unfold pool_take. pose proof (wf_pool m W). pose proof BLOCK_pos.
    destruct (Nat.eqb_spec (nfree m) 0); simpl; lia. }
  destruct (set_entry_spec m i j true (ins_before j (nth i (rws m) [])) (ins_before i (nth j (cls m) []))
              (fst (pool_take m)) (snd (pool_take m)) W Hi Hj) as (W' & Hh).
  - apply ins_before_sorted; [apply (wf_rs m W i Hi)|exact Eh].
  - intros y. apply mem_ins_before.
  - apply ins_before_sorted; [apply (wf_cs m W j Hj)|exact Ec].
  - intros x. apply mem_ins_before.
  - rewrite ins_before_length. lia.
  - split; [exact W'|]. split; [reflexivity|]. split; [reflexivity|]. split; [|reflexivity].
    intros i' j'. rewrite Hh. now destruct (_ && _), (has m i' j').
Qed.

Definition adds (r r' : smat) (S : nat -> nat -> bool) : Prop :=
  WF r' /\ nr r' = nr r /\ nc r' = nc r /\ forall i j, has r' i j = has r i j || S i j.

Lemma s_insert_oor m i j : nr m <= i \/ nc m <= j -> s_insert m i j = (m, OutOfRange).
Proof.
  intros H. unfold s_insert. destruct (Nat.leb_spec (nr m) i); [reflexivity|]. destruct (Nat.leb_spec (nc m) j); [reflexivity|]. lia.
Qed.

(* whatever the indices: of_mod2sparse_insert refuses a pair out of range and changes nothing *)
Lemma insert_adds m i j : WF m ->
  adds m (fst (s_insert m i j)) (fun i' j' => (i' =? i) && (j' =? j) && ((i <? nr m) && (j <? nc m))).
Proof.
  intros W. destruct ((i <? nr m) && (j <? nc m)) eqn:E.
  - apply andb_true_iff in E as (Hi & Hj). apply Nat.ltb_lt in Hi, Hj.
    pose proof (insert_spec m i j W Hi Hj) as H. destruct (s_insert m i j) as [m' st]. destruct H as (W' & Er & Ec & Hh & _).
    split; [exact W'|]. split; [exact Er|]. split; [exact Ec|]. intros i' j'. rewrite Hh, andb_true_r. reflexivity.
  - rewrite s_insert_oor by (apply andb_false_iff in E; rewrite !Nat.ltb_ge in E; exact E).
    split; [exact W|]. split; [reflexivity|]. split; [reflexivity|]. intros i' j'. now rewrite andb_false_r, orb_false_r.
Qed.

Theorem delete_spec m i j : WF m -> i < nr m -> j < nc m ->
  WF (s_delete m i j) /\ (forall i' j', has (s_delete m i j) i' j' = has m i' j' && negb ((i' =? i) && (j' =? j))).
Proof.
  intros W Hi Hj. unfold s_delete. pose proof (remove1_length j _ (proj1 (wf_rs m W i Hi))) as Hl.
  fold (has m i j) in *. destruct (has m i j) eqn:Eh.
  2:{ split; [exact W|]. intros i' j'. rewrite (has_same m i j i' j'), Eh. now destruct (_ && _), (has m i' j'). }
  destruct (set_entry_spec m i j false (remove1 j (nth i (rws m) [])) (remove1 i (nth j (cls m) []))
              (nblocks m) (S (nfree m)) W Hi Hj) as (W' & Hh).
  - apply ssorted_filter, (wf_rs m W i Hi).
  - intros y. rewrite mem_remove1. now destruct (y =? j).
  - apply ssorted_filter, (wf_cs m W j Hj).
  - intros x. rewrite mem_remove1. now destruct (x =? i).
  - pose proof (wf_pool m W). lia.
  - split; [exact W'|]. intros i' j'. rewrite Hh. now destruct (_ && _), (has m i' j').
Qed.

Lemma insert_all_cons r e es : insert_all r (e :: es) = insert_all (fst (s_insert r (fst e) (snd e))) es.
Proof. reflexivity. Qed.

Lemma insert_all_app r es es' : insert_all r (es ++ es') = insert_all (insert_all r es) es'.
Proof. apply fold_left_app. Qed.

Theorem insert_all_spec : forall es r, WF r -> (forall e, In e es -> fst e < nr r /\ snd e < nc r) ->
  WF (insert_all r es) /\ nr (insert_all r es) = nr r /\ nc (insert_all r es) = nc r /\
  forall i j, has (insert_all r es) i j = has r i j || existsb (fun e => (i =? fst e) && (j =? snd e)) es.
Proof.
  induction es as [|e es IH]; intros r W Hr; simpl.
  - split; [exact W|]. split; [reflexivity|]. split; [reflexivity|]. intros. now rewrite orb_false_r.
  - destruct (Hr e (or_introl eq_refl)) as (H1 & H2).
    pose proof (insert_spec r (fst e) (snd e) W H1 H2) as HI.
    destruct (s_insert r (fst e) (snd e)) as [r' st]. destruct HI as (W' & Er & Ec & Hh & _). simpl.
    destruct (IH r' W') as (W'' & Er' & Ec' & Hh').
    { intros e' He'. rewrite Er, Ec. apply Hr. now right. }
    split; [exact W''|]. split; [congruence|]. split; [congruence|].
    intros i j. rewrite Hh', Hh, orb_assoc. reflexivity.
Qed.

Lemma insert_all_set r es S : WF r -> (forall i j, In (i, j) es <-> S i j = true) ->
  (forall i j, S i j = true -> i < nr r /\ j < nc r) -> adds r (insert_all r es) S.
Proof.
  intros W Hin Hr. destruct (insert_all_spec es r W) as (W' & En & Ec & Hh).
  { intros (i, j) He. apply Hr, Hin, He. }
  split; [exact W'|]. split; [exact En|]. split; [exact Ec|].
  intros i j. rewrite Hh. f_equal. apply eq_true_iff_eq. rewrite existsb_pair. apply Hin.
Qed.

Lemma adds_cleared r r' S : adds (s_clear r) r' S ->
  WF r' /\ nr r' = nr r /\ nc r' = nc r /\ forall i j, has r' i j = S i j.
Proof.
  intros (W & En & Ec & Hh). split; [exact W|]. split; [exact En|]. split; [exact Ec|].
  intros i j. rewrite Hh. now rewrite (proj2 (clear_wf r)).
Qed.

Theorem traversals_sorted m : WF m ->
  (forall i, i < nr m -> ssorted (nth i (rws m) []) /\ forall j, In j (nth i (rws m) []) <-> has m i j = true) /\
  (forall j, j < nc m -> ssorted (nth j (cls m) []) /\ forall i, i < nr m -> (In i (nth j (cls m) []) <-> has m i j = true)).
Proof.
  intros W. split.
  - intros i Hi. split; [apply (wf_rs m W i Hi)|]. intros j. unfold has. now rewrite mem_In.
  - intros j Hj. split; [apply (wf_cs m W j Hj)|]. intros i Hi. unfold has. rewrite mem_In. symmetry. apply (wf_cons m W i j Hi Hj).
Qed.

Lemma entries_spec m i j : In (i, j) (entries m) <-> i < nr m /\ In j (nth i (rws m) []).
Proof. apply (in_rowpairs (fun i => nth i (rws m) [])). Qed.

(* of_mod2sparse_copy: afterwards r holds exactly the entries of m *)
Theorem copy_spec m r : WF m -> WF r -> nr m <= nr r -> nc m <= nc r ->
  WF (s_copy m r) /\ forall i j, has (s_copy m r) i j = (i <? nr m) && has m i j.
Proof.
  intros Wm Wr Hr Hc. unfold s_copy.
  destruct (Nat.ltb_spec (nr r) (nr m)); [lia|]. destruct (Nat.ltb_spec (nc r) (nc m)); [lia|]. cbn [orb].
  destruct (adds_cleared r (insert_all (s_clear r) (entries m)) (fun i j => (i <? nr m) && has m i j)) as (W' & _ & _ & Hh);
    [|split; assumption].
  apply insert_all_set; [apply clear_wf| |].
  - intros i j. now rewrite entries_spec, andb_true_iff, Nat.ltb_lt, has_In.
  - intros i j E. apply andb_true_iff in E as (Hi & Hj). apply Nat.ltb_lt in Hi. apply mem_In in Hj.
    apply (wf_rs m Wm i Hi) in Hj. simpl. lia.
Qed.

(* pool: the free list plus the live entries account for every entry of every block, so freeing the
   blocks releases everything; after clear nothing is left *)
Theorem pool_accounting m : WF m -> nblocks m * BLOCK = nfree m + total m.
Proof. intros W. apply (wf_pool m W). Qed.
