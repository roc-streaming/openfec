(* Model M of of_fill_2D_pchk_matrix / of_create_2D_pchk_matrix (of_create_pchk.c) on top of the
   sparse-matrix model (Sparse.v), and the structure of the resulting parity-check matrix:
   closed form of the rows, the hypotheses the decoder theorems need (length, NoDup, range, degree),
   the staircase shape the encoder theorem needs, and recovery of any single loss by peeling. *)
From Coq Require Import Arith List Bool Lia.
From OFV Require Import ListAux Sparse SparseProofs Pchk.
From OFV Require LdpcEnc ITProofs.
Import ListNotations.

(* of_fill_2D_pchk_matrix (m, d, l) on the freshly allocated matrix; the three loops in the C's order *)
Definition fill2d (d l : nat) : smat :=
  let m0 := s_allocate (d + l) (d * l + d + l) in
  let m1 := fold_left (fun m i => ins m i i) (seq 0 (l + d)) m0 in
  let m2 := fold_left (fun m i => fold_left (fun m' j => ins m' i (j + i * l + l + d)) (seq 0 l) m)
                      (seq 0 d) m1 in
  fold_left (fun m i => fold_left (fun m' j => ins m' i (l * j + (i - d) + l + d)) (seq 0 d) m)
            (seq d l) m2.

Definition rows2d (d l : nat) : list (list nat) := rws (fill2d d l).

(* for (d = floor(sqrt(nb_cols)); d > 0; d--) { l = (nb_cols-nb_rows)/d; if (l integer && d+l == nb_rows) ... } *)
Fixpoint search2d (r n d : nat) : option (nat * nat) :=
  match d with
  | O => None
  | S d' => if ((n - r) mod d =? 0) && (d + (n - r) / d =? r) then Some (d, (n - r) / d)
            else search2d r n d'
  end.

(* of_create_2D_pchk_matrix: the call is of_fill_2D_pchk_matrix (m, l, d): the d found by the search
   becomes the parameter l of the fill function and vice versa.  The pair returned is the (d, l)
   passed to fill. *)
Definition create2d (nb_rows nb_cols : nat) : option (nat * nat * smat) :=
  if nb_cols <=? nb_rows then None else
  match search2d nb_rows nb_cols (Nat.sqrt nb_cols) with
  | None => None
  | Some (df, lf) => Some (lf, df, fill2d lf df)
  end.

(* fill2d as a bulk insertion *)
Definition ents2d (d l : nat) : list (nat * nat) :=
  map (fun i => (i, i)) (seq 0 (l + d)) ++
  flat_map (fun i => map (fun j => (i, j + i * l + l + d)) (seq 0 l)) (seq 0 d) ++
  flat_map (fun i => map (fun j => (i, l * j + (i - d) + l + d)) (seq 0 d)) (seq d l).

Lemma ia_map {X} (g1 g2 : X -> nat) : forall xs r,
  insert_all r (map (fun x => (g1 x, g2 x)) xs) = fold_left (fun m x => ins m (g1 x) (g2 x)) xs r.
Proof.
  induction xs as [|x xs IH]; intros r; [reflexivity|].
  cbn [map fold_left]. rewrite <- IH. reflexivity.
Qed.

(* a loop nest inserting one entry per inner iteration *)
Lemma ia_nest {X Y} (ys : X -> list Y) (g1 g2 : X -> Y -> nat) : forall xs r,
  insert_all r (flat_map (fun x => map (fun y => (g1 x y, g2 x y)) (ys x)) xs) =
  fold_left (fun m x => fold_left (fun m' y => ins m' (g1 x y) (g2 x y)) (ys x) m) xs r.
Proof.
  induction xs as [|x xs IH]; intros r; [reflexivity|].
  cbn [flat_map fold_left]. rewrite insert_all_app, (ia_map (g1 x) (g2 x)). apply IH.
Qed.

Lemma fill2d_insert_all d l :
  fill2d d l = insert_all (s_allocate (d + l) (d * l + d + l)) (ents2d d l).
Proof.
  unfold fill2d, ents2d. rewrite !insert_all_app, (ia_map (fun i => i) (fun i => i)).
  rewrite (ia_nest (fun _ => seq 0 l) (fun i _ => i) (fun i j => j + i * l + l + d)).
  rewrite (ia_nest (fun _ => seq 0 d) (fun i _ => i) (fun i j => l * j + (i - d) + l + d)).
  reflexivity.
Qed.

Lemma cell_lt d l a b : a < d -> b < l -> a * l + b < d * l.
Proof.
  intros Ha Hb. assert (H : S a * l <= d * l) by (apply Nat.mul_le_mono_r; lia).
  cbn [Nat.mul] in H. lia.
Qed.

Lemma cell_unique l a b a' b' : b < l -> b' < l -> a * l + b = a' * l + b' -> a = a' /\ b = b'.
Proof.
  intros Hb Hb' E. apply (Nat.div_mod_unique l a a' b b' Hb Hb'). lia.
Qed.

Lemma ents2d_in d l i j : In (i, j) (ents2d d l) <->
  (i < d + l /\ j = i) \/
  (i < d /\ exists b, b < l /\ j = d + l + i * l + b) \/
  (d <= i < d + l /\ exists a, a < d /\ j = d + l + l * a + (i - d)).
Proof.
  unfold ents2d. rewrite !in_app_iff, in_map_iff, !in_flat_map. split.
  - intros [(x & E & Hx)|[(x & Hx & Hin)|(x & Hx & Hin)]].
    + apply in_seq in Hx. inversion E; subst. left. lia.
    + apply in_seq in Hx. apply in_map_iff in Hin as (b & E & Hb). apply in_seq in Hb.
      inversion E; subst. right. left. split; [lia|]. exists b. lia.
    + apply in_seq in Hx. apply in_map_iff in Hin as (a & E & Ha). apply in_seq in Ha.
      inversion E; subst. right. right. split; [lia|]. exists a. lia.
  - intros [(Hi & ->)|[(Hi & b & Hb & ->)|(Hi & a & Ha & ->)]].
    + left. exists i. split; [reflexivity|apply in_seq; lia].
    + right. left. exists i. split; [apply in_seq; lia|]. apply in_map_iff. exists b.
      split; [f_equal; lia|apply in_seq; lia].
    + right. right. exists i. split; [apply in_seq; lia|]. apply in_map_iff. exists a.
      split; [f_equal; lia|apply in_seq; lia].
Qed.

Lemma ents2d_range d l e : In e (ents2d d l) -> fst e < d + l /\ snd e < d * l + d + l.
Proof.
  destruct e as [i j]. intros Hin. apply ents2d_in in Hin. cbn [fst snd].
  destruct Hin as [(Hi & ->)|[(Hi & b & Hb & ->)|(Hi & a & Ha & ->)]].
  - lia.
  - pose proof (cell_lt d l i b Hi Hb). lia.
  - pose proof (cell_lt d l a (i - d) Ha ltac:(lia)). lia.
Qed.

Theorem fill2d_spec d l :
  WF (fill2d d l) /\ nr (fill2d d l) = d + l /\ nc (fill2d d l) = d * l + d + l /\
  forall i j, has (fill2d d l) i j = true <-> In (i, j) (ents2d d l).
Proof.
  rewrite fill2d_insert_all.
  destruct (allocate_wf (d + l) (d * l + d + l)) as (W0 & H0).
  destruct (insert_all_spec (ents2d d l) _ W0) as (W & Er & Ec & Hh).
  { intros e He. cbn [s_allocate nr nc]. apply ents2d_range. exact He. }
  split; [exact W|]. split; [exact Er|]. split; [exact Ec|].
  intros i j. rewrite Hh, H0. cbn [orb]. apply existsb_pair.
Qed.

Lemma rows2d_in d l i j : In j (nth i (rows2d d l) []) <-> In (i, j) (ents2d d l).
Proof.
  destruct (fill2d_spec d l) as (_ & _ & _ & Hh). rewrite <- Hh.
  unfold has, rows2d. symmetry. apply mem_In.
Qed.

Lemma rows2d_ssorted d l i : i < d + l -> ssorted (nth i (rows2d d l) []).
Proof.
  intros Hi. destruct (fill2d_spec d l) as (W & Er & _ & _).
  apply (wf_rs _ W i). rewrite Er. exact Hi.
Qed.

Lemma ssorted_ext : forall a b, ssorted a -> ssorted b -> (forall x, In x a <-> In x b) -> a = b.
Proof.
  induction a as [|x a IH]; intros [|y b] Ha Hb Hiff.
  - reflexivity.
  - exfalso. apply (Hiff y). now left.
  - exfalso. apply (Hiff x). now left.
  - destruct Ha as (Hx & Ha). destruct Hb as (Hy & Hb).
    (* each head is the least element of its list *)
    assert (E : x = y).
    { pose proof (Hiff x) as Ex. pose proof (Hiff y) as Ey. cbn [In] in Ex, Ey.
      specialize (Hx y). specialize (Hy x). intuition lia. }
    subst y. f_equal. apply IH; auto. intros z.
    specialize (Hiff z). cbn [In] in Hiff. specialize (Hx z). specialize (Hy z). intuition lia.
Qed.

Lemma ssorted_map_seq (f : nat -> nat) : (forall j k, j < k -> f j < f k) ->
  forall n a, ssorted (map f (seq a n)).
Proof.
  intros Hf. induction n as [|n IH]; intros a; cbn [seq map ssorted]; [exact I|].
  split; [|apply IH]. intros y Hy. apply in_map_iff in Hy as (k & <- & Hk). apply in_seq in Hk.
  apply Hf. lia.
Qed.

(* the row lists are kept in increasing column order: own repair symbol first, then the sources *)
Theorem rows2d_row_checks d l i : i < d ->
  nth i (rows2d d l) [] = i :: map (fun j => d + l + i * l + j) (seq 0 l).
Proof.
  intros Hi. apply ssorted_ext.
  - apply rows2d_ssorted. lia.
  - cbn [ssorted]. split.
    + intros y Hy. apply in_map_iff in Hy as (k & <- & _). lia.
    + apply ssorted_map_seq. intros j k Hjk. lia.
  - intros x. rewrite rows2d_in, ents2d_in. cbn [In]. rewrite in_map_iff. split.
    + intros [(_ & ->)|[(_ & b & Hb & ->)|(Hc & _)]]; [now left| |lia].
      right. exists b. split; [reflexivity|apply in_seq; lia].
    + intros [<-|(b & <- & Hb)]; [left; lia|]. apply in_seq in Hb.
      right. left. split; [exact Hi|]. exists b. lia.
Qed.

Theorem rows2d_col_checks d l i : d <= i < d + l ->
  nth i (rows2d d l) [] = i :: map (fun j => d + l + l * j + (i - d)) (seq 0 d).
Proof.
  intros Hi. apply ssorted_ext.
  - apply rows2d_ssorted. lia.
  - cbn [ssorted]. split.
    + intros y Hy. apply in_map_iff in Hy as (k & <- & _). lia.
    + apply ssorted_map_seq. intros j k Hjk.
      assert (H : l * S j <= l * k) by (apply Nat.mul_le_mono_l; lia).
      rewrite Nat.mul_succ_r in H. lia.
  - intros x. rewrite rows2d_in, ents2d_in. cbn [In]. rewrite in_map_iff. split.
    + intros [(_ & ->)|[(Hc & _)|(_ & a & Ha & ->)]]; [now left|lia|].
      right. exists a. split; [reflexivity|apply in_seq; lia].
    + intros [<-|(a & <- & Ha)]; [left; lia|]. apply in_seq in Ha.
      right. right. split; [exact Hi|]. exists a. lia.
Qed.

Section S.
Variables d l : nat.
Hypothesis d_pos : 1 <= d.
Hypothesis l_pos : 1 <= l.
(* only p2d_deg and p2d_covered need d_pos and l_pos; the other statements that have them as premises (the C16
   theorems are stated with them) say so in `Proof using`, so that it is not lia that decides *)
Let H := rows2d d l.
Let R := d + l.
Let N := d * l + d + l.

Theorem p2d_len : length H = R.
Proof using Type.
  destruct (fill2d_spec d l) as (W & Er & _ & _). unfold H, rows2d, R.
  rewrite (SparseProofs.wf_rl _ W). exact Er.
Qed.

Theorem p2d_nodup : forall i, i < R -> NoDup (nth i H []).
Proof using Type. intros i Hi. apply ssorted_nodup. apply rows2d_ssorted. exact Hi. Qed.

Theorem p2d_range : forall i c, i < R -> In c (nth i H []) -> c < N.
Proof using Type.
  intros i c Hi Hin. apply rows2d_in, ents2d_range in Hin. exact (proj2 Hin).
Qed.

Theorem p2d_deg : forall i, i < R -> 2 <= length (nth i H []).
Proof.
  intros i Hi. unfold H. destruct (Nat.lt_ge_cases i d) as [Hlt|Hge].
  - rewrite rows2d_row_checks by exact Hlt. cbn [length]. rewrite map_length, seq_length. lia.
  - rewrite rows2d_col_checks by (split; [exact Hge|exact Hi]). cbn [length]. rewrite map_length, seq_length. lia.
Qed.

Theorem p2d_R_le_N : R <= N.
Proof using d_pos l_pos. unfold R, N. lia. Qed.

(* each check has its own repair symbol and no other *)
Theorem p2d_own_repair : forall i c, i < R -> c < R -> (In c (nth i H []) <-> c = i).
Proof using d_pos l_pos.
  intros i c Hi Hc. unfold H. rewrite rows2d_in, ents2d_in. unfold R in *. split.
  - intros [(_ & E)|[(_ & b & _ & E)|(_ & a & _ & E)]]; [exact E|lia|lia].
  - intros ->. left. split; [exact Hi|reflexivity].
Qed.

(* each source symbol is in exactly one row check and one column check *)
Theorem p2d_source_checks : forall a b, a < d -> b < l -> forall i, i < R ->
  (In (R + a * l + b) (nth i H []) <-> i = a \/ i = d + b).
Proof using d_pos l_pos.
  intros a b Ha Hb i Hi. unfold H. rewrite rows2d_in, ents2d_in. unfold R in *. split.
  - intros [(Hlt & E)|[(Hlt & b' & Hb' & E)|(Hr & a' & Ha' & E)]].
    + lia.
    + left. destruct (cell_unique l a b i b' Hb Hb' ltac:(lia)) as (E1 & _). now symmetry.
    + right. destruct (cell_unique l a b a' (i - d) Hb ltac:(lia) ltac:(lia)) as (_ & E2). lia.
  - intros [->| ->].
    + right. left. split; [exact Ha|]. exists b. split; [exact Hb|lia].
    + right. right. split; [lia|]. exists a. split; [exact Ha|]. lia.
Qed.

Theorem p2d_stair : LdpcEnc.stair R H.
Proof.
  split; [exact p2d_len|]. intros c Hc. split; [apply p2d_nodup; exact Hc|]. split.
  - apply p2d_own_repair; auto.
  - intros x Hx Hne. destruct (Nat.lt_ge_cases x R) as [Hlt|Hge]; [|left; exact Hge].
    exfalso. apply Hne. apply (p2d_own_repair c x Hc Hlt). exact Hx.
Qed.

(* every symbol is in some check *)
Lemma p2d_covered : forall e, e < N -> exists i, i < R /\ In e (nth i H []).
Proof.
  intros e He. destruct (Nat.lt_ge_cases e R) as [Hlt|Hge].
  - exists e. split; [exact Hlt|]. apply p2d_own_repair; auto.
  - set (q := (e - R) / l). set (b := (e - R) mod l).
    assert (Ediv : e - R = l * q + b) by (apply Nat.div_mod; lia).
    assert (Hb : b < l) by (apply Nat.mod_upper_bound; lia).
    assert (Hq : q < d) by (apply Nat.div_lt_upper_bound; unfold N, R in *; lia).
    exists q. split; [unfold R; lia|].
    replace e with (R + q * l + b) by lia.
    apply p2d_source_checks; auto. unfold R; lia.
Qed.

(* single-loss recovery: whatever symbol e is lost, peeling recovers everything *)
Theorem p2d_single_loss : forall e, e < N ->
  forall c, c < N -> ITProofs.peel H R (fun c' => c' < N /\ c' <> e) c.
Proof.
  intros e He c Hc. destruct (Nat.eq_dec c e) as [->|Hne].
  - destruct (p2d_covered e He) as (i & Hi & Hin).
    apply (ITProofs.peel_row H R _ i e Hi Hin). intros c' Hc' Hne'.
    apply ITProofs.peel_recv. split; [apply (p2d_range i c' Hi Hc')|exact Hne'].
  - apply ITProofs.peel_recv. split; assumption.
Qed.

End S.

Theorem p2d_decodable d l : 1 <= d -> 1 <= l -> LdpcEnc.decodable (rows2d d l) (d + l) (d * l + d + l).
Proof.
  intros Hd Hl. split; [apply p2d_len|]. split; [apply p2d_nodup|]. split; [apply p2d_range|].
  split; [now apply p2d_deg|]. split; [now apply p2d_R_le_N|]. split; [now apply p2d_covered|now apply p2d_stair].
Qed.

Lemma search2d_spec r n : forall d0 df lf, search2d r n d0 = Some (df, lf) ->
  1 <= df <= d0 /\ n - r = df * lf /\ df + lf = r.
Proof.
  induction d0 as [|d0 IH]; intros df lf Hs; cbn [search2d] in Hs; [discriminate|].
  destruct (((n - r) mod S d0 =? 0) && (S d0 + (n - r) / S d0 =? r)) eqn:E.
  - inversion Hs; subst. apply andb_true_iff in E as (E1 & E2).
    apply Nat.eqb_eq in E1. apply Nat.eqb_eq in E2.
    split; [lia|]. split; [|exact E2].
    apply Nat.div_exact; [discriminate|exact E1].
  - destruct (IH df lf Hs) as (A & B & C). split; [lia|]. split; assumption.
Qed.

Theorem create2d_spec r n d l m : create2d r n = Some (d, l, m) ->
  m = fill2d d l /\ d + l = r /\ d * l + d + l = n /\ 1 <= d /\ 1 <= l.
Proof.
  unfold create2d. destruct (Nat.leb_spec n r) as [Hle|Hlt]; [discriminate|].
  destruct (search2d r n (Nat.sqrt n)) as [[df lf]|] eqn:Es; [|discriminate].
  intros E. inversion E; subst. apply search2d_spec in Es as (A & B & C).
  split; [reflexivity|]. split; [lia|].
  assert (Hd : 1 <= d).
  { destruct d as [|d']; [|lia]. rewrite Nat.mul_0_r in B. lia. }
  split; [|split; [exact Hd|lia]].
  rewrite (Nat.mul_comm d l). lia.
Qed.

Definition shape2d (o : option (nat * nat * smat)) : option (nat * nat * nat * nat * list (list nat)) :=
  match o with None => None | Some (d, l, m) => Some (d, l, nr m, nc m, rws m) end.

(* nb_rows = 8, nb_cols = 24: d = 4, l = 16/4 = 4, 4 + 4 = 8 *)
Example create2d_8_24 : shape2d (create2d 8 24) = Some (4, 4, 8, 24,
  [ [0; 8; 9; 10; 11]; [1; 12; 13; 14; 15]; [2; 16; 17; 18; 19]; [3; 20; 21; 22; 23];
    [4; 8; 12; 16; 20]; [5; 9; 13; 17; 21]; [6; 10; 14; 18; 22]; [7; 11; 15; 19; 23] ]).
Proof. vm_compute. reflexivity. Qed.

(* nb_rows = 6, nb_cols = 15: d = 3, l = 9/3 = 3, 3 + 3 = 6 *)
Example create2d_6_15 : shape2d (create2d 6 15) = Some (3, 3, 6, 15,
  [ [0; 6; 7; 8]; [1; 9; 10; 11]; [2; 12; 13; 14];
    [3; 6; 9; 12]; [4; 7; 10; 13]; [5; 8; 11; 14] ]).
Proof. vm_compute. reflexivity. Qed.

(* nb_rows = 5, nb_cols = 9: d = 3: 4/3 not an integer; d = 2: l = 2, 2 + 2 <> 5; d = 1: l = 4, 1 + 4 = 5;
   the call is fill (m, l = 4, d = 1): four row checks of one source each and one column check *)
Example create2d_5_9 : shape2d (create2d 5 9) = Some (4, 1, 5, 9,
  [ [0; 5]; [1; 6]; [2; 7]; [3; 8]; [4; 5; 6; 7; 8] ]).
Proof. vm_compute. reflexivity. Qed.

(* nothing fits / nb_rows >= nb_cols *)
Example create2d_7_24 : create2d 7 24 = None.
Proof. vm_compute. reflexivity. Qed.
Example create2d_9_9 : create2d 9 9 = None.
Proof. vm_compute. reflexivity. Qed.

Print Assumptions rows2d_row_checks.
Print Assumptions rows2d_col_checks.
Print Assumptions p2d_len.
Print Assumptions p2d_nodup.
Print Assumptions p2d_range.
Print Assumptions p2d_deg.
Print Assumptions p2d_R_le_N.
Print Assumptions p2d_own_repair.
Print Assumptions p2d_source_checks.
Print Assumptions p2d_stair.
Print Assumptions p2d_single_loss.
Print Assumptions create2d_spec.
