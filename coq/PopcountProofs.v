(* Correctness of the population-count helpers of of_hamming_weight.c for every input word.
   A word is read as its list of bytes.  No carry or borrow of the three masked stages of the SWAR
   popcounts crosses a byte boundary, so each stage acts on every byte separately (stage_val), and
   what the three stages do to one byte is checked on the 256 bytes.  The sum of the resulting
   byte counts is then taken by two shifted additions (32 bits) or one multiplication (64 bits). *)
From Coq Require Import ZArith Bool List Lia ZifyBool.
Import ListNotations.
From OFV Require Import CSem.
From OFV.gen Require Import GenPopcount.
Local Open Scope Z_scope.
Ltac Zify.zify_post_hook ::= Z.div_mod_to_equations.

Fixpoint popc (n : nat) (z : Z) : Z :=
  match n with
  | O => 0
  | S k => (if Z.testbit z (Z.of_nat k) then 1 else 0) + popc k z
  end.

Definition bytes256 : list Z := map Z.of_nat (seq 0 256).

Lemma sweep256 : forall P, forallb P bytes256 = true -> forall b, 0 <= b < 256 -> P b = true.
Proof.
  intros P H b Hb. rewrite forallb_forall in H. apply H.
  replace b with (Z.of_nat (Z.to_nat b)) by lia. apply in_map, in_seq. lia.
Qed.

Lemma popc_mod : forall n m z, Z.of_nat n <= m -> popc n (z mod 2 ^ m) = popc n z.
Proof.
  induction n as [|k IH]; intros m z H.
  - reflexivity.
  - cbn [popc]. rewrite Z.mod_pow2_bits_low by lia. rewrite IH by lia. reflexivity.
Qed.

Lemma popc_app : forall b a z,
  popc (a + b) z = popc a z + popc b (z / 2 ^ Z.of_nat a).
Proof.
  induction b as [|k IH]; intros a z.
  - rewrite Nat.add_0_r. cbn [popc]. lia.
  - rewrite Nat.add_succ_r. cbn [popc]. rewrite IH.
    rewrite Z.div_pow2_bits by lia.
    replace (Z.of_nat (a + k)) with (Z.of_nat k + Z.of_nat a) by lia. lia.
Qed.

Lemma popc_nonneg : forall n z, 0 <= popc n z <= Z.of_nat n.
Proof.
  induction n as [|k IH]; intros z.
  - cbn. lia.
  - cbn [popc]. specialize (IH z). destruct (Z.testbit z (Z.of_nat k)); lia.
Qed.

Lemma popc_split : forall a b lo hi, 0 <= lo < 2 ^ Z.of_nat a ->
  popc (a + b) (lo + 2 ^ Z.of_nat a * hi) = popc a lo + popc b hi.
Proof.
  intros a b lo hi H. rewrite popc_app, <- (popc_mod a (Z.of_nat a)) by lia.
  rewrite (Z.mul_comm _ hi), Z.mod_add, Z.div_add, Z.mod_small, Z.div_small by lia. reflexivity.
Qed.

Definition byte (b : Z) : Prop := 0 <= b < 256.

Fixpoint val (l : list Z) : Z :=
  match l with
  | [] => 0
  | b :: r => b + 256 * val r
  end.

Fixpoint bytes_of (n : nat) (w : Z) : list Z :=
  match n with
  | O => []
  | S k => w mod 256 :: bytes_of k (w / 256)
  end.

Lemma bytes_of_length : forall n w, length (bytes_of n w) = n.
Proof. induction n as [|k IH]; intros w; cbn [bytes_of length]; [reflexivity | now rewrite IH]. Qed.

Lemma bytes_of_byte : forall n w, Forall byte (bytes_of n w).
Proof.
  induction n as [|k IH]; intros w; cbn [bytes_of]; constructor.
  - unfold byte. lia.
  - apply IH.
Qed.

Lemma bytes_of_val : forall n w, 0 <= w < 256 ^ Z.of_nat n -> val (bytes_of n w) = w.
Proof.
  induction n as [|k IH]; intros w Hw.
  - cbn in Hw. cbn. lia.
  - cbn [bytes_of val]. rewrite IH.
    + lia.
    + rewrite Nat2Z.inj_succ, Z.pow_succ_r in Hw by lia. lia.
Qed.

Lemma val_bound : forall l, Forall byte l -> 0 <= val l < 256 ^ Z.of_nat (length l).
Proof.
  induction 1 as [|b r Hb Hr IH].
  - cbn. lia.
  - cbn [length val]. rewrite Nat2Z.inj_succ, Z.pow_succ_r by lia. unfold byte in Hb. lia.
Qed.

Lemma val_map : forall (f : Z -> Z) l, Forall byte l ->
  (forall b, byte b -> byte (f b)) -> Forall byte (map f l).
Proof.
  intros f l Hl Hf. induction Hl as [|b r Hb Hr IH]; cbn [map]; constructor; auto.
Qed.

Fixpoint sum (l : list Z) : Z :=
  match l with [] => 0 | b :: r => b + sum r end.

Lemma popc_val : forall l, Forall byte l ->
  popc (8 * length l) (val l) = sum (map (popc 8) l).
Proof.
  induction 1 as [|b r Hb Hr IH].
  - reflexivity.
  - cbn [length val map sum].
    replace (8 * S (length r))%nat with (8 + 8 * length r)%nat by lia.
    rewrite <- IH. apply (popc_split 8). exact Hb.
Qed.

Lemma popc_bytes : forall k w, 0 <= w < 256 ^ Z.of_nat k ->
  popc (8 * k) w = sum (map (popc 8) (bytes_of k w)).
Proof.
  intros k w Hw. rewrite <- (bytes_of_val k w Hw) at 1. rewrite <- (bytes_of_length k w) at 1.
  apply popc_val, bytes_of_byte.
Qed.

Lemma land_div_mod : forall n x y, 0 <= n ->
  Z.land x y = Z.land (x mod 2 ^ n) (y mod 2 ^ n) + 2 ^ n * Z.land (x / 2 ^ n) (y / 2 ^ n).
Proof.
  intros n x y Hn. rewrite <- !Z.shiftr_div_pow2, <- Z.shiftr_land, <- !Z.land_ones by exact Hn.
  replace (Z.land (Z.land x (Z.ones n)) (Z.land y (Z.ones n))) with (Z.land (Z.land x y) (Z.ones n)).
  - rewrite Z.land_ones, Z.shiftr_div_pow2, Z.add_comm by exact Hn. apply Z.div_mod, Z.pow_nonzero; lia.
  - apply Z.bits_inj. intros i. rewrite !Z.land_spec.
    destruct (Z.testbit x i), (Z.testbit y i), (Z.testbit (Z.ones n) i); reflexivity.
Qed.

Lemma land_low : forall n z m, 0 <= n -> 0 <= m < 2 ^ n -> Z.land (z mod 2 ^ n) m = Z.land z m.
Proof.
  intros n z m Hn Hm. rewrite (land_div_mod n z m Hn), (Z.div_small m), (Z.mod_small m), Z.land_0_r by exact Hm. lia.
Qed.

Lemma land_drop_high : forall n x c m, 0 <= n -> 0 <= m < 2 ^ n -> Z.land (x + 2 ^ n * c) m = Z.land x m.
Proof.
  intros n x c m Hn Hm. rewrite <- (land_low n (x + _)), <- (land_low n x) by assumption.
  rewrite Z.mul_comm, Z.mod_add by (apply Z.pow_nonzero; lia). reflexivity.
Qed.

Lemma land_split8 : forall a b c d, 0 <= a < 256 -> 0 <= c < 256 ->
  Z.land (a + 256 * b) (c + 256 * d) = Z.land a c + 256 * Z.land b d.
Proof.
  intros a b c d Ha Hc. rewrite (land_div_mod 8 (a + 256 * b)) by lia. change (2 ^ 8) with 256.
  repeat f_equal; lia.
Qed.

Definition s1 (m x : Z) : Z := x - Z.land (x / 2) m.
Definition s2 (m x : Z) : Z := Z.land x m + Z.land (x / 4) m.
Definition s3 (m x : Z) : Z := Z.land (x + x / 16) m.

Definition mask (c : Z) (k : nat) : Z := val (repeat c k).

Lemma mask_bound : forall c k, byte c -> 0 <= mask c k < 256 ^ Z.of_nat k.
Proof.
  intros c k Hc. pose proof (val_bound (repeat c k)) as H. rewrite repeat_length in H.
  apply H, Forall_forall. intros x Hx. apply repeat_spec in Hx. subst x. exact Hc.
Qed.

(* a stage F whose mask repeats the byte c acts on each byte separately, on lists of bytes in P:
   this is what its step lemma says *)
Lemma stage_val (F : Z -> Z -> Z) (c : Z) (P : Z -> Prop) :
  F 0 0 = 0 ->
  (forall a l m, P a -> Forall P l -> F (c + 256 * m) (a + 256 * val l) = F c a + 256 * F m (val l)) ->
  forall l, Forall P l -> F (mask c (length l)) (val l) = val (map (F c) l).
Proof.
  intros F0 Fc. induction 1 as [|a l Ha Hl IH]; [exact F0|].
  unfold mask in *. cbn [length repeat val map]. rewrite Fc, IH by assumption. reflexivity.
Qed.

(* the bits shifted in from the next byte fall outside the mask byte: 85 < 2^7, 51 < 2^6 *)
Lemma s1_cons : forall a b m, byte a -> s1 (85 + 256 * m) (a + 256 * b) = s1 85 a + 256 * s1 m b.
Proof.
  intros a b m Ha. unfold byte in Ha. unfold s1.
  replace ((a + 256 * b) / 2) with ((a / 2 + 2 ^ 7 * (b mod 2)) + 256 * (b / 2)) by lia.
  rewrite land_split8, land_drop_high by lia. lia.
Qed.

Lemma s2_cons : forall a b m, byte a -> s2 (51 + 256 * m) (a + 256 * b) = s2 51 a + 256 * s2 m b.
Proof.
  intros a b m Ha. unfold byte in Ha. unfold s2.
  replace ((a + 256 * b) / 4) with ((a / 4 + 2 ^ 6 * (b mod 4)) + 256 * (b / 4)) by lia.
  rewrite !land_split8, land_drop_high by lia. lia.
Qed.

(* a byte both of whose halves hold a count of at most 4: adding the halves does not carry *)
Definition nibs (a : Z) : Prop := byte a /\ a mod 16 <= 4 /\ a / 16 <= 4.

Lemma nibs_val : forall l, Forall nibs l -> 0 <= val l < 256 ^ Z.of_nat (length l) /\ val l mod 16 <= 4.
Proof.
  intros l H. split.
  - apply val_bound. eapply Forall_impl; [|exact H]. intros a Ha. apply Ha.
  - destruct H as [|b r (_ & Hb & _) _]; cbn [val]; [cbv; discriminate|lia].
Qed.

Lemma s3_cons : forall a l m, nibs a -> Forall nibs l ->
  s3 (15 + 256 * m) (a + 256 * val l) = s3 15 a + 256 * s3 m (val l).
Proof.
  intros a l m (Ha & Ha1 & Ha2) Hl. destruct (nibs_val l Hl) as [[Hb _] Hb1]. set (b := val l) in *.
  unfold byte in Ha. unfold s3.
  replace (a + 256 * b + (a + 256 * b) / 16)
    with ((a + a / 16 + 2 ^ 4 * (b mod 16)) + 256 * (b + b / 16)) by lia.
  rewrite land_split8, land_drop_high by lia. lia.
Qed.

Definition byteb (b : Z) : bool := (0 <=? b) && (b <? 256).

Definition chk_byte (b : Z) : bool :=
  let b1 := s1 85 b in
  let b2 := s2 51 b1 in
  byteb b1 && byteb b2 && (b2 mod 16 <=? 4) && (b2 / 16 <=? 4) && (s3 15 b2 =? popc 8 b).

Lemma chk_byte_all : forallb chk_byte bytes256 = true.
Proof. vm_compute. reflexivity. Qed.

Lemma byte_facts : forall b, byte b ->
  byte (s1 85 b) /\ nibs (s2 51 (s1 85 b)) /\ s3 15 (s2 51 (s1 85 b)) = popc 8 b.
Proof.
  intros b Hb. pose proof (sweep256 chk_byte chk_byte_all b Hb) as H.
  unfold chk_byte, byteb in H. cbv zeta in H. unfold nibs, byte. lia.
Qed.

Lemma swar_stages : forall l, Forall byte l ->
  let k := length l in
  let l1 := map (s1 85) l in
  let l2 := map (s2 51) l1 in
  Forall byte l1 /\ Forall nibs l2 /\
  s1 (mask 85 k) (val l) = val l1 /\ s2 (mask 51 k) (val l1) = val l2 /\ s3 (mask 15 k) (val l2) = val (map (popc 8) l).
Proof.
  intros l Hl k l1 l2.
  assert (H1 : Forall byte l1).
  { apply Forall_map. eapply Forall_impl; [|exact Hl]. intros b Hb. apply (byte_facts b Hb). }
  assert (H2 : Forall nibs l2).
  { unfold l2, l1. rewrite map_map. apply Forall_map. eapply Forall_impl; [|exact Hl].
    intros b Hb. apply (byte_facts b Hb). }
  split; [exact H1|]. split; [exact H2|]. unfold k. split; [|split].
  - apply (stage_val s1 85 byte); auto using s1_cons.
  - rewrite <- (map_length (s1 85) l). apply (stage_val s2 51 byte); auto using s2_cons.
  - rewrite <- (map_length (s1 85) l), <- (map_length (s2 51) (map (s1 85) l)).
    rewrite (stage_val s3 15 nibs) by auto using s3_cons.
    unfold l2, l1. rewrite !map_map. f_equal. apply map_ext_in. intros b Hb.
    apply byte_facts. rewrite Forall_forall in Hl. apply Hl, Hb.
Qed.

Lemma wrapu_small : forall n z, 0 <= z < 2 ^ n -> wrapu n z = z.
Proof. intros n z H. apply Z.mod_small. exact H. Qed.

Lemma wrapu32_small : forall z, 0 <= z < 4294967296 -> wrapu32 z = z.
Proof. exact (wrapu_small 32). Qed.

Lemma shiftr_div : forall z n p, 0 <= n -> p = 2 ^ n -> Z.shiftr z n = z / p.
Proof. intros z n p Hn Hp. subst p. apply Z.shiftr_div_pow2. exact Hn. Qed.

Lemma wrapu_shr : forall n z s p, 0 <= s -> p = 2 ^ s -> 0 <= z < 2 ^ n -> wrapu n (Z.shiftr z s) = z / p.
Proof.
  intros n z s p Hs Hp Hz. rewrite (shiftr_div z s p Hs Hp).
  assert (0 < p) by (subst p; apply Z.pow_pos_nonneg; lia).
  apply wrapu_small. split; [apply Z.div_pos; lia|]. apply Z.le_lt_trans with z; [|lia].
  apply Z.div_le_upper_bound; nia.
Qed.

(* the three masked stages as the C has them, W being the wrap of its unsigned type *)
Definition wstages (W : Z -> Z) (m1 m2 m4 x : Z) : Z :=
  let x1 := W (x - Z.land (W (Z.shiftr x 1)) m1) in
  let x2 := W (Z.land x1 m2 + Z.land (W (Z.shiftr x1 2)) m2) in
  Z.land (W (x2 + W (Z.shiftr x2 4))) m4.

Lemma wstage1 : forall n m x, 0 <= x < 2 ^ n -> 0 <= s1 m x < 2 ^ n ->
  wrapu n (x - Z.land (wrapu n (Z.shiftr x 1)) m) = s1 m x.
Proof. intros n m x Hx Hs. rewrite (wrapu_shr n x 1 2) by (reflexivity || lia). apply wrapu_small. exact Hs. Qed.

Lemma wstage2 : forall n m x, 0 <= x < 2 ^ n -> 0 <= s2 m x < 2 ^ n ->
  wrapu n (Z.land x m + Z.land (wrapu n (Z.shiftr x 2)) m) = s2 m x.
Proof. intros n m x Hx Hs. rewrite (wrapu_shr n x 2 4) by (reflexivity || lia). apply wrapu_small. exact Hs. Qed.

(* the sum may wrap: under a mask below 2^n it does not matter *)
Lemma wstage3 : forall n m x, 0 <= n -> 0 <= x < 2 ^ n -> 0 <= m < 2 ^ n ->
  Z.land (wrapu n (x + wrapu n (Z.shiftr x 4))) m = s3 m x.
Proof. intros n m x Hn Hx Hm. rewrite (wrapu_shr n x 4 16) by (reflexivity || lia). apply land_low; assumption. Qed.

Lemma wstages_bytes : forall n k m1 m2 m4 w, 0 <= n -> 256 ^ Z.of_nat k = 2 ^ n ->
  m1 = mask 85 k -> m2 = mask 51 k -> m4 = mask 15 k -> 0 <= w < 2 ^ n ->
  wstages (wrapu n) m1 m2 m4 w = val (map (popc 8) (bytes_of k w)).
Proof.
  intros n k m1 m2 m4 w Hn E -> -> -> Hw. rewrite <- E in Hw.
  pose proof (bytes_of_byte k w) as Hl. pose proof (bytes_of_length k w) as Hk.
  rewrite <- (bytes_of_val k w Hw) at 1. set (l := bytes_of k w) in *. rewrite <- Hk.
  destruct (swar_stages l Hl) as (H1 & H2 & E1 & E2 & E3).
  pose proof (val_bound l Hl) as B0. pose proof (val_bound _ H1) as B1. pose proof (nibs_val _ H2) as [B2 _].
  assert (B4 : 0 <= mask 15 (length l) < 256 ^ Z.of_nat (length l)) by (apply mask_bound; unfold byte; lia).
  rewrite ?map_length, Hk, E in *.
  unfold wstages. rewrite wstage1, E1, wstage2, E2, wstage3 by (rewrite ?E1, ?E2; assumption). exact E3.
Qed.

(* bytes c0 c1 c2 c3 -> c0+c1, c1+c2, c2+c3, c3 -> c0+c1+c2+c3, ... : the low byte is the sum *)
Definition tail32 (x3 : Z) : Z :=
  let x4 := wrapu32 (x3 + wrapu32 (Z.shiftr x3 8)) in
  Z.land (wrapu32 (x4 + wrapu32 (Z.shiftr x4 16))) (wrapu32 255).

Lemma of_hweight32_eq : forall w,
  of_hweight32 w =
  Some (tail32 (wstages (wrapu 32) (wrapu32 1431655765) (wrapu32 858993459) (wrapu32 252645135) w)).
Proof. intros w. cbv [of_hweight32 bind chk_shift tail32 wstages wrapu32]. reflexivity. Qed.

Lemma tail32_sum : forall c0 c1 c2 c3, 0 <= c0 <= 8 -> 0 <= c1 <= 8 -> 0 <= c2 <= 8 -> 0 <= c3 <= 8 ->
  tail32 (val [c0; c1; c2; c3]) = sum [c0; c1; c2; c3].
Proof.
  intros c0 c1 c2 c3 H0 H1 H2 H3. unfold tail32, wrapu32. cbn [val sum].
  set (x3 := c0 + _).
  assert (E3 : x3 / 256 = c1 + 256 * (c2 + 256 * c3)) by (unfold x3; lia).
  rewrite (wrapu_shr 32 x3 8 256), E3, (wrapu_small 32 (x3 + _)) by (reflexivity || (unfold x3; lia)).
  set (x4 := x3 + _).
  assert (E4 : x4 / 65536 = c2 + c3 + 256 * c3) by (unfold x4, x3; lia).
  rewrite (wrapu_shr 32 x4 16 65536), E4, (wrapu_small 32 (x4 + _)) by (reflexivity || (unfold x4, x3; lia)).
  change (wrapu 32 255) with (Z.ones 8). rewrite Z.land_ones by lia. change (2 ^ 8) with 256.
  unfold x4, x3. lia.
Qed.

(* h01 = 0x0101010101010101: the top byte of the product is the sum of the bytes *)
Definition tail64 (x3 : Z) : Z := wraps32 (wrapu64 (Z.shiftr (wrapu64 (x3 * c_of_h01)) 56)).

Lemma of_popcount_3_eq : forall x,
  of_popcount_3 c_of_m1 c_of_m2 c_of_m4 c_of_h01 x =
  Some (tail64 (wstages (wrapu 64) c_of_m1 c_of_m2 c_of_m4 x)).
Proof. intros x. cbv [of_popcount_3 bind chk_shift tail64 wstages wrapu64]. reflexivity. Qed.

Lemma tail64_sum : forall q0 q1 q2 q3 q4 q5 q6 q7,
  0 <= q0 <= 8 -> 0 <= q1 <= 8 -> 0 <= q2 <= 8 -> 0 <= q3 <= 8 ->
  0 <= q4 <= 8 -> 0 <= q5 <= 8 -> 0 <= q6 <= 8 -> 0 <= q7 <= 8 ->
  tail64 (val [q0; q1; q2; q3; q4; q5; q6; q7]) = sum [q0; q1; q2; q3; q4; q5; q6; q7].
Proof.
  intros q0 q1 q2 q3 q4 q5 q6 q7 H0 H1 H2 H3 H4 H5 H6 H7. unfold tail64. cbn [val sum].
  (* the product is L + 2^56 * S + 2^64 * H: lower partial sums, the sum, what wraps away *)
  set (S := q0 + (q1 + (q2 + (q3 + (q4 + (q5 + (q6 + (q7 + 0)))))))).
  set (L := q0 + 256 * (q0 + q1) + 65536 * (q0 + q1 + q2) + 16777216 * (q0 + q1 + q2 + q3)
            + 4294967296 * (q0 + q1 + q2 + q3 + q4) + 1099511627776 * (q0 + q1 + q2 + q3 + q4 + q5)
            + 281474976710656 * (q0 + q1 + q2 + q3 + q4 + q5 + q6)).
  set (H := (q1 + q2 + q3 + q4 + q5 + q6 + q7) + 256 * (q2 + q3 + q4 + q5 + q6 + q7)
            + 65536 * (q3 + q4 + q5 + q6 + q7) + 16777216 * (q4 + q5 + q6 + q7)
            + 4294967296 * (q5 + q6 + q7) + 1099511627776 * (q6 + q7) + 281474976710656 * q7).
  replace (_ * c_of_h01) with (L + 72057594037927936 * S + 18446744073709551616 * H)
    by (unfold c_of_h01, L, S, H; ring).
  assert (BL : 0 <= L < 72057594037927936) by (unfold L; lia).
  assert (BS : 0 <= S < 256) by (unfold S; lia).
  assert (BH : 0 <= H) by (unfold H; lia).
  clearbody L S H. unfold wrapu64 at 2, wrapu. change (2 ^ 64) with 18446744073709551616.
  replace (_ mod _) with (L + 72057594037927936 * S) by lia.
  rewrite (wrapu_shr 64 _ 56 72057594037927936) by (reflexivity || lia).
  replace (_ / _) with S by lia.
  unfold wraps32, wraps. change (2 ^ (32 - 1)) with 2147483648. change (2 ^ 32) with 4294967296. lia.
Qed.

Theorem popcount_3_correct : forall x, 0 <= x < 2 ^ 64 ->
  of_popcount_3 c_of_m1 c_of_m2 c_of_m4 c_of_h01 x = Some (popc 64 x).
Proof.
  intros w Hw. rewrite of_popcount_3_eq, (wstages_bytes 64 8) by (reflexivity || lia).
  change 64%nat with (8 * 8)%nat. rewrite (popc_bytes 8 w Hw). f_equal.
  apply tail64_sum; apply (popc_nonneg 8).
Qed.

Definition chk_tbl (b : Z) : bool := nth (Z.to_nat b) c_of_hw8table 0 =? popc 8 b.

Lemma chk_tbl_all : forallb chk_tbl bytes256 = true.
Proof. vm_compute. reflexivity. Qed.

Theorem hw8table_correct :
  length c_of_hw8table = 256%nat /\
  forall b, 0 <= b < 256 -> nth (Z.to_nat b) c_of_hw8table 0 = popc 8 b.
Proof.
  split.
  - reflexivity.
  - intros b Hb. pose proof (sweep256 chk_tbl chk_tbl_all b Hb) as H.
    unfold chk_tbl in H. lia.
Qed.

(* of_hweight32_table, a hand model: the C reads the four bytes of w through a UINT8* cast; byte i is taken here
   as bits 8i .. 8i+7 (the sum does not depend on the byte order) *)
Definition hweight32_table (w : Z) : Z :=
  let byte i := Z.land (Z.shiftr w (8 * i)) 255 in
  nth (Z.to_nat (byte 0)) c_of_hw8table 0 + nth (Z.to_nat (byte 1)) c_of_hw8table 0 +
  nth (Z.to_nat (byte 2)) c_of_hw8table 0 + nth (Z.to_nat (byte 3)) c_of_hw8table 0.

Lemma byte_field : forall w n p, 0 <= n -> p = 2 ^ n ->
  Z.land (Z.shiftr w n) 255 = (w / p) mod 256.
Proof.
  intros w n p Hn Hp. rewrite (shiftr_div w n p Hn Hp). change 255 with (Z.ones 8).
  apply Z.land_ones. lia.
Qed.

Theorem hweight32_table_correct : forall w, 0 <= w < 2 ^ 32 -> hweight32_table w = popc 32 w.
Proof.
  intros w Hw. change 32%nat with (8 * 4)%nat. rewrite (popc_bytes 4 w Hw). cbn [bytes_of map sum].
  unfold hweight32_table. cbv zeta.
  rewrite (byte_field w (8 * 0) 1), (byte_field w (8 * 1) 256), (byte_field w (8 * 2) 65536),
    (byte_field w (8 * 3) 16777216) by (reflexivity || lia).
  destruct hw8table_correct as [_ Ht]. rewrite !Ht by (apply Z.mod_pos_bound; reflexivity).
  change 16777216 with (256 * 256 * 256). change 65536 with (256 * 256).
  rewrite <- !Z.div_div, Z.div_1_r by lia. ring.
Qed.

(* of_hweight32_naive, a hand model of its loop: n rounds of res += x & 1; x >>= 1 *)
Fixpoint naive (n : nat) (x res : Z) : Z :=
  match n with
  | O => res
  | S k => naive k (Z.shiftr x 1) (res + Z.land x 1)
  end.

Lemma popc_low : forall k z,
  popc (S k) z = (if Z.testbit z 0 then 1 else 0) + popc k (Z.shiftr z 1).
Proof.
  intros k z. change (S k) with (1 + k)%nat. rewrite popc_app, Z.shiftr_div_pow2 by lia.
  cbn [popc]. rewrite Z.add_0_r. reflexivity.
Qed.

Lemma land_1 : forall x, Z.land x 1 = if Z.testbit x 0 then 1 else 0.
Proof.
  intros x. change 1 with (Z.ones 1) at 1. rewrite Z.land_ones by lia.
  change (2 ^ 1) with 2. rewrite Z.bit0_odd. apply Zmod_odd.
Qed.

Lemma naive_popc : forall n x res, naive n x res = res + popc n x.
Proof.
  induction n as [|k IH]; intros x res.
  - cbn. lia.
  - rewrite popc_low. cbn [naive]. rewrite IH, land_1. lia.
Qed.

Print Assumptions popcount_3_correct.
Print Assumptions hw8table_correct.
Print Assumptions hweight32_table_correct.
