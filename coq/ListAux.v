From Coq Require Import List Arith Bool Lia.
Import ListNotations.

Fixpoint upd {A} (l : list A) (i : nat) (x : A) : list A :=
  match l, i with [], _ => [] | _ :: t, O => x :: t | h :: t, S j => h :: upd t j x end.

Lemma upd_length {A} (l:list A) i x : length (upd l i x) = length l.
Proof. revert i; induction l as [|h t IH]; intros [|i]; simpl; auto. Qed.
Lemma nth_upd_eq {A} (l:list A) i x d : i < length l -> nth i (upd l i x) d = x.
Proof. revert i; induction l as [|h t IH]; intros [|i] H; simpl in *; try lia; auto. apply IH; lia. Qed.
Lemma nth_upd_neq {A} (l:list A) i j x d : i <> j -> nth j (upd l i x) d = nth j l d.
Proof. revert i j; induction l as [|h t IH]; intros [|i] [|j] H; simpl; auto; try lia. Qed.

(* an update outside the list changes nothing, whence the second test *)
Lemma nth_upd {A} (l : list A) i j x d :
  nth j (upd l i x) d = if (j =? i) && (i <? length l) then x else nth j l d.
Proof.
  revert i j; induction l as [|h t IH]; intros i j; cbn [upd length].
  - now rewrite andb_false_r.
  - destruct i, j; cbn [nth]; try reflexivity. apply IH.
Qed.

Lemma nth_map_lt {A B} (f : A -> B) l i d d' : i < length l -> nth i (map f l) d' = f (nth i l d).
Proof. intros H. rewrite (nth_indep _ d' (f d)) by now rewrite map_length. apply map_nth. Qed.

Lemma nth_map_seq {A} (f : nat -> A) a n i d : i < n -> nth i (map f (seq a n)) d = f (a + i).
Proof. intros H. rewrite (nth_map_lt f _ _ 0) by now rewrite seq_length. now rewrite seq_nth. Qed.

Lemma map_nth_seq {A} (l : list A) d : map (fun i => nth i l d) (seq 0 (length l)) = l.
Proof.
  induction l as [|h t IH]; [reflexivity|]. cbn [length seq map nth]. f_equal.
  rewrite <- seq_shift, map_map. exact IH.
Qed.

Lemma nth_firstn_lt {A} (l : list A) k i d : i < k -> nth i (firstn k l) d = nth i l d.
Proof.
  revert k i; induction l as [|h t IH]; intros [|k] [|i] H; trivial; try lia. apply IH. lia.
Qed.

Lemma nth_skipn {A} (l : list A) k i d : nth i (skipn k l) d = nth (k + i) l d.
Proof. revert l; induction k as [|k IH]; intros [|h t]; trivial. now destruct i. apply IH. Qed.

Lemma filter_all {A} (f : A -> bool) l : (forall x, In x l -> f x = true) -> filter f l = l.
Proof.
  induction l as [|h t IH]; intros H; [reflexivity|]. cbn [filter].
  rewrite (H h (or_introl eq_refl)), IH; [reflexivity|]. intros x Hx. apply H. now right.
Qed.

Lemma filter_none {A} (f : A -> bool) l : (forall x, In x l -> f x = false) -> filter f l = [].
Proof.
  induction l as [|h t IH]; intros H; [reflexivity|]. cbn [filter].
  rewrite (H h (or_introl eq_refl)). apply IH. intros x Hx. apply H. now right.
Qed.

Lemma filter_filter {A} (f g : A -> bool) l : filter f (filter g l) = filter (fun x => g x && f x) l.
Proof.
  induction l as [|h t IH]; [reflexivity|]. cbn [filter]. destruct (g h); cbn [filter andb]; now rewrite IH.
Qed.

Lemma filter_length_split {A} (f : A -> bool) l :
  length l = length (filter f l) + length (filter (fun x => negb (f x)) l).
Proof. induction l as [|h t IH]; [reflexivity|]. cbn [filter]. destruct (f h); cbn [negb length]; lia. Qed.

Lemma filter_length_mono {A} (f g : A -> bool) l :
  (forall x, In x l -> f x = true -> g x = true) -> length (filter f l) <= length (filter g l).
Proof.
  induction l as [|h t IH]; intros H; [reflexivity|]. cbn [filter].
  assert (IH' := IH (fun x Hx => H x (or_intror Hx))). destruct (f h) eqn:E.
  - rewrite (H h (or_introl eq_refl) E). cbn [length]. lia.
  - destruct (g h); cbn [length]; lia.
Qed.

Lemma filter_neqb_length l c :
  NoDup l -> In c l -> length (filter (fun x => negb (x =? c)) l) = length l - 1.
Proof.
  induction 1 as [|h t Hh Ht IH]; intros Hc; [destruct Hc|]. cbn [filter length].
  destruct Hc as [->|Hc].
  - rewrite Nat.eqb_refl, filter_all; [cbn [negb]; lia|].
    intros x Hx. apply negb_true_iff, Nat.eqb_neq. now intros ->.
  - destruct (Nat.eqb_spec h c) as [->|_]; [contradiction|]. cbn [negb length]. rewrite (IH Hc).
    destruct t; [destruct Hc|cbn [length]; lia].
Qed.

Lemma existsb_eqb_In x l : existsb (Nat.eqb x) l = true <-> In x l.
Proof.
  rewrite existsb_exists. split.
  - now intros (y & Hy & ->%Nat.eqb_eq).
  - intros H. exists x. now rewrite Nat.eqb_refl.
Qed.

Lemma NoDup_app_iff {A} (a b : list A) :
  NoDup (a ++ b) <-> NoDup a /\ NoDup b /\ forall x, In x a -> ~ In x b.
Proof.
  induction a as [|h a IH]; cbn [app].
  - split; [intros H; repeat split; [constructor|exact H|intros x []]|tauto].
  - rewrite !NoDup_cons_iff, IH, in_app_iff. split.
    + intros (Hn & Na & Nb & Hd). repeat split; try tauto. intros x [<-|Hx]; [tauto|exact (Hd x Hx)].
    + intros ((Hn & Na) & Nb & Hd). repeat split; trivial.
      * intros [H|H]; [exact (Hn H)|exact (Hd h (or_introl eq_refl) H)].
      * intros x Hx. apply Hd. now right.
Qed.

Lemma NoDup_map_iff {A B} (f : A -> B) l :
  NoDup (map f l) <-> NoDup l /\ forall x y, In x l -> In y l -> f x = f y -> x = y.
Proof.
  induction l as [|h t IH]; cbn [map].
  - split; [intros _; split; [constructor|intros x y []]|constructor].
  - rewrite !NoDup_cons_iff, IH, in_map_iff. split.
    + intros (Hh & Ht & Hi). repeat split; trivial.
      * intros Hin. apply Hh. now exists h.
      * intros x y [<-|Hx] [<-|Hy] E; trivial; [destruct Hh; now exists y|destruct Hh; now exists x|now apply Hi].
    + intros ((Hh & Ht) & Hi). repeat split; trivial.
      * intros (x & E & Hx). apply Hh. now rewrite <- (Hi x h (or_intror Hx) (or_introl eq_refl) E).
      * intros x y Hx Hy. apply Hi; now right.
Qed.

Lemma Forall_nth_default {A} (P : A -> Prop) l d i : Forall P l -> P d -> P (nth i l d).
Proof.
  intros H Hd. destruct (Nat.lt_ge_cases i (length l)) as [L|L].
  - now apply Forall_nth.
  - now rewrite nth_overflow.
Qed.

Lemma Forall_firstn {A} (P : A -> Prop) n l : Forall P l -> Forall P (firstn n l).
Proof. intros H. rewrite <- (firstn_skipn n l) in H. now apply Forall_app in H. Qed.

Lemma Forall_skipn {A} (P : A -> Prop) n l : Forall P l -> Forall P (skipn n l).
Proof. intros H. rewrite <- (firstn_skipn n l) in H. now apply Forall_app in H. Qed.

Lemma fold_left_inv {A X} (P : A -> Prop) (f : A -> X -> A) :
  (forall a x, P a -> P (f a x)) -> forall l a, P a -> P (fold_left f l a).
Proof. intros H. induction l as [|x l IH]; intros a Ha; [exact Ha|]. apply IH, H, Ha. Qed.

Lemma fold_left_commute {A B X} (h : A -> B) (f : A -> X -> A) (g : B -> X -> B) :
  (forall a x, h (f a x) = g (h a) x) -> forall l a, h (fold_left f l a) = fold_left g l (h a).
Proof. intros H. induction l as [|x l IH]; intros a; [reflexivity|]. cbn [fold_left]. now rewrite IH, H. Qed.

(* A fold over an option state whose step keeps None stays at None, so an invariant of the Some steps holds of a Some result. *)
Lemma fold_left_None {S X} (f : option S -> X -> option S) :
  (forall x, f None x = None) -> forall l, fold_left f l None = None.
Proof. intros H. induction l as [|x l IH]; [reflexivity|]. cbn [fold_left]. now rewrite H. Qed.

Lemma fold_left_Some_inv {S X} (P : S -> Prop) (f : option S -> X -> option S) :
  (forall x, f None x = None) -> (forall s x s', P s -> f (Some s) x = Some s' -> P s') ->
  forall l s s', fold_left f l (Some s) = Some s' -> P s -> P s'.
Proof.
  intros HN H. induction l as [|x l IH]; intros s s' E Hs; cbn [fold_left] in E.
  - now injection E as <-.
  - destruct (f (Some s) x) as [s1|] eqn:E1; [|now rewrite fold_left_None in E].
    exact (IH s1 s' E (H s x s1 Hs E1)).
Qed.

Lemma map_add_seq a s n : map (fun i => a + i) (seq s n) = seq (a + s) n.
Proof.
  revert s; induction n as [|n IH]; intros s; [reflexivity|]. cbn [seq map]. now rewrite IH, Nat.add_succ_r.
Qed.

Lemma combine_seq {A B} (l : list A) (l' : list B) d d' : length l = length l' ->
  combine l l' = map (fun i => (nth i l d, nth i l' d')) (seq 0 (length l)).
Proof.
  revert l'. induction l as [|a l IH]; intros [|b l'] H; try discriminate H; [reflexivity|].
  cbn [combine length seq map nth]. rewrite <- seq_shift, map_map, <- IH by (injection H; auto).
  reflexivity.
Qed.

Lemma map_inj : forall (X Y : Type) (f : X -> Y),
  (forall a b, f a = f b -> a = b) -> forall l l', map f l = map f l' -> l = l'.
Proof.
  intros X Y f Hf l. induction l as [|a l IH]; intros [|b l'] H; try discriminate H.
  - reflexivity.
  - injection H as Ha Hl. f_equal; [exact (Hf a b Ha)|exact (IH l' Hl)].
Qed.

Lemma map_id_Forall : forall (X : Type) (Q : X -> Prop) (f : X -> X),
  (forall a, Q a -> f a = a) -> forall l, Forall Q l -> map f l = l.
Proof.
  intros X Q f Hf l H. induction H as [|a l Ha _ IH]; [reflexivity|].
  cbn [map]. rewrite (Hf a Ha), IH. reflexivity.
Qed.
