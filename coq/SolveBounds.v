(* C18 ("... within the bounds of the matrices given") / C07 for the symbol-level dense solver model
   (DenseSolve.v) and for the index translation around it in the ML finish (MLModel.v: ml_finish).

   The plain models read with [nth i l default] and write with [upd l i x]; both are TOTAL (an out-of-range
   read returns the default, an out-of-range write is dropped), so an index slip would be masked.  Here every
   function is copied with all reads and writes going through the accessors of ITBounds.v that FAIL out of
   range ([nth_chk], [upd_chk]); the result of the checked solver distinguishes
        OutOfBounds | NoSolution | Solved x
   (NoSolution: no pivot for some column, the plain model's None).
   [solve_chk_refines]: Solved x -> solve = Some x;  NoSolution -> solve = None  (no hypothesis).
   On a well-shaped system ([WFs] of DenseSolveProofs.v: p rows of q bits, p constant terms, preserved by
   every step) the checked solver EQUALS the plain one ([solve_chk_safe]), hence is never OutOfBounds
   ([solve_chk_never_oob]); q <= p is not needed as a hypothesis: the back-substitution only runs after
   q pivots were found, which forces q <= p.  The two are the readings of one relation [rel], established
   once for each checked function ([solve_chk_rel]).
   take_ct_chk / write_back_chk: their exact failure conditions, the shapes ml_finish passes
   ([take_ct_chk_ml], [write_back_chk_ml]), and a checked copy of everything ml_finish does after the
   injections ([ml_tail_chk], [ml_finish_chk]) proved EQUAL to the plain one under the hypotheses of
   MLFinish.v ([ml_tail_chk_safe], [ml_finish_chk_safe]); the inequality
   nrep + (number of unknown sources) <= q is PROVED (from MLFinish.cols_char), not assumed.
   The closed examples: the checked copies are OutOfBounds where the plain functions return a value. *)
From Coq Require Import Arith List Bool Lia.
From OFV Require Import ListAux DenseSolve DenseSolveProofs.
From OFV Require ITBounds ITLemmas.
Import ListNotations.

Notation nth_chk := ITBounds.nth_chk.
Notation upd_chk := ITBounds.upd_chk.

Inductive result (X : Type) : Type := OutOfBounds | NoSolution | Solved (x : X).
Arguments OutOfBounds {X}.
Arguments NoSolution {X}.
Arguments Solved {X} x.

Definition bind {X Y} (a : result X) (f : X -> result Y) : result Y :=
  match a with OutOfBounds => OutOfBounds | NoSolution => NoSolution | Solved x => f x end.
(* a failed access *)
Definition acc {X} (o : option X) : result X := match o with Some x => Solved x | None => OutOfBounds end.
(* the plain model's option, seen as a result that is never OutOfBounds *)
Definition of_opt {X} (o : option X) : result X := match o with Some x => Solved x | None => NoSolution end.

Notation "'let!' x := a 'in' k" := (bind a (fun x => k)) (at level 200, x name, a at level 100, k at level 200, right associativity).

(* the two copies of upd in the project (ListAux.upd used by DenseSolve, ITModel.upd used by MLModel and
   ITBounds) are the same function *)
Lemma upd_same {X} (l : list X) i x : ITModel.upd l i x = ListAux.upd l i x.
Proof. now rewrite ITLemmas.upd_same. Qed.

(* "is the option o, unless out of bounds" *)
Definition refo {X} (a : result X) (o : option X) : Prop :=
  match a with OutOfBounds => True | NoSolution => o = None | Solved x => o = Some x end.
Lemma refo_of_opt {X} (o : option X) : refo (of_opt o) o.
Proof. destruct o; reflexivity. Qed.

(* [rel ok a o]: the checked result a is the plain result o unless it is out of bounds, and it is not out of
   bounds when ok holds.  [rel False] is refinement ([refo]), [rel True] is equality with [of_opt o]; each
   checked function is related to its plain copy once, with its range conditions guarded by ok. *)
Definition rel {X} (ok : Prop) (a : result X) (o : option X) : Prop :=
  match a with OutOfBounds => ~ ok | NoSolution => o = None | Solved x => o = Some x end.

Lemma rel_refo {X} (a : result X) o : rel False a o -> refo a o.
Proof. destruct a; cbn; auto. Qed.
Lemma rel_safe {X} (ok : Prop) (a : result X) o : ok -> rel ok a o -> a = of_opt o.
Proof. destruct a; cbn; intros K H; [contradiction|now subst|now subst]. Qed.

Lemma rel_bind {X Y} (ok : Prop) (a : result X) (f : X -> result Y) v o : rel ok a (Some v) -> rel ok (f v) o -> rel ok (bind a f) o.
Proof. destruct a; cbn; intros H K; [exact H|discriminate H|injection H as <-; exact K]. Qed.
Lemma rel_bind_none {X Y} (ok : Prop) (a : result X) (f : X -> result Y) : rel ok a None -> rel ok (bind a f) None.
Proof. destruct a; cbn; intros H; [exact H|reflexivity|discriminate H]. Qed.

(* an access: the accessor specs of ITBounds, read in this result type *)
Lemma rel_acc {X} (ok : Prop) (c : option X) v : ITBounds.chk ok c v -> rel ok (acc c) (Some v).
Proof. destruct c; cbn; [now intros <-|auto]. Qed.
Lemma rel_acc_nth {X} (ok : Prop) (l : list X) i d : (ok -> i < length l) -> rel ok (acc (nth_chk l i)) (Some (nth i l d)).
Proof. intros H. apply rel_acc, ITBounds.chk_nth, H. Qed.
Lemma rel_acc_upd {X} (ok : Prop) (l : list X) i x : (ok -> i < length l) -> rel ok (acc (upd_chk l i x)) (Some (upd l i x)).
Proof. intros H. apply rel_acc, ITBounds.chk_upd, H. Qed.

(* a range condition [ok -> _ < _] from the guarded shape facts H *)
Ltac in_range H := let K := fresh in intros K; apply H in K; lia.

Section DS.
Variable Sy : Type. Variable sxor : Sy -> Sy -> Sy. Variable s0 : Sy.
Notation sys := (sys Sy).
Notation val := (val Sy s0).
Notation elim_row := (elim_row Sy sxor s0).
Notation col_forward := (col_forward Sy sxor s0).
Notation triangularize := (triangularize Sy sxor s0).
Notation back_subst := (back_subst Sy sxor s0).
Notation solve := (solve Sy sxor s0).

Definition bit_chk (row : list bool) (c : nat) : result bool := acc (nth_chk row c).
Definition getrow_chk (A : list (list bool)) (r : nat) : result (list bool) := acc (nth_chk A r).

(* s ^= t word by word: both rows must have the same number of words *)
Fixpoint xor_from_aux_chk (c0 : nat) (i : nat) (s t : list bool) : result (list bool) :=
  match s, t with
  | x :: s', y :: t' => let! u := xor_from_aux_chk c0 (S i) s' t' in Solved ((if c0 <=? i then xorb x y else x) :: u)
  | [], [] => Solved []
  | _, _ => OutOfBounds
  end.
Definition xor_row_from_chk (c0 : nat) (s t : list bool) : result (list bool) := xor_from_aux_chk c0 0 s t.

Fixpoint find_pivot_chk (A : list (list bool)) (i j cnt : nat) : result nat :=
  match cnt with
  | O => NoSolution
  | S c => let! row := getrow_chk A j in let! b := bit_chk row i in
           if b then Solved j else find_pivot_chk A i (S j) c
  end.

Definition swap_chk {X} (l : list X) (i j : nat) : result (list X) :=
  let! vj := acc (nth_chk l j) in let! vi := acc (nth_chk l i) in
  let! l1 := acc (upd_chk l i vj) in acc (upd_chk l1 j vi).

Definition elim_row_chk (i : nat) (y : sys) (j : nat) : result sys :=
  let! rj := getrow_chk (sA y) j in
  let! b := bit_chk rj i in
  if b then
    let! ri := getrow_chk (sA y) i in
    let! rx := xor_row_from_chk (32 * (i / 32)) rj ri in
    let! A' := acc (upd_chk (sA y) j rx) in
    let! oi := acc (nth_chk (sb y) i) in
    match oi with
    | Some ci =>
      let! oj := acc (nth_chk (sb y) j) in
      let! b' := acc (upd_chk (sb y) j (match oj with None => Some ci | Some cj => Some (sxor cj ci) end)) in
      Solved {| sA := A'; sb := b' |}
    | None =>
      let! b' := acc (upd_chk (sb y) i (Some s0)) in Solved {| sA := A'; sb := b' |}
    end
  else Solved y.

Definition col_forward_chk (p : nat) (y : sys) (i : nat) : result sys :=
  let! j := find_pivot_chk (sA y) i i (p - i) in
  let! y1 := (if j =? i then Solved y else
              let! A1 := swap_chk (sA y) i j in let! b1 := swap_chk (sb y) i j in Solved {| sA := A1; sb := b1 |}) in
  fold_left (fun a j => let! y := a in elim_row_chk i y j) (seq (S i) (p - S i)) (Solved y1).

Fixpoint triangularize_chk (p : nat) (cols : list nat) (y : sys) : result sys :=
  match cols with [] => Solved y | i :: rest => let! y' := col_forward_chk p y i in triangularize_chk p rest y' end.

Definition bs_step_chk (row : list bool) (x : list Sy) (a : result Sy) (j : nat) : result Sy :=
  let! a := a in let! b := bit_chk row j in
  if b then let! xj := acc (nth_chk x j) in Solved (sxor a xj) else Solved a.

Fixpoint back_subst_chk (q : nat) (y : sys) (cnt : nat) (x : list Sy) : result (list Sy) :=
  match cnt with
  | O => Solved x
  | S c => let! row := getrow_chk (sA y) c in
           let! bi := acc (nth_chk (sb y) c) in
           let! a := fold_left (bs_step_chk row x) (seq (S c) (q - S c)) (Solved (val bi)) in
           let! x' := acc (upd_chk x c a) in
           back_subst_chk q y c x'
  end.

Definition solve_chk (p q : nat) (y : sys) : result (list Sy) :=
  let! y' := triangularize_chk p (seq 0 q) y in back_subst_chk q y' q (repeat s0 q).

Notation WFs := (WFs Sy).

Lemma bit_chk_rel (ok : Prop) row c : (ok -> c < length row) -> rel ok (bit_chk row c) (Some (bit row c)).
Proof. apply rel_acc_nth. Qed.
Lemma getrow_chk_rel (ok : Prop) A r : (ok -> r < length A) -> rel ok (getrow_chk A r) (Some (getrow A r)).
Proof. apply rel_acc_nth. Qed.

Lemma xor_from_aux_chk_rel (ok : Prop) c0 : forall s t i, (ok -> length s = length t) ->
  rel ok (xor_from_aux_chk c0 i s t) (Some (xor_from_aux c0 i s t)).
Proof.
  induction s as [|x s IH]; intros [|y t] i H; cbn [xor_from_aux_chk xor_from_aux]; try reflexivity;
    try (intros K; discriminate (H K)).
  eapply rel_bind; [apply IH; intros K; specialize (H K); simpl in H; lia|reflexivity].
Qed.

(* the rows scanned exist and have a column i *)
Lemma find_pivot_chk_rel (ok : Prop) A i : forall cnt j, (ok -> forall r, j <= r < j + cnt -> r < length A /\ i < length (getrow A r)) ->
  rel ok (find_pivot_chk A i j cnt) (find_pivot A i j cnt).
Proof.
  induction cnt as [|c IH]; intros j H; cbn [find_pivot_chk find_pivot]; [reflexivity|].
  eapply rel_bind; [apply getrow_chk_rel; intros K; apply (H K); lia|].
  eapply rel_bind; [apply bit_chk_rel; intros K; apply (H K); lia|].
  destruct (bit (getrow A j) i); [reflexivity|]. apply IH. intros K r Hr. apply (H K). lia.
Qed.

Lemma swap_chk_rel {X} (ok : Prop) (l : list X) i j d : (ok -> i < length l /\ j < length l) -> rel ok (swap_chk l i j) (Some (swap l i j d)).
Proof.
  intros H. unfold swap_chk, swap.
  eapply rel_bind; [apply (rel_acc_nth ok l j d); in_range H|]. eapply rel_bind; [apply (rel_acc_nth ok l i d); in_range H|].
  eapply rel_bind; [apply rel_acc_upd; in_range H|]. apply rel_acc_upd. rewrite ITLemmas.upd_length. in_range H.
Qed.

Lemma elim_row_chk_rel (ok : Prop) p q i y j : (ok -> WFs p q y /\ i < q /\ i < p /\ j < p) ->
  rel ok (elim_row_chk i y j) (Some (elim_row i y j)).
Proof.
  intros H. unfold elim_row_chk, elim_row.
  assert (L : ok -> length (sA y) = p /\ length (sb y) = p /\ length (getrow (sA y) j) = q /\ length (getrow (sA y) i) = q /\
                    i < q /\ i < p /\ j < p).
  { intros K. destruct (H K) as (W & ? & ? & ?). repeat split; try apply W; assumption. }
  eapply rel_bind; [apply getrow_chk_rel; in_range L|]. eapply rel_bind; [apply bit_chk_rel; in_range L|].
  destruct (bit (getrow (sA y) j) i); [|reflexivity].
  eapply rel_bind; [apply getrow_chk_rel; in_range L|].
  eapply rel_bind; [apply xor_from_aux_chk_rel; in_range L|].
  eapply rel_bind; [apply rel_acc_upd; in_range L|]. eapply rel_bind; [apply (rel_acc_nth ok (sb y) i None); in_range L|].
  destruct (nth i (sb y) None) as [ci|].
  - eapply rel_bind; [apply (rel_acc_nth ok (sb y) j None); in_range L|]. eapply rel_bind; [apply rel_acc_upd; in_range L|]. reflexivity.
  - eapply rel_bind; [apply rel_acc_upd; in_range L|]. reflexivity.
Qed.

Lemma elim_fold_rel (ok : Prop) p q i : forall js a y, (ok -> WFs p q y /\ i < q /\ i < p /\ forall j, In j js -> j < p) ->
  rel ok a (Some y) ->
  rel ok (fold_left (fun a j => let! y := a in elim_row_chk i y j) js a) (Some (fold_left (elim_row i) js y)).
Proof.
  induction js as [|j js IH]; intros a y H R; cbn [fold_left]; [exact R|]. apply IH.
  - intros K. destruct (H K) as (W & Hq & Hp & Hjs). split; [apply elim_row_WFs, W|]. auto using in_cons.
  - eapply rel_bind; [exact R|]. apply (elim_row_chk_rel ok p q).
    intros K. destruct (H K) as (W & Hq & Hp & Hjs). auto using in_eq.
Qed.

Lemma col_forward_chk_rel (ok : Prop) p q y i : (ok -> WFs p q y /\ i < q) -> rel ok (col_forward_chk p y i) (col_forward p y i).
Proof.
  intros H. unfold col_forward_chk, col_forward.
  assert (R : rel ok (find_pivot_chk (sA y) i i (p - i)) (find_pivot (sA y) i i (p - i))).
  { apply find_pivot_chk_rel. intros K r Hr. destruct (H K) as (W & Hi).
    rewrite (w_rows _ _ _ _ W), (w_len _ _ _ _ W) by lia. lia. }
  pose proof (find_pivot_spec (sA y) i (p - i) i) as F.
  destruct (find_pivot (sA y) i i (p - i)) as [j|]; [|apply rel_bind_none, R].
  eapply rel_bind; [exact R|]. cbv beta.
  assert (L : ok -> length (sA y) = p /\ length (sb y) = p) by (intros K; split; apply (H K)).
  eapply rel_bind with (v := if j =? i then y else {| sA := swap (sA y) i j []; sb := swap (sb y) i j None |}).
  { destruct (j =? i); [reflexivity|].
    eapply rel_bind; [apply swap_chk_rel; in_range L|]. eapply rel_bind; [apply swap_chk_rel; in_range L|]. reflexivity. }
  apply (elim_fold_rel ok p q); [|reflexivity].
  intros K. destruct (H K) as (W & Hi). split; [destruct (j =? i); [exact W|apply swap_WFs; [exact W|lia|lia]]|].
  split; [exact Hi|]. split; [lia|]. intros k Hk. apply in_seq in Hk. lia.
Qed.

Lemma triangularize_chk_rel (ok : Prop) p q : forall cols y, (ok -> WFs p q y /\ forall i, In i cols -> i < q) ->
  rel ok (triangularize_chk p cols y) (triangularize p cols y).
Proof.
  induction cols as [|i rest IH]; intros y H; cbn [triangularize_chk triangularize]; [reflexivity|].
  assert (R : rel ok (col_forward_chk p y i) (col_forward p y i)).
  { apply (col_forward_chk_rel ok p q). intros K. destruct (H K) as (W & Hc). auto using in_eq. }
  destruct (col_forward p y i) as [y1|] eqn:E; [|apply rel_bind_none, R].
  eapply rel_bind; [exact R|]. apply IH. intros K. destruct (H K) as (W & Hc).
  split; [exact (col_forward_WFs Sy sxor s0 p q y y1 i W E)|auto using in_cons].
Qed.

Lemma bs_fold_rel (ok : Prop) row x : forall js a v, (ok -> forall j, In j js -> j < length row /\ j < length x) -> rel ok a (Some v) ->
  rel ok (fold_left (bs_step_chk row x) js a) (Some (fold_left (fun a j => if bit row j then sxor a (nth j x s0) else a) js v)).
Proof.
  induction js as [|j js IH]; intros a v H R; cbn [fold_left]; [exact R|].
  apply IH; [intros K k Hk; apply (H K); now right|].
  assert (L : ok -> j < length row /\ j < length x) by (intros K; apply (H K); now left).
  unfold bs_step_chk. eapply rel_bind; [exact R|]. eapply rel_bind; [apply bit_chk_rel; in_range L|].
  destruct (bit row j); [|reflexivity]. eapply rel_bind; [apply (rel_acc_nth ok x j s0); in_range L|]. reflexivity.
Qed.

Lemma back_subst_chk_rel (ok : Prop) p q y : forall cnt x, (ok -> WFs p q y /\ cnt <= q /\ cnt <= p /\ length x = q) ->
  rel ok (back_subst_chk q y cnt x) (Some (back_subst q y cnt x)).
Proof.
  induction cnt as [|c IH]; intros x H; cbn [back_subst_chk back_subst]; [reflexivity|].
  assert (L : ok -> length (sA y) = p /\ length (sb y) = p /\ length (getrow (sA y) c) = q /\ length x = q /\ c < q /\ c < p).
  { intros K. destruct (H K) as (W & ? & ? & ?). repeat split; try apply W; lia. }
  eapply rel_bind; [apply getrow_chk_rel; in_range L|]. eapply rel_bind; [apply (rel_acc_nth ok (sb y) c None); in_range L|].
  eapply rel_bind; [apply bs_fold_rel; [|reflexivity]|].
  { intros K j Hj. apply in_seq in Hj. apply L in K. lia. }
  eapply rel_bind; [apply rel_acc_upd; in_range L|]. apply IH.
  intros K. destruct (H K) as (W & ? & ? & ?). rewrite ITLemmas.upd_length. split; [exact W|lia].
Qed.

Lemma solve_chk_rel (ok : Prop) p q y : (ok -> WFs p q y) -> rel ok (solve_chk p q y) (solve p q y).
Proof.
  intros H. unfold solve_chk, solve.
  assert (R : rel ok (triangularize_chk p (seq 0 q) y) (triangularize p (seq 0 q) y)).
  { apply (triangularize_chk_rel ok p q). intros K. split; [exact (H K)|]. intros i Hi. apply in_seq in Hi. lia. }
  destruct (triangularize p (seq 0 q) y) as [y'|] eqn:E; [|apply rel_bind_none, R].
  eapply rel_bind; [exact R|]. apply (back_subst_chk_rel ok p q). intros K.
  split; [exact (triangularize_WFs Sy sxor s0 p q _ y y' (H K) E)|]. split; [lia|]. split; [|apply repeat_length].
  destruct q as [|q']; [lia|]. pose proof (triangularize_lt Sy sxor s0 p _ y y' E q' ltac:(apply in_seq; lia)). lia.
Qed.

Lemma solve_chk_refo p q y : refo (solve_chk p q y) (solve p q y).
Proof. apply rel_refo, (solve_chk_rel False p q). intros []. Qed.

Theorem solve_chk_refines p q y :
  (forall x, solve_chk p q y = Solved x -> solve p q y = Some x) /\
  (solve_chk p q y = NoSolution -> solve p q y = None).
Proof.
  pose proof (solve_chk_refo p q y) as H. split.
  - intros x E. now rewrite E in H.
  - intros E. now rewrite E in H.
Qed.

Theorem solve_chk_safe p q y : WFs p q y -> solve_chk p q y = of_opt (solve p q y).
Proof. intros W. apply (rel_safe True); [exact I|]. apply (solve_chk_rel True p q). intros _. exact W. Qed.

Corollary solve_chk_never_oob p q y : WFs p q y -> solve_chk p q y <> OutOfBounds.
Proof. intros W. rewrite (solve_chk_safe p q y W). destruct (solve p q y); discriminate. Qed.

(* the statement with the hypotheses spelled out (q <= p is implied by success, so it is not needed) *)
Corollary solve_chk_never_oob' p q (y : sys) :
  length (sA y) = p -> (forall row, In row (sA y) -> length row = q) -> length (sb y) = p ->
  solve_chk p q y <> OutOfBounds.
Proof.
  intros HA HR HB. apply solve_chk_never_oob. constructor; [exact HA|exact HB|].
  intros r Hr. apply HR, nth_In. now rewrite HA.
Qed.
End DS.

(* the index translation of the ML finish: take_ct (through index_rows) and write_back.  ITModel comes in only
   here: its upd would hide the ListAux.upd the solver part above is written with. *)
From OFV Require Import ITModel ITLemmas ITProofs MLModel MLSimplify MLFinish.

Section TW.
Variable Sy : Type. Variable s0 : Sy.
Notation unkt := (unkt Sy).

(* const_term[i] = tab_const_term_of_equ[index_rows[i]]; tab_const_term_of_equ[index_rows[i]] = NULL *)
Fixpoint take_ct_chk (idx : list nat) (ctl : list (option Sy)) : option (list (option Sy) * list (option Sy)) :=
  match idx with
  | [] => Some ([], ctl)
  | j :: rest =>
    match nth_chk ctl j with None => None | Some v =>
    match upd_chk ctl j None with None => None | Some ctl1 =>
    match take_ct_chk rest ctl1 with None => None | Some (b, ctl') => Some (v :: b, ctl') end end end
  end.

(* tab[srcs[j]] is read, and when it is unknown x[pos] is read and tab[srcs[j]] written *)
Fixpoint write_back_chk (srcs : list nat) (x : list Sy) (pos : nat) (tb : list (option Sy)) : option (list (option Sy)) :=
  match srcs with
  | [] => Some tb
  | c :: rest =>
    match nth_chk tb c with
    | None => None
    | Some (Some _) => write_back_chk rest x pos tb
    | Some None =>
      match nth_chk x pos with None => None | Some v =>
      match upd_chk tb c (Some v) with None => None | Some tb' => write_back_chk rest x (S pos) tb' end end
    end
  end.

(* exact failure condition: some index is not an index of the table *)
Lemma take_ct_chk_spec : forall idx ctl,
  match take_ct_chk idx ctl with
  | Some bc => take_ct idx ctl = bc /\ forall j, In j idx -> j < length ctl
  | None => exists j, In j idx /\ length ctl <= j
  end.
Proof.
  induction idx as [|j rest IH]; intros ctl; cbn [take_ct_chk take_ct]; [split; [reflexivity|intros j []]|].
  destruct (nth_chk ctl j) as [v|] eqn:E1; [|exists j; split; [now left|now apply ITBounds.nth_chk_none]].
  destruct (ITBounds.nth_chk_sound ctl j v None E1) as (Hj & <-).
  rewrite (ITBounds.upd_chk_in ctl j None Hj). specialize (IH (upd ctl j None)). rewrite upd_length in IH.
  destruct (take_ct_chk rest (upd ctl j None)) as [[b ctl']|].
  - destruct IH as (-> & Hr). split; [reflexivity|]. intros k [<-|Hk]; auto.
  - destruct IH as (k & Hk & Hl). exists k. split; [now right|exact Hl].
Qed.

Lemma take_ct_chk_sound : forall idx ctl bc, take_ct_chk idx ctl = Some bc -> take_ct idx ctl = bc.
Proof. intros idx ctl bc H. pose proof (take_ct_chk_spec idx ctl) as S. rewrite H in S. apply S. Qed.

Lemma take_ct_chk_in : forall idx ctl, (forall j, In j idx -> j < length ctl) -> take_ct_chk idx ctl = Some (take_ct idx ctl).
Proof.
  intros idx ctl H. pose proof (take_ct_chk_spec idx ctl) as S. destruct (take_ct_chk idx ctl); [now destruct S as (-> & _)|].
  destruct S as (j & Hj & Hl). specialize (H j Hj). lia.
Qed.

Lemma take_ct_chk_none : forall idx ctl, take_ct_chk idx ctl = None -> exists j, In j idx /\ length ctl <= j.
Proof. intros idx ctl H. pose proof (take_ct_chk_spec idx ctl) as S. now rewrite H in S. Qed.

(* the shape ml_finish passes: the non-empty rows (a filter of 0..R-1) followed by stale identity entries,
   into a table of R constant terms *)
Theorem take_ct_chk_ml (f : nat -> bool) R (ctl : list (option Sy)) : length ctl = R ->
  let rows := filter f (seq 0 R) in
  let idx := rows ++ seq (length rows) (R - length rows) in
  take_ct_chk idx ctl = Some (take_ct idx ctl).
Proof.
  intros Hl rows idx. apply take_ct_chk_in. intros j Hj. unfold idx in Hj. apply in_app_or in Hj. rewrite Hl.
  destruct Hj as [Hj|Hj].
  - unfold rows in Hj. apply filter_In in Hj. destruct Hj as (Hj & _). apply in_seq in Hj. lia.
  - apply in_seq in Hj. lia.
Qed.

Lemma unkt_upd_le (tb : list (option Sy)) c v l :
  length (filter (unkt (upd tb c (Some v))) l) <= length (filter (unkt tb) l).
Proof.
  apply filter_length_mono. intros y _. unfold MLFinish.unkt.
  destruct (Nat.eq_dec c y) as [->|Hne]; [|now rewrite nth_upd_neq by exact Hne].
  destruct (Nat.lt_ge_cases y (length tb)) as [Hlt|Hge].
  - rewrite nth_upd_eq by exact Hlt. discriminate.
  - rewrite nth_overflow by (rewrite upd_length; exact Hge). now rewrite nth_overflow by exact Hge.
Qed.

(* every position is in the table and, unless no entry is unknown, the reads of x stay inside x *)
Lemma write_back_chk_spec (ok : Prop) x : forall srcs pos tb,
  (ok -> (forall c, In c srcs -> c < length tb) /\
         (filter (unkt tb) srcs = [] \/ pos + length (filter (unkt tb) srcs) <= length x)) ->
  ITBounds.chk ok (write_back_chk srcs x pos tb) (write_back s0 srcs x pos tb).
Proof.
  induction srcs as [|c rest IH]; intros pos tb H; cbn [write_back_chk write_back]; [reflexivity|].
  eapply ITBounds.chk_bind; [apply ITBounds.chk_nth with (d := None); intros K; apply (H K); now left|].
  destruct (nth c tb None) as [w|] eqn:Ec.
  - apply IH. intros K. destruct (H K) as (Hs & Hx). split; [intros k Hk; apply Hs; now right|].
    cbn [filter] in Hx. replace (unkt tb c) with false in Hx by (unfold MLFinish.unkt; now rewrite Ec). exact Hx.
  - assert (L : ok -> c < length tb /\ (forall k, In k rest -> k < length tb) /\
                      pos + S (length (filter (unkt tb) rest)) <= length x).
    { intros K. destruct (H K) as (Hs & Hx). cbn [filter] in Hx.
      replace (unkt tb c) with true in Hx by (unfold MLFinish.unkt; now rewrite Ec).
      destruct Hx as [Hx|Hx]; [discriminate Hx|]. auto using in_eq, in_cons. }
    eapply ITBounds.chk_bind; [apply ITBounds.chk_nth with (d := s0); in_range L|].
    eapply ITBounds.chk_bind; [apply ITBounds.chk_upd; in_range L|].
    apply IH. intros K. destruct (L K) as (Hc & Hs & Hx). split; [intros k Hk; rewrite upd_length; auto|].
    right. pose proof (unkt_upd_le tb c (nth pos x s0) rest). lia.
Qed.

Lemma write_back_chk_sound x : forall srcs pos tb tb', write_back_chk srcs x pos tb = Some tb' -> write_back s0 srcs x pos tb = tb'.
Proof. intros srcs pos tb tb'. apply (ITBounds.chk_sound False), write_back_chk_spec. intros []. Qed.

(* the shape ml_finish passes: the k source positions R .. R+k-1 of a table of R+k symbols, reading the
   solution from position nrep on *)
Theorem write_back_chk_ml R k x nrep (tb : list (option Sy)) : length tb = R + k ->
  let srcs := map (fun i => R + i) (seq 0 k) in
  (filter (unkt tb) srcs = [] \/ nrep + length (filter (unkt tb) srcs) <= length x) ->
  write_back_chk srcs x nrep tb = Some (write_back s0 srcs x nrep tb).
Proof.
  intros Hl srcs Hx. apply (ITBounds.chk_in True); [|exact I]. apply write_back_chk_spec. intros _. split; [|exact Hx].
  intros c Hc. unfold srcs in Hc. apply in_map_iff in Hc. destruct Hc as (i & <- & Hi). apply in_seq in Hi. lia.
Qed.
End TW.

(* everything ml_finish does after the injections, with checked accesses *)
Section MLT.
Variable Sy : Type. Variable sxor : Sy -> Sy -> Sy. Variable s0 : Sy.
Notation st := (st Sy).

(* None = some access was out of bounds (the plain ml_tail is never None) *)
Definition ml_tail_chk (k : nat) (s : st) : option (outcome Sy) :=
  if (length (cols_of Sy s) =? 0) || (length (rows_of Sy s) <? length (cols_of Sy s)) then give_up Sy s else
  match take_ct_chk Sy (idx_of Sy s) (ct s) with
  | None => None
  | Some (b, ct') =>
    let s2 := with_ct Sy s ct' in
    match solve_chk Sy sxor s0 (r s) (length (cols_of Sy s)) (Build_sys (matA Sy s) b) with
    | OutOfBounds => None
    | NoSolution => give_up Sy s2
    | Solved x =>
      match write_back_chk Sy (map (fun i => r s + i) (seq 0 k)) x (nrep_of Sy s) (tab s) with
      | None => None
      | Some tb => Some {| o_st := mk (r s) (n s) (rws s) (unk s) (enc s) (ct s2) tb (fnd s); o_ok := true; o_solved := true |}
      end
    end
  end.

(* None = out of fuel in the injections (as in the plain model) or an access out of bounds after them *)
Definition ml_finish_chk (fuel : nat) (perm : list nat) (s : st) : option (outcome Sy) :=
  match red Sy sxor fuel perm s with None => None | Some s1 => ml_tail_chk (n s - r s) s1 end.

Theorem ml_tail_chk_refines k (s : st) o : ml_tail_chk k s = Some o -> ml_tail Sy sxor s0 k s = Some o.
Proof.
  unfold ml_tail_chk, ml_tail.
  destruct ((length (cols_of Sy s) =? 0) || (length (rows_of Sy s) <? length (cols_of Sy s))); [exact (fun H => H)|].
  destruct (take_ct_chk Sy (idx_of Sy s) (ct s)) as [[b ct']|] eqn:E1; [|discriminate].
  rewrite (take_ct_chk_sound Sy _ _ _ E1). cbn [fst snd].
  pose proof (solve_chk_refo Sy sxor s0 (r s) (length (cols_of Sy s)) (Build_sys (matA Sy s) b)) as R.
  destruct (solve_chk Sy sxor s0 (r s) (length (cols_of Sy s)) (Build_sys (matA Sy s) b)) as [| |x]; cbn [refo] in R;
    [discriminate|rewrite R; exact (fun H => H)|].
  rewrite R. destruct (write_back_chk Sy _ x (nrep_of Sy s) (tab s)) as [tb|] eqn:E3; [|discriminate].
  rewrite (write_back_chk_sound Sy s0 x _ _ _ _ E3). exact (fun H => H).
Qed.

Theorem ml_finish_chk_refines fuel perm (s : st) o : ml_finish_chk fuel perm s = Some o -> ml_finish sxor s0 fuel perm s = Some o.
Proof.
  unfold ml_finish_chk. rewrite ml_finish_eq. destruct (red Sy sxor fuel perm s) as [s1|]; [|discriminate].
  apply ml_tail_chk_refines.
Qed.

(* under the hypotheses of MLFinish.v *)
Hypothesis sxor_assoc : forall a b c, sxor a (sxor b c) = sxor (sxor a b) c.
Hypothesis sxor_comm : forall a b, sxor a b = sxor b a.
Hypothesis sxor_0_l : forall a, sxor s0 a = a.
Hypothesis sxor_nilp : forall a, sxor a a = s0.
Variable H0 : list (list nat).
Variable R0 N0 : nat.
Hypothesis H0_len : length H0 = R0.
Hypothesis H0_nodup : forall i, i < R0 -> NoDup (nth i H0 []).
Hypothesis H0_range : forall i c, i < R0 -> In c (nth i H0 []) -> c < N0.
Hypothesis H0_deg : forall i, i < R0 -> 2 <= length (nth i H0 []).
Hypothesis R_le_N : R0 <= N0.
Variable cw : nat -> Sy.
Hypothesis parity : forall i, i < R0 -> xs Sy sxor s0 cw (nth i H0 []) = s0.
Hypothesis H0_cols : forall c, c < N0 -> exists i, i < R0 /\ In c (nth i H0 []).

Notation Inv := (MLInv Sy sxor s0 H0 R0 N0 cw).
Notation Pre := (MLPre Sy H0 R0 N0 cw).
Notation iscomp := (iscomp Sy R0 N0).
Notation RC := (RC Sy H0 R0).
Notation unkt := (unkt Sy).

Section Tail.
Variable s1 : st.
Hypothesis I1 : Inv s1.
Hypothesis HX : iscomp s1 \/ RC s1.

Let Wf1 := W1 Sy sxor s0 H0 R0 N0 cw s1 I1.
Let Er := r1 Sy sxor s0 H0 R0 N0 cw s1 I1.

(* the index list is the shape of take_ct_chk_ml *)
Lemma take_ct_chk_tail : take_ct_chk Sy (idx_of Sy s1) (ct s1) = Some (take_ct (idx_of Sy s1) (ct s1)).
Proof.
  unfold idx_of, rows_of.
  apply (take_ct_chk_ml Sy (fun i => negb (is_nil (nth i (rws s1) []))) (r s1) (ct s1)).
  rewrite Er. exact (wf_ct Sy R0 N0 s1 Wf1).
Qed.

(* the solution has one entry for each unknown repair, then one for each unknown source:
   nrep + (number of unknown sources) <= q  (with equality; when the sources are all known nothing is read) *)
Lemma write_back_reads_ok :
  let srcs := map (fun i => R0 + i) (seq 0 (N0 - R0)) in
  filter (unkt (tab s1)) srcs = [] \/ nrep_of Sy s1 + length (filter (unkt (tab s1)) srcs) <= length (cols_of Sy s1).
Proof.
  cbv zeta. rewrite ListAux.map_add_seq, Nat.add_0_r. destruct HX as [C|HRC].
  - left. apply filter_none. intros c Hc. apply in_seq in Hc.
    rewrite unkt_known. rewrite (C c ltac:(lia)). reflexivity.
  - right. rewrite (cols_char Sy sxor s0 H0 R0 N0 H0_len H0_nodup H0_range H0_deg R_le_N cw H0_cols s1 I1 HRC).
    unfold nrep_of. rewrite Er.
    replace (seq 0 N0) with (seq 0 R0 ++ seq R0 (N0 - R0)) by (rewrite <- seq_app; f_equal; lia).
    rewrite filter_app, app_length. lia.
Qed.

Theorem ml_tail_chk_safe : ml_tail_chk (N0 - R0) s1 = ml_tail Sy sxor s0 (N0 - R0) s1.
Proof.
  unfold ml_tail_chk, ml_tail.
  destruct ((length (cols_of Sy s1) =? 0) || (length (rows_of Sy s1) <? length (cols_of Sy s1))); [reflexivity|].
  rewrite take_ct_chk_tail.
  pose proof (matA_WF Sy sxor s0 H0 R0 N0 H0_len R_le_N cw s1 I1 _ (rhs_length Sy sxor s0 H0 R0 N0 H0_len R_le_N cw s1 I1)) as W.
  destruct (take_ct (idx_of Sy s1) (ct s1)) as [b ct'] eqn:E1. cbn [fst snd] in *.
  rewrite Er. rewrite (solve_chk_safe Sy sxor s0 R0 _ _ W).
  destruct (solve Sy sxor s0 R0 (length (cols_of Sy s1)) (Build_sys (matA Sy s1) b)) as [x|] eqn:E2; cbn [of_opt]; [|reflexivity].
  rewrite (write_back_chk_ml Sy s0 R0 (N0 - R0) x (nrep_of Sy s1) (tab s1)); [reflexivity| |].
  - rewrite (wf_tab Sy R0 N0 s1 Wf1). lia.
  - rewrite (solve_length Sy sxor s0 _ _ _ _ E2). exact write_back_reads_ok.
Qed.

Corollary ml_tail_chk_never_oob : exists o, ml_tail_chk (N0 - R0) s1 = Some o.
Proof.
  rewrite ml_tail_chk_safe. unfold ml_tail, give_up.
  destruct ((length (cols_of Sy s1) =? 0) || (length (rows_of Sy s1) <? length (cols_of Sy s1))).
  - destruct (is_complete s1) as [b sx]. eexists; reflexivity.
  - destruct (solve Sy sxor s0 (r s1) _ _).
    + eexists; reflexivity.
    + destruct (is_complete _) as [b sx]. eexists; reflexivity.
Qed.
End Tail.

(* the whole finish: from any state satisfying the precondition of MLFinish.v, with enough fuel and a
   permutation of the repair columns, the state reached after the injections makes every access of the
   rest of ml_finish fall inside its table, and the checked finish is the plain one *)
Theorem ml_finish_chk_safe fuel perm (s : st) : Pre s -> N0 < fuel ->
  (forall c, c < R0 -> In c perm) -> (forall c, In c perm -> c < R0) ->
  ml_finish_chk fuel perm s = ml_finish sxor s0 fuel perm s /\
  exists s1 o, red Sy sxor fuel perm s = Some s1 /\ ml_tail_chk (n s - r s) s1 = Some o /\
               ml_finish sxor s0 fuel perm s = Some o.
Proof.
  intros P Hf Hp1 Hp2.
  destruct (reduce_inv Sy sxor s0 sxor_assoc sxor_comm sxor_0_l sxor_nilp H0 R0 N0 H0_len H0_nodup H0_range H0_deg R_le_N
              cw fuel perm s (proj1 (prepar_inv Sy sxor s0 H0 R0 N0 H0_nodup cw parity s P)) Hf Hp1) as (s1 & Hs1 & I1 & _ & _ & X).
  assert (W : WF Sy R0 N0 s) by apply P.
  destruct (ml_tail_chk_never_oob s1 I1 X) as (o & Ho).
  unfold ml_finish_chk. rewrite ml_finish_eq, Hs1, (wf_r Sy R0 N0 s W), (wf_n Sy R0 N0 s W), <- (ml_tail_chk_safe s1 I1 X).
  split; [reflexivity|]. exists s1, o. auto.
Qed.
End MLT.

(* the checks are not vacuous: the checked copies fail where the plain ones mask the slip *)
Section Examples.
Let solveb := solve bool xorb false.
Let solveb_chk := solve_chk bool xorb false.

(* row 0 is one bit short: the back-substitution reads bit 1 of row 0 (the plain model reads the default) *)
Definition short_row : sys bool := Build_sys [[true]; [false; true]] [Some true; Some false].
Example short_row_plain : solveb 2 2 short_row = Some [true; false].
Proof. vm_compute. reflexivity. Qed.
Example short_row_chk : solveb_chk 2 2 short_row = OutOfBounds.
Proof. vm_compute. reflexivity. Qed.

(* rows of different lengths meet in the word-granular XOR (the plain model stops at the shorter row) *)
Definition uneven_rows : sys bool := Build_sys [[true]; [true; true]] [Some true; Some false].
Example uneven_rows_plain : solveb 2 2 uneven_rows = Some [true; true].
Proof. vm_compute. reflexivity. Qed.
Example uneven_rows_chk : solveb_chk 2 2 uneven_rows = OutOfBounds.
Proof. vm_compute. reflexivity. Qed.

(* fewer constant terms than rows *)
Definition short_rhs : sys bool := Build_sys [[true; false]; [false; true]] [Some true].
Example short_rhs_plain : solveb 2 2 short_rhs = Some [true; false].
Proof. vm_compute. reflexivity. Qed.
Example short_rhs_chk : solveb_chk 2 2 short_rhs = OutOfBounds.
Proof. vm_compute. reflexivity. Qed.

(* on well-shaped systems the two outcomes other than OutOfBounds do occur *)
Example good_solved : solveb_chk 3 2 (Build_sys [[false; true]; [true; true]; [false; false]] [Some true; Some false; None]) = Solved [true; true].
Proof. vm_compute. reflexivity. Qed.
Example good_singular : solveb_chk 2 2 (Build_sys [[true; true]; [true; true]] [Some true; Some true]) = NoSolution.
Proof. vm_compute. reflexivity. Qed.
(* more unknowns than equations: no pivot for the last column, no access past the last row *)
Example good_wide : solveb_chk 1 2 (Build_sys [[true; true]] [Some true]) = NoSolution.
Proof. vm_compute. reflexivity. Qed.

(* an index_rows entry beyond the table of constant terms *)
Example take_ct_plain : take_ct [0; 5] [Some true; None] = ([Some true; None], [None; None]).
Proof. vm_compute. reflexivity. Qed.
Example take_ct_oob : take_ct_chk bool [0; 5] [Some true; None] = None.
Proof. vm_compute. reflexivity. Qed.

(* two unknown sources but a solution of one entry; a source position beyond the symbol table *)
Example write_back_plain : write_back false [1; 2] [true] 0 [Some true; None; None] = [Some true; Some true; Some false].
Proof. vm_compute. reflexivity. Qed.
Example write_back_oob_x : write_back_chk bool [1; 2] [true] 0 [Some true; None; None] = None.
Proof. vm_compute. reflexivity. Qed.
Example write_back_plain2 : write_back false [1; 3] [true; true] 0 [Some true; None; None] = [Some true; Some true; None].
Proof. vm_compute. reflexivity. Qed.
Example write_back_oob_tab : write_back_chk bool [1; 3] [true; true] 0 [Some true; None; None] = None.
Proof. vm_compute. reflexivity. Qed.
(* all sources known: x is never read, whatever nrep is *)
Example write_back_no_read : write_back_chk bool [1; 2] [] 7 [None; Some true; Some false] = Some [None; Some true; Some false].
Proof. vm_compute. reflexivity. Qed.
End Examples.

Print Assumptions solve_chk_refines.
Print Assumptions solve_chk_safe.
Print Assumptions solve_chk_never_oob.
Print Assumptions solve_chk_never_oob'.
Print Assumptions take_ct_chk_sound.
Print Assumptions take_ct_chk_none.
Print Assumptions take_ct_chk_ml.
Print Assumptions write_back_chk_sound.
Print Assumptions write_back_chk_ml.
Print Assumptions ml_tail_chk_refines.
Print Assumptions ml_finish_chk_refines.
Print Assumptions ml_tail_chk_safe.
Print Assumptions ml_tail_chk_never_oob.
Print Assumptions ml_finish_chk_safe.
Print Assumptions short_row_chk.
Print Assumptions take_ct_oob.
