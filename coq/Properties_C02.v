(* C02 — Reed-Solomon codecs: any k of the n symbols recover the block.
   API layer shared by both RS codecs (RSApi.v), the decoding core a parameter that is assumed to succeed on k
   symbols (`core_ok`): after ANY history of of_decode_with_new_symbol calls (any order, duplicates, any k <= n)
   decoding is complete iff at least k distinct ESIs were submitted, and of_finish_decoding returns
   OK iff complete / FAILURE iff fewer than k.
   MDS, at the level of the canonical code (RSCanon.v: evaluation points 0, 1, x, x^2, ... of
   GF(2)[x]/(x^8+x^4+x^3+x^2+1) resp. GF(2)[x]/(x^4+x+1), k sources at the first k points): for every
   k <= n <= 2^m, ANY k distinct codeword positions determine the k source elements (two source
   vectors that agree on k positions are equal), and the code is systematic.  The C encoders are tied
   to this code by C06's correspondence.
   Matrix inversion (GaussJordan.v: model of of_invert_mat, the in-place Gauss-Jordan of Numerical
   Recipes with full pivot search, of which the library has three textually parallel copies): for every
   k and every k x k matrix over GF(2^8) resp. GF(2^4), when it returns a matrix that matrix is the
   two-sided inverse, and it reports failure exactly when the matrix is singular.  The three C copies are
   compared with the extracted model on generated matrices (invertible, singular, permutation, decode-
   matrix shaped, zero diagonal) on every run.
   Decoding core (RSCore.v): the selection of k symbols, the decode matrix, the inversion and the product
   composed; from ANY k or more codeword elements it returns the original sources (the inverse is exhibited
   explicitly by Lagrange interpolation on the k selected points), which discharges `core_ok`: the last
   theorems are the property for API layer and core together, on field elements and on symbols of L bytes.
   Every decoded byte is also compared with the encoded source on the compiled C (every received subset of
   small codes, sampled subsets up to n = 255). *)
From Coq Require Import Arith List Bool.
From Coq Require Import NArith.
From OFV Require Import GFField ListAux RSApi RSApiProofs GF2Poly RSCanon GaussJordan RSCore RSSession RSEnc RSEndToEnd.
Import ListNotations.

Theorem rs_complete_iff_k_distinct :
  forall (B : Type) (core : nat -> list (option B) -> option (list B)) (cb : bool) (mk : nat -> B -> B) (k n : nat),
  k <= n ->
  (forall t, length t = n -> k <= count_some t -> exists vals, core k t = Some vals /\ length vals = k) ->
  forall h : list (nat * B), 1 <= k -> (forall ev, In ev h -> fst ev < n) ->
  (rs_is_complete (run B core cb mk k n h) = true <-> k <= ndistinct n (map fst h)).
Proof. exact rs_complete_iff_k_distinct_proof. Qed.

Theorem rs_finish_truthful :
  forall (B : Type) (core : nat -> list (option B) -> option (list B)) (cb : bool) (mk : nat -> B -> B) (k n : nat),
  k <= n ->
  (forall t, length t = n -> k <= count_some t -> exists vals, core k t = Some vals /\ length vals = k) ->
  forall h : list (nat * B), 1 <= k -> (forall ev, In ev h -> fst ev < n) ->
  let r := rs_finish core cb mk (run B core cb mk k n h) in
  ((snd r = OK) <-> (rs_is_complete (fst r) = true)) /\ ((snd r = FAILURE) <-> (rs_is_complete (fst r) = false)) /\
  ((rs_is_complete (fst r) = true) <-> (k <= ndistinct n (map fst h))).
Proof. exact rs_finish_truthful_proof. Qed.

Theorem rs256_any_k_positions_determine_the_sources :
  forall k src src', k <= 256 -> length src = k -> length src' = k ->
  Forall (fun a => (a < 256)%N) src -> Forall (fun a => (a < 256)%N) src' ->
  forall J : list nat, NoDup J -> length J = k -> (forall j, In j J -> j < 256) ->
  (forall j, In j J -> elem256 k src j = elem256 k src' j) -> src = src'.
Proof.
  exact (elemN_mds 8%N P256 mul256 inv256 256%N 256 (GF 256%N)
           F256_zero F256_one F256_add F256_mul F256_opp F256_inv F256_eq_dec
           F256_add_comm F256_add_assoc F256_add_0_l F256_add_opp_r F256_mul_comm F256_mul_assoc
           F256_mul_1_l F256_mul_add_distr_l F256_mul_inv_r F256_one_neq_zero val of_N256
           F256_val_zero F256_val_one F256_val_add F256_val_mul F256_val_opp F256_val_inv
           (val_inj 256%N) of_N256_val_lt rs_point256_lt rs_point256_inj).
Qed.

Theorem rs16_any_k_positions_determine_the_sources :
  forall k src src', k <= 16 -> length src = k -> length src' = k ->
  Forall (fun a => (a < 16)%N) src -> Forall (fun a => (a < 16)%N) src' ->
  forall J : list nat, NoDup J -> length J = k -> (forall j, In j J -> j < 16) ->
  (forall j, In j J -> elem16 k src j = elem16 k src' j) -> src = src'.
Proof.
  exact (elemN_mds 4%N P16 mul16 inv16 16%N 16 (GF 16%N)
           F16_zero F16_one F16_add F16_mul F16_opp F16_inv F16_eq_dec
           F16_add_comm F16_add_assoc F16_add_0_l F16_add_opp_r F16_mul_comm F16_mul_assoc
           F16_mul_1_l F16_mul_add_distr_l F16_mul_inv_r F16_one_neq_zero val of_N16
           F16_val_zero F16_val_one F16_val_add F16_val_mul F16_val_opp F16_val_inv
           (val_inj 16%N) of_N16_val_lt rs_point16_lt rs_point16_inj).
Qed.

Theorem rs256_systematic :
  forall k src j, k <= 256 -> length src = k -> Forall (fun a => (a < 256)%N) src -> j < k -> elem256 k src j = nth j src 0%N.
Proof. exact elem256_systematic. Qed.

Theorem rs16_systematic :
  forall k src j, k <= 16 -> length src = k -> Forall (fun a => (a < 16)%N) src -> j < k -> elem16 k src j = nth j src 0%N.
Proof. exact elem16_systematic. Qed.

Theorem gf256_matrix_inversion_returns_the_inverse :
  forall k A B, wfN k A -> belowN 256 A -> invert_mat256 k A = Some B ->
  wfN k B /\ belowN 256 B /\ mmul256 B A = mIN k /\ mmul256 A B = mIN k.
Proof. exact invert_mat256_sound. Qed.

Theorem gf256_matrix_inversion_fails_iff_singular :
  forall k A, wfN k A -> belowN 256 A ->
  (invert_mat256 k A = None <-> ~ exists B, wfN k B /\ belowN 256 B /\ mmul256 A B = mIN k).
Proof. exact (invN_none_iff_singular mul256 inv256 256 invert_mat256_sound invert_mat256_unique). Qed.

Theorem gf16_matrix_inversion_returns_the_inverse :
  forall k A B, wfN k A -> belowN 16 A -> invert_mat16 k A = Some B ->
  wfN k B /\ belowN 16 B /\ mmul16 B A = mIN k /\ mmul16 A B = mIN k.
Proof. exact invert_mat16_sound. Qed.

Theorem gf16_matrix_inversion_fails_iff_singular :
  forall k A, wfN k A -> belowN 16 A ->
  (invert_mat16 k A = None <-> ~ exists B, wfN k B /\ belowN 16 B /\ mmul16 A B = mIN k).
Proof. exact (invN_none_iff_singular mul16 inv16 16 invert_mat16_sound invert_mat16_unique). Qed.

(* the decoding core (RSCore.v: selection of k symbols as of_rs_finish_decoding does, decode matrix, the
   Gauss-Jordan model, product) returns the original sources from ANY k or more codeword elements, and the
   hypothesis `core_ok` of the API theorems above holds for it *)
Theorem rs256_core_returns_the_sources :
  forall k n (src : list N) (t : list (option N)),
  1 <= k <= n -> n <= 256 -> length src = k -> Forall (fun a => (a < 256)%N) src -> length t = n ->
  (forall e, e < n -> nth e t None = None \/ nth e t None = Some (elem256 k src e)) ->
  k <= count_some t -> rs_core256 k n t = Some src.
Proof. exact rs_core256_correct. Qed.

Theorem rs16_core_returns_the_sources :
  forall k n (src : list N) (t : list (option N)),
  1 <= k <= n -> n <= 16 -> length src = k -> Forall (fun a => (a < 16)%N) src -> length t = n ->
  (forall e, e < n -> nth e t None = None \/ nth e t None = Some (elem16 k src e)) ->
  k <= count_some t -> rs_core16 k n t = Some src.
Proof. exact rs_core16_correct. Qed.

Theorem rs256_sessions_complete_iff_k_distinct :
  forall (cb : bool) (mk : nat -> N -> N) (k n : nat), 1 <= k <= n -> n <= 256 ->
  forall h : list (nat * N), (forall ev, In ev h -> fst ev < n) ->
  (rs_is_complete (run N (fun k' t => rs_core256 k' n t) cb mk k n h) = true <-> k <= ndistinct n (map fst h)).
Proof.
  intros cb mk k n [Hk1 Hkn] Hn h Hr.
  apply rs_complete_iff_k_distinct_proof; try assumption.
  exact (rs_core256_core_ok k n Hn).
Qed.

(* the property itself, for the composed model (API layer + decoding core), both submission APIs:
   once any k distinct codeword symbols have been submitted - any order, duplicates - decoding completes and
   the source table is the original k sources; with fewer than k the decoder never reports completion and
   of_finish_decoding returns FAILURE.  (One field element per symbol; a symbol of L bytes is L such columns.) *)
Theorem rs256_any_k_symbols_recover_the_block :
  forall (cb : bool) (k n : nat) (src : list N) (h : list (nat * N)),
  1 <= k <= n -> n <= 256 -> length src = k -> Forall (fun a => (a < 256)%N) src ->
  (forall ev, In ev h -> fst ev < n /\ snd ev = elem256 k src (fst ev)) ->
  k <= ndistinct n (map fst h) ->
  let core := fun k' t => rs_core256 k' n t in
  let r := rs_finish core cb mkid (run N core cb mkid k n h) in
  snd r = OK /\ rs_source_tab (fst r) = Some (map Some src).
Proof.
  intros cb k n src h Hk Hn Hls HF Hh Hd core.
  exact (gen_session_recovers N 0%N core cb mkid k n src _ (fun _ _ => eq_refl) (code256 k n src Hk Hn Hls HF) h Hh Hd).
Qed.

Theorem rs256_any_k_symbols_recover_the_block_bulk_api :
  forall (cb : bool) (k n : nat) (src : list N) (t : list (option N)),
  1 <= k <= n -> n <= 256 -> length src = k -> Forall (fun a => (a < 256)%N) src -> length t = n ->
  (forall e, e < n -> nth e t None = None \/ nth e t None = Some (elem256 k src e)) -> k <= count_some t ->
  let core := fun k' t => rs_core256 k' n t in
  let r := rs_finish core cb mkid (fst (rs_set_available (rs_init N k n) t)) in
  snd r = OK /\ rs_is_complete (fst r) = true /\ rs_source_tab (fst r) = Some (map Some src).
Proof.
  intros cb k n src t Hk Hn Hls HF HL Ht Hc core.
  exact (gen_avail_recovers N 0%N core cb mkid k n src _ (fun _ _ => eq_refl) (code256 k n src Hk Hn Hls HF) t HL Ht Hc).
Qed.

Theorem rs256_fewer_than_k_symbols_fail :
  forall (cb : bool) (mk : nat -> N -> N) (k n : nat) (h : list (nat * N)),
  1 <= k <= n -> n <= 256 -> (forall ev, In ev h -> fst ev < n) -> ndistinct n (map fst h) < k ->
  let core := fun k' t => rs_core256 k' n t in
  let r := rs_finish core cb mk (run N core cb mk k n h) in
  snd r = FAILURE /\ rs_source_tab (fst r) = None /\ rs_is_complete (run N core cb mk k n h) = false.
Proof. exact rs256_session_too_few. Qed.

Theorem rs16_any_k_symbols_recover_the_block :
  forall (cb : bool) (k n : nat) (src : list N) (h : list (nat * N)),
  1 <= k <= n -> n <= 16 -> length src = k -> Forall (fun a => (a < 16)%N) src ->
  (forall ev, In ev h -> fst ev < n /\ snd ev = elem16 k src (fst ev)) ->
  k <= ndistinct n (map fst h) ->
  let core := fun k' t => rs_core16 k' n t in
  let r := rs_finish core cb mkid (run N core cb mkid k n h) in
  snd r = OK /\ rs_source_tab (fst r) = Some (map Some src).
Proof.
  intros cb k n src h Hk Hn Hls HF Hh Hd core.
  exact (gen_session_recovers N 0%N core cb mkid k n src _ (fun _ _ => eq_refl) (code16 k n src Hk Hn Hls HF) h Hh Hd).
Qed.

Theorem rs16_fewer_than_k_symbols_fail :
  forall (cb : bool) (mk : nat -> N -> N) (k n : nat) (h : list (nat * N)),
  1 <= k <= n -> n <= 16 -> (forall ev, In ev h -> fst ev < n) -> ndistinct n (map fst h) < k ->
  let core := fun k' t => rs_core16 k' n t in
  let r := rs_finish core cb mk (run N core cb mk k n h) in
  snd r = FAILURE /\ rs_source_tab (fst r) = None /\ rs_is_complete (run N core cb mk k n h) = false.
Proof. exact rs16_session_too_few. Qed.

(* the same at the level of real symbols (vectors of L bytes; for GF(2^4) two field elements per byte), with the
   encoder model of C06 producing the block: encode8 k n L src e is source e for e < k and the repair symbol
   RSEnc.rs8_repair otherwise (the function the extracted model runs against the C encoders) *)
Theorem rs8_block_recovered_from_any_k_encoding_symbols :
  forall (cb : bool) (k n L : nat) (src : list sym),
  1 <= k <= n -> n <= 256 -> length src = k -> wf_block L src ->
  forall h : list (nat * sym), enc8_hist k n L src h -> k <= ndistinct n (map fst h) ->
  let r := rs_finish (core8_sym L n) cb (mkidB sym) (run sym (core8_sym L n) cb (mkidB sym) k n h) in
  snd r = OK /\ rs_source_tab (fst r) = Some (map Some src).
Proof. exact rs8_sym_session_recovers_the_sources. Qed.

Theorem rs8_block_fewer_than_k_encoding_symbols_fail :
  forall (cb : bool) (k n L : nat) (src : list sym),
  1 <= k <= n -> n <= 256 ->
  forall h : list (nat * sym), enc8_hist k n L src h -> ndistinct n (map fst h) < k ->
  let r := rs_finish (core8_sym L n) cb (mkidB sym) (run sym (core8_sym L n) cb (mkidB sym) k n h) in
  snd r = FAILURE /\ rs_source_tab (fst r) = None /\
  rs_is_complete (run sym (core8_sym L n) cb (mkidB sym) k n h) = false.
Proof. exact rs8_sym_session_too_few. Qed.

Theorem rs4_block_recovered_from_any_k_encoding_symbols :
  forall (cb : bool) (k n L : nat) (src : list sym),
  1 <= k <= n -> n <= 16 -> length src = k -> wf_block L src ->
  forall h : list (nat * sym), enc4_hist k n L src h -> k <= ndistinct n (map fst h) ->
  let r := rs_finish (core4_sym L n) cb (mkidB sym) (run sym (core4_sym L n) cb (mkidB sym) k n h) in
  snd r = OK /\ rs_source_tab (fst r) = Some (map Some src).
Proof. exact rs4_sym_session_recovers_the_sources. Qed.

Print Assumptions rs_complete_iff_k_distinct.
Print Assumptions rs8_block_recovered_from_any_k_encoding_symbols.
Print Assumptions rs4_block_recovered_from_any_k_encoding_symbols.
Print Assumptions rs256_any_k_symbols_recover_the_block.
Print Assumptions rs256_fewer_than_k_symbols_fail.
Print Assumptions rs16_any_k_symbols_recover_the_block.
Print Assumptions rs256_core_returns_the_sources.
Print Assumptions rs256_sessions_complete_iff_k_distinct.
Print Assumptions gf256_matrix_inversion_returns_the_inverse.
Print Assumptions gf256_matrix_inversion_fails_iff_singular.
Print Assumptions rs256_any_k_positions_determine_the_sources.
Print Assumptions rs16_any_k_positions_determine_the_sources.
Print Assumptions rs256_systematic.
Print Assumptions rs_finish_truthful.
