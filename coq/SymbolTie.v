(* The ESI <-> matrix-column convention of the models (ITRun.col_of: sources are columns r .. n-1, repairs 0 .. r-1) IS the
   library's: gen/GenSymbol.v is regenerated on every run from the macros of of_symbol.h (of_get_symbol_col,
   of_get_symbol_esi, of_is_source_symbol, of_is_repair_symbol; tools/gen_params.py through harness/wrap_macros.c).  For every
   session size the library accepts (k + r below 2^31) and every ESI / column below n, of_get_symbol_col is col_of and
   of_get_symbol_esi is its inverse: the models never convert back, so esi_of is written here, only to state that. *)
From Coq Require Import ZArith Arith Bool Lia.
From OFV Require Import CSem ITRun.
From OFV.gen Require Import GenSymbol.
Local Open Scope Z_scope.

Definition esi_of (k r col : nat) : nat := if (col <? r)%nat then (col + k)%nat else (col - r)%nat.

Lemma w32 z : 0 <= z < 2147483648 -> wraps32 (wrapu32 z) = z.
Proof.
  intros H. unfold wraps32, wraps, wrapu32, wrapu. change (2 ^ 32) with 4294967296. change (2 ^ (32 - 1)) with 2147483648.
  rewrite (Z.mod_small z) by lia. rewrite Z.mod_small by lia. lia.
Qed.

Theorem get_symbol_col_is_col_of : forall k r esi : nat, Z.of_nat k + Z.of_nat r < 2147483648 -> (esi < k + r)%nat ->
  get_symbol_col (Z.of_nat esi) (Z.of_nat r) (Z.of_nat k) = Some (Z.of_nat (col_of k r esi)).
Proof.
  intros k r esi Hn He. unfold get_symbol_col, col_of.
  destruct (Nat.ltb_spec esi k) as [H|H]; destruct (Z.ltb_spec (Z.of_nat esi) (Z.of_nat k)) as [H'|H']; try lia;
    rewrite w32 by lia; f_equal; lia.
Qed.

Theorem get_symbol_esi_is_esi_of : forall k r col : nat, Z.of_nat k + Z.of_nat r < 2147483648 -> (col < k + r)%nat ->
  get_symbol_esi (Z.of_nat col) (Z.of_nat r) (Z.of_nat k) = Some (Z.of_nat (esi_of k r col)).
Proof.
  intros k r col Hn Hc. unfold get_symbol_esi, esi_of.
  destruct (Nat.ltb_spec col r) as [H|H]; destruct (Z.ltb_spec (Z.of_nat col) (Z.of_nat r)) as [H'|H']; try lia;
    rewrite w32 by lia; f_equal; lia.
Qed.

Theorem col_esi_inverse : forall k r esi, (esi < k + r)%nat -> esi_of k r (col_of k r esi) = esi /\ (col_of k r esi < k + r)%nat.
Proof.
  intros k r esi H. unfold esi_of, col_of.
  destruct (Nat.ltb_spec esi k); [destruct (Nat.ltb_spec (esi + r) r)|destruct (Nat.ltb_spec (esi - k) r)]; lia.
Qed.

Theorem esi_col_inverse : forall k r col, (col < k + r)%nat -> col_of k r (esi_of k r col) = col /\ (esi_of k r col < k + r)%nat.
Proof.
  intros k r col H. unfold esi_of, col_of.
  destruct (Nat.ltb_spec col r); [destruct (Nat.ltb_spec (col + k) k)|destruct (Nat.ltb_spec (col - r) k)]; lia.
Qed.

Theorem is_source_symbol_is_below_k : forall k esi : nat,
  is_source_symbol (Z.of_nat esi) (Z.of_nat k) = Some (if (esi <? k)%nat then 1 else 0) /\
  is_repair_symbol (Z.of_nat esi) (Z.of_nat k) = Some (if (esi <? k)%nat then 0 else 1).
Proof.
  intros k esi. unfold is_source_symbol, is_repair_symbol.
  destruct (Nat.ltb_spec esi k); destruct (Z.ltb_spec (Z.of_nat esi) (Z.of_nat k)); try lia; split; reflexivity.
Qed.

Print Assumptions get_symbol_col_is_col_of.
Print Assumptions get_symbol_esi_is_esi_of.
Print Assumptions col_esi_inverse.
