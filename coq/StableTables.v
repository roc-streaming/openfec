(* Stability of the symbol tables of the decoder models: an entry that holds a symbol (received or
   already decoded) is never written again.  No hypothesis on the symbol values or on the xor, and no
   well-formedness of the states: the statements follow from the shape of the models alone: the LDPC
   streaming decoder (ITModel.decode, ITProofs.run), the ML finish (MLModel.simplify, MLModel.ml_finish),
   the Reed-Solomon API (RSApi.rs_decode_with_new_symbol, rs_finish, RSApiProofs.run).
   Beside that, what the developments over the logged model (Events.v), the ledger model (LdpcHeap.v) and the
   simplification (MLSimplify.v, MLNoDecode.v) need of the shape of the models: folds over an option state
   (fold_opt_rel), the row loop of simplify with the recursive call abstracted (srow, simplify_unfold), the exits of
   ml_finish (ml_finish_shape), and in Section Call one call of the streaming decoder cut into its steps - the one
   part that speaks of the states of a session (WF, Inv, PInv). *)
From Coq Require Import List Arith Bool Lia.
From OFV Require Import ListAux.
From OFV Require ITModel ITLemmas ITProofs MLModel DenseSolve RSApi RSApiProofs.
Import ListNotations.

(* a fold over an option state that stops at None: an invariant P and a preorder R follow the steps *)
Lemma fold_opt_rel {S X} (P : S -> Prop) (R : S -> S -> Prop) (F : option S -> X -> option S) :
  (forall s, R s s) -> (forall s1 s2 s3, R s1 s2 -> R s2 s3 -> R s1 s3) ->
  (forall x, F None x = None) ->
  (forall s x s', P s -> F (Some s) x = Some s' -> P s' /\ R s s') ->
  forall xs s s', P s -> fold_left F xs (Some s) = Some s' -> P s' /\ R s s'.
Proof.
  intros Hr Ht HN HS xs s s' Hs H.
  apply (fold_left_Some_inv (fun t => P t /\ R s t) F HN) with (l := xs) (s := s); auto.
  intros s1 x s2 [P1 R1] E1. destruct (HS s1 x s2 P1 E1). eauto.
Qed.

Lemma fold_opt_pre {S X} (R : S -> S -> Prop) (F : option S -> X -> option S) :
  (forall s, R s s) -> (forall s1 s2 s3, R s1 s2 -> R s2 s3 -> R s1 s3) ->
  (forall x, F None x = None) -> (forall s x s', F (Some s) x = Some s' -> R s s') ->
  forall xs s s', fold_left F xs (Some s) = Some s' -> R s s'.
Proof.
  intros Hr Ht HN HS xs s s' H. refine (proj2 (fold_opt_rel (fun _ => True) R F Hr Ht HN _ xs s s' I H)).
  intros s1 x s2 _ E. split; [exact I|exact (HS s1 x s2 E)].
Qed.

Definition Stab {A} (t t' : list (option A)) : Prop :=
  forall e x, nth e t None = Some x -> nth e t' None = Some x.

Lemma Stab_refl {A} (t : list (option A)) : Stab t t.
Proof. intros e x Hx. exact Hx. Qed.

Lemma Stab_trans {A} (t1 t2 t3 : list (option A)) : Stab t1 t2 -> Stab t2 t3 -> Stab t1 t3.
Proof. intros H12 H23 e x Hx. apply H23, H12, Hx. Qed.

Lemma Stab_upd {A} (t : list (option A)) c (v : option A) : nth c t None = None -> Stab t (ITModel.upd t c v).
Proof.
  intros Hc e x Hx. destruct (Nat.eq_dec c e) as [E|E].
  - subst e. rewrite Hc in Hx. discriminate.
  - rewrite ITLemmas.nth_upd_neq by exact E. exact Hx.
Qed.

Section LDPC.
Import ITModel MLModel.
Variable Sy : Type. Variable sxor : Sy -> Sy -> Sy. Variable s0 : Sy.
Notation st := (st Sy).

Definition TabContract (dec : st -> nat -> Sy -> option st) : Prop :=
  forall s c v s', dec s c v = Some s' -> Stab (tab s) (tab s').

(* the state on which a call goes on after the early completion test differs from s in the cursor only *)
Lemma early_fnd (s : st) c : exists i, snd (if r s <=? c then is_complete s else (false, s)) = set_fnd s i.
Proof. destruct (r s <=? c); [eexists; reflexivity|]. exists (fnd s). destruct s; reflexivity. Qed.

Lemma step2_tab (s : st) c v : tab (fst (step2 sxor s0 s c v)) = tab s.
Proof.
  unfold step2. apply (fold_left_inv (fun p : st * list nat => tab (fst p) = tab s)); [|reflexivity].
  intros [s1 L] row <-. pose proof (proj1 (ITProofs.step2_row_frame Sy sxor s0 s1 c v row)) as Hr.
  destruct (step2_row sxor s0 s1 c v row) as [s2 rdy]. exact Hr.
Qed.

Lemma step3_tab dec : TabContract dec -> forall (L : list nat) (s s' : st),
  step3 dec L s = Some s' -> Stab (tab s) (tab s').
Proof.
  intros Hdec. induction L as [|row L IH]; intros s s' H; cbn [step3] in H.
  - injection H as <-. apply Stab_refl.
  - unfold is_complete in H. cbv zeta in H. set (s1 := set_fnd s _) in H. change (tab s) with (tab s1).
    destruct (_ <=? _); [injection H as <-; apply Stab_refl|].
    destruct (getn (enc s1) row =? 1); [|exact (IH _ _ H)].
    destruct (nth row (rws s1) []) as [|cc [|cc2 rest]]; try discriminate.
    destruct (nth row (ct s1) None) as [t|]; [|discriminate].
    destruct (dec (consume s1 row) cc t) as [s2|] eqn:Hd; [|discriminate].
    exact (Stab_trans _ _ _ (Hdec _ _ _ _ Hd) (IH _ _ H)).
Qed.

(* a call on an unknown column: after the table write, the table changes through nested calls only *)
Lemma decode_fresh fuel (s : st) c v s' : TabContract (decode sxor s0 fuel) -> known s c = false ->
  decode sxor s0 (S fuel) s c v = Some s' -> Stab (upd (tab s) c (Some v)) (tab s').
Proof.
  intros IH Hk H. rewrite ITProofs.decode_unfold, Hk in H. cbv zeta in H.
  set (s1 := set_tab s c v) in H. change (upd (tab s) c (Some v)) with (tab s1).
  destruct (early_fnd s1 c) as [i E].
  destruct (if r s1 <=? c then is_complete s1 else (false, s1)) as [cf se]. cbn [fst snd] in *. subst se.
  destruct cf; [injection H as <-; apply Stab_refl|].
  pose proof (step2_tab (set_fnd s1 i) c v) as H2.
  destruct (step2 sxor s0 (set_fnd s1 i) c v) as [s2 L]. cbn [fst set_fnd tab] in H2.
  rewrite <- H2. exact (step3_tab _ IH _ _ _ H).
Qed.

(* the body of the row loop of simplify, with the recursive call abstracted *)
Definition srow (rec : st -> nat -> Sy -> option st) (c : nat) (v : Sy) (os : option st) (row : nat) : option st :=
  match os with None => None | Some s =>
    let t := match nth row (ct s) None with None => v | Some t => sxor t v end in
    let u := getn (unk s) row - 1 in
    let rw := rm c (nth row (rws s) []) in
    let s1 := set_row s row rw u (Some t) in
    if u =? 1 then
      match rw with
      | c' :: _ =>
        match nth c' (tab s1) None with
        | Some _ => Some s1
        | None => rec (set_tab (set_row s1 row (rm c' rw) (u - 1) None) c' t) c' t
        end
      | [] => None
      end
    else Some s1
  end.

Lemma simplify_unfold fuel (s : st) c v : simplify sxor (S fuel) s c v =
  match rows_with s c with
  | [] => Some s
  | rowsl =>
    let early := if r s <=? c then is_complete s else (false, s) in
    if fst early then Some (snd early) else
    fold_left (srow (simplify sxor fuel) c v) rowsl (Some (snd early))
  end.
Proof. reflexivity. Qed.

(* the simplification changes a state only by set_fnd, set_row and set_tab on an empty entry *)
Inductive Moves : st -> st -> Prop :=
| mv_refl s : Moves s s
| mv_trans s1 s2 s3 : Moves s1 s2 -> Moves s2 s3 -> Moves s1 s3
| mv_fnd s i : Moves s (set_fnd s i)
| mv_row s row rw u t : Moves s (set_row s row rw u t)
| mv_tab s c v : nth c (tab s) None = None -> Moves s (set_tab s c v).

Lemma srow_moves rec c v : (forall s c v s', rec s c v = Some s' -> Moves s s') -> forall (s : st) row s',
  srow rec c v (Some s) row = Some s' -> Moves s s'.
Proof.
  intros Hrec s row s' H. unfold srow in H. cbv zeta in H.
  destruct (getn (unk s) row - 1 =? 1); [|injection H as <-; apply mv_row].
  destruct (rm c (nth row (rws s) [])) as [|c' rest]; [discriminate|].
  set (s1 := set_row s row (c' :: rest) _ _) in H. change (tab s1) with (tab s) in H.
  destruct (nth c' (tab s) None) as [w|] eqn:Hc'; [injection H as <-; apply mv_row|].
  apply Hrec in H. refine (mv_trans _ _ _ _ H). refine (mv_trans _ _ _ _ (mv_tab _ c' _ _)); [|exact Hc'].
  exact (mv_trans _ _ _ (mv_row _ _ _ _ _) (mv_row _ _ _ _ _)).
Qed.

Lemma simplify_moves : forall fuel (s : st) c v s', simplify sxor fuel s c v = Some s' -> Moves s s'.
Proof.
  induction fuel as [|fuel IH]; intros s c v s' H; [discriminate|].
  rewrite simplify_unfold in H. destruct (rows_with s c) as [|row0 rowsl]; [injection H as <-; apply mv_refl|].
  cbv zeta in H. destruct (early_fnd s c) as [i E].
  destruct (if r s <=? c then is_complete s else (false, s)) as [cf se]. cbn [fst snd] in *. subst se.
  destruct cf; [injection H as <-; apply mv_fnd|].
  exact (mv_trans _ _ _ (mv_fnd s i) (fold_opt_pre Moves _ mv_refl mv_trans (fun _ => eq_refl) (srow_moves _ c v IH) _ _ _ H)).
Qed.

Lemma inject_fold_moves fuel : forall (l : list nat) (s s' : st),
  fold_left (inject sxor fuel) l (Some s) = Some s' -> Moves s s'.
Proof.
  apply (fold_opt_pre Moves _ mv_refl mv_trans); [reflexivity|]. intros s c s'. unfold inject.
  destruct (nth c (tab s) None) as [v|]; [apply simplify_moves|]. intros H. injection H as <-. apply mv_refl.
Qed.

Lemma Moves_Stab (s s' : st) : Moves s s' -> Stab (tab s) (tab s').
Proof.
  induction 1 as [s|s1 s2 s3 _ H12 _ H23|s i|s row rw u t|s c v Hc]; try apply Stab_refl.
  - exact (Stab_trans _ _ _ H12 H23).
  - apply Stab_upd. exact Hc.
Qed.

Lemma write_back_tab : forall (srcs : list nat) (x : list Sy) pos (tb : list (option Sy)),
  Stab tb (write_back s0 srcs x pos tb).
Proof.
  induction srcs as [|c srcs IH]; intros x pos tb; [apply Stab_refl|].
  cbn [write_back]. destruct (nth c tb None) as [w|] eqn:Hc; [apply IH|].
  exact (Stab_trans _ _ _ (Stab_upd _ _ _ Hc) (IH _ _ _)).
Qed.

Lemma take_ct_length : forall (idx : list nat) (ctl : list (option Sy)), length (snd (take_ct idx ctl)) = length ctl.
Proof.
  induction idx as [|j rest IH]; intros ctl; [reflexivity|].
  cbn [take_ct]. specialize (IH (upd ctl j None)). destruct (take_ct rest (upd ctl j None)) as [b ctl'].
  cbn [snd] in *. rewrite IH. apply ITLemmas.upd_length.
Qed.

Lemma ml_finish_shape fuel perm (s : st) :
  match fold_left (inject sxor fuel) (map (fun i => r s + i) (seq 0 (n s - r s)) ++ perm) (Some (prepar s)) with
  | None => ml_finish sxor s0 fuel perm s = None
  | Some sb => exists o, ml_finish sxor s0 fuel perm s = Some o /\
      r (o_st o) = r sb /\ length (ct (o_st o)) = length (ct sb) /\
      (o_solved o = false /\ tab (o_st o) = tab sb \/
       o_solved o = true /\ exists x pos,
         tab (o_st o) = write_back s0 (map (fun i => r sb + i) (seq 0 (n s - r s))) x pos (tab sb))
  end.
Proof.
  rewrite fold_left_app. unfold ml_finish, is_complete. cbv zeta. change (r (prepar s)) with (r s).
  destruct (fold_left (inject sxor fuel) perm _) as [sb|]; [|reflexivity].
  match goal with |- context [if ?c then _ else _] => destruct c end.
  - eexists. split; [reflexivity|]. split; [reflexivity|]. split; [reflexivity|]. left. split; reflexivity.
  - match goal with |- context [take_ct ?idx ?c] =>
      pose proof (take_ct_length idx c) as Hl; destruct (take_ct idx c) as [b ct'] end.
    cbn [r n rws unk enc ct tab fnd snd] in *.
    match goal with |- context [DenseSolve.solve ?a ?b ?c ?d ?e ?f] => destruct (DenseSolve.solve a b c d e f) as [x|] end.
    + eexists. split; [reflexivity|]. split; [reflexivity|]. split; [exact Hl|].
      right. split; [reflexivity|]. eexists _, _. reflexivity.
    + eexists. split; [reflexivity|]. split; [reflexivity|]. split; [exact Hl|]. left. split; reflexivity.
Qed.

Lemma ml_finish_moves fuel perm (s : st) o : ml_finish sxor s0 fuel perm s = Some o ->
  exists sb, Moves (prepar s) sb /\ r (o_st o) = r sb /\ length (ct (o_st o)) = length (ct sb)
    /\ (tab (o_st o) = tab sb \/ exists srcs x pos, tab (o_st o) = write_back s0 srcs x pos (tab sb)).
Proof.
  intros H. pose proof (ml_finish_shape fuel perm s) as Hs.
  destruct (fold_left (inject sxor fuel) _ (Some (prepar s))) as [sb|] eqn:Hf; [|congruence].
  destruct Hs as (o' & Ho & Pr & Pc & Pt). rewrite H in Ho. injection Ho as <-.
  exists sb. split; [exact (inject_fold_moves fuel _ _ _ Hf)|split; [exact Pr|split; [exact Pc|]]].
  destruct Pt as [(_ & Pt)|(_ & x & pos & Pt)]; [left; exact Pt|right; eexists _, x, pos; exact Pt].
Qed.
End LDPC.

Theorem decode_tab_stable (Sy : Type) (sxor : Sy -> Sy -> Sy) (s0 : Sy) :
  forall fuel (s : ITModel.st Sy) c v s', ITModel.decode sxor s0 fuel s c v = Some s' ->
  forall e x, nth e (ITModel.tab s) None = Some x -> nth e (ITModel.tab s') None = Some x.
Proof.
  induction fuel as [|fuel IH]; intros s c v s' H; [discriminate|].
  destruct (ITModel.known s c) eqn:Hk.
  - rewrite ITProofs.decode_unfold, Hk in H. injection H as <-. apply Stab_refl.
  - exact (Stab_trans _ _ _ (Stab_upd _ _ _ (ITLemmas.known_false_nth s c Hk)) (decode_fresh Sy sxor s0 fuel s c v s' IH Hk H)).
Qed.

Theorem run_tab_stable (Sy : Type) (sxor : Sy -> Sy -> Sy) (s0 : Sy) (H0 : list (list nat)) (R0 N0 : nat) :
  forall fuel (h1 h2 : list (nat * Sy)) (s1 s2 : ITModel.st Sy),
  ITProofs.run Sy sxor s0 H0 R0 N0 fuel h1 = Some s1 ->
  ITProofs.run Sy sxor s0 H0 R0 N0 fuel (h1 ++ h2) = Some s2 ->
  forall e x, nth e (ITModel.tab s1) None = Some x -> nth e (ITModel.tab s2) None = Some x.
Proof.
  intros fuel h1 h2 s1 s2 H1 H2. unfold ITProofs.run in *. rewrite fold_left_app, H1 in H2.
  refine (fold_opt_pre (fun s s' => Stab (ITModel.tab s) (ITModel.tab s')) _ _ _ (fun _ => eq_refl) _ h2 s1 s2 H2).
  - intros s. apply Stab_refl.
  - intros sa sb sc. apply Stab_trans.
  - intros s ev s'. exact (decode_tab_stable Sy sxor s0 fuel s _ _ s').
Qed.

Theorem decode_stores_submitted (Sy : Type) (sxor : Sy -> Sy -> Sy) (s0 : Sy) :
  forall fuel (s : ITModel.st Sy) c v s', ITModel.decode sxor s0 fuel s c v = Some s' ->
  c < length (ITModel.tab s) -> nth c (ITModel.tab s) None = None -> nth c (ITModel.tab s') None = Some v.
Proof.
  intros [|fuel] s c v s' H Hc Hn; [discriminate|].
  refine (decode_fresh Sy sxor s0 fuel s c v s' (decode_tab_stable Sy sxor s0 fuel) _ H c v _).
  - unfold ITModel.known. rewrite Hn. reflexivity.
  - apply ITLemmas.nth_upd_eq. exact Hc.
Qed.

Theorem simplify_tab_stable (Sy : Type) (sxor : Sy -> Sy -> Sy) fuel (s : ITModel.st Sy) c v s' :
  MLModel.simplify sxor fuel s c v = Some s' ->
  forall e x, nth e (ITModel.tab s) None = Some x -> nth e (ITModel.tab s') None = Some x.
Proof. intros H. exact (Moves_Stab Sy _ _ (simplify_moves Sy sxor fuel s c v s' H)). Qed.

Theorem ml_finish_tab_stable (Sy : Type) (sxor : Sy -> Sy -> Sy) (s0 : Sy) fuel perm (s : ITModel.st Sy) o :
  MLModel.ml_finish sxor s0 fuel perm s = Some o ->
  forall e x, nth e (ITModel.tab s) None = Some x -> nth e (ITModel.tab (MLModel.o_st o)) None = Some x.
Proof.
  intros H. destruct (ml_finish_moves Sy sxor s0 fuel perm s o H) as (sb & Hm & _ & _ & Pt).
  apply (Stab_trans _ _ _ (Moves_Stab Sy _ _ Hm)).
  destruct Pt as [->|(srcs & x & pos & ->)]; [apply Stab_refl|apply write_back_tab].
Qed.

(* One call of the streaming decoder on the states of a session (ITProofs: WF, Inv / PInv, complete or not), cut at
   the points where the logged model (Events.v) and the ledger model (LdpcHeap.v) do something of their own: what
   they may assume there about the control state. *)
Section Call.
Import ITModel ITProofs.
Variable Sy : Type. Variable sxor : Sy -> Sy -> Sy. Variable s0 : Sy.
Notation st := (st Sy).
Variable H0 : list (list nat).
Variable R0 N0 : nat.
Hypothesis H0_len : length H0 = R0.
Hypothesis H0_nodup : forall i, i < R0 -> NoDup (nth i H0 []).
Hypothesis H0_range : forall i c, i < R0 -> In c (nth i H0 []) -> c < N0.
Hypothesis H0_deg : forall i, i < R0 -> 2 <= length (nth i H0 []).
Hypothesis R_le_N : R0 <= N0.

Notation WF := (WF Sy R0 N0).
Notation Inv := (Inv Sy H0 R0).
Notation PInv := (PInv Sy H0 R0).
Notation iscomp := (iscomp Sy R0 N0).

Lemma Good_PInv (s : st) c : Good Sy H0 R0 N0 s -> iscomp s \/ PInv s c.
Proof. intros (_ & [Hc|(HI & _)]); [left; exact Hc|right; exact (Inv_PInv Sy H0 R0 s c HI)]. Qed.

(* an iteration of step 3: the completion test moves the cursor only; if it fails and the row is ready, the row
   holds one column cc and a partial sum t, and the nested call on (cc, t) is within the contract *)
Lemma step3_iter dec (s : st) row : Contract Sy H0 R0 N0 dec -> WF s -> iscomp s \/ Inv s ->
  let '(b, s1) := is_complete s in
  WF s1 /\ tab s1 = tab s /\ ct s1 = ct s /\
  (b = false -> Inv s1 /\ (getn (enc s1) row = 1 ->
     exists cc t, nth row (rws s1) [] = [cc] /\ nth row (ct s1) None = Some t
       /\ WF (consume s1 row) /\ PInv (consume s1 row) cc /\ known (consume s1 row) cc = false /\ cc < N0
       /\ forall s2, dec (consume s1 row) cc t = Some s2 -> WF s2 /\ (iscomp s2 \/ Inv s2))).
Proof.
  intros HC W HG. pose proof (is_complete_spec Sy H0 R0 N0 H0_len R_le_N s W) as Hs.
  destruct (is_complete s) as [b s1]. destruct Hs as (W1 & T1 & A1 & B1 & C1 & D1 & Hb).
  split; [exact W1|split; [exact T1|split; [exact D1|]]]. intros ->.
  assert (HI : Inv s) by (destruct HG as [Hc|HI]; [apply Hb in Hc; discriminate Hc|exact HI]).
  pose proof (Inv_fields_eq Sy H0 R0 s s1 T1 A1 B1 C1 D1 HI) as HI1. split; [exact HI1|]. intros E1.
  (* a row whose counter is 1 is a row of the matrix *)
  assert (Hrow : row < R0).
  { rewrite <- (wf_enc Sy R0 N0 s1 W1). destruct (Nat.lt_ge_cases row (length (enc s1))) as [Hlt|Hge]; [exact Hlt|].
    unfold getn in E1. rewrite (nth_overflow _ _ Hge) in E1. discriminate E1. }
  destruct (ready_row_shape Sy H0 R0 N0 H0_len H0_deg R_le_N s1 row Hrow (HI1 row Hrow) E1) as (cc & t & Hr & Hct & HU).
  destruct (consume_spec Sy sxor s0 H0 R0 N0 H0_len H0_range R_le_N s1 row cc t W1 HI1 Hrow Hr Hct HU)
    as (Wc & Pc & _ & Kc & Cc & _).
  exists cc, t. split; [exact Hr|split; [exact Hct|split; [exact Wc|split; [exact Pc|split; [exact Kc|split; [exact Cc|]]]]]].
  intros s2 Ed. destruct (HC _ _ _ _ Wc Pc Kc Cc Ed) as (W2 & _ & _ & _ & Post2).
  split; [exact W2|]. destruct Post2 as [Hc2|(HI2 & _)]; [left; exact Hc2|right; exact HI2].
Qed.

(* a call on an unknown column up to step 3: the early completion test answers b and moves the cursor only; step 2
   leaves a well-formed state, complete or within Inv, whose table differs from that of s in the new entry *)
Lemma decode_steps12 (s : st) e v : WF s -> iscomp s \/ PInv s e -> known s e = false -> e < N0 ->
  exists b i,
    (if r (set_tab s e v) <=? e then is_complete (set_tab s e v) else (false, set_tab s e v))
      = (b, set_fnd (set_tab s e v) i)
    /\ WF (set_fnd (set_tab s e v) i)
    /\ let '(s2, L) := step2 sxor s0 (set_fnd (set_tab s e v) i) e v in
       WF s2 /\ tab s2 = upd (tab s) e (Some v) /\ (iscomp s2 \/ Inv s2).
Proof.
  intros W HG Hke He. destruct (set_tab_wf Sy H0 R0 N0 H0_len R_le_N s e v W He) as (W1 & Hk1). set (s1 := set_tab s e v) in *.
  assert (Wx : WF (snd (if r s1 <=? e then is_complete s1 else (false, s1)))).
  { destruct (r s1 <=? e); [|exact W1]. pose proof (is_complete_spec Sy H0 R0 N0 H0_len R_le_N s1 W1) as Hs.
    destruct (is_complete s1). apply Hs. }
  destruct (early_fnd Sy s1 e) as [i E].
  destruct (if r s1 <=? e then is_complete s1 else (false, s1)) as [b sx]. cbn [snd] in *. subst sx.
  exists b, i. split; [reflexivity|]. split; [exact Wx|]. set (sx := set_fnd s1 i) in *.
  pose proof (step2_wf Sy sxor s0 H0 R0 N0 H0_len H0_nodup H0_range H0_deg R_le_N sx e v Wx) as H12. destruct HG as [Hc|HP].
  - destruct (step2 sxor s0 sx e v) as [s2 L]. destruct H12 as (W2 & T2). split; [exact W2|split; [exact T2|left]].
    apply (iscomp_tab_eq Sy R0 N0 sx s2 T2). intros c Hcc. exact (eq_trans (Hk1 c) (f_equal (fun b => b || (c =? e)) (Hc c Hcc))).
  - (* sx has the rows of s: its row invariant is that of s, read with e not yet counted as known *)
    assert (Hrows : forall j, j < R0 -> rowinv Sy H0 (fun c => known sx c && negb (c =? e)) (Some e) sx j).
    { intros j Hj. refine (rowinv_kn_ext Sy H0 _ _ _ s j _ (HP j Hj)).
      intros c. change (known sx c) with (known s1 c). rewrite Hk1.
      destruct (Nat.eqb_spec c e) as [->|_]; [rewrite Hke; reflexivity|]. rewrite orb_false_r, andb_true_r. reflexivity. }
    assert (Hkex : known sx e = true) by (change (known sx e) with (known s1 e); rewrite Hk1, Nat.eqb_refl; apply orb_true_r).
    pose proof (step2_spec Sy sxor s0 H0 R0 N0 H0_len H0_nodup H0_range H0_deg R_le_N sx e v Wx He Hkex Hrows) as H2.
    destruct (step2 sxor s0 sx e v) as [s2 L]. destruct H12 as (W2 & T2), H2 as (_ & _ & _ & I2 & _).
    split; [exact W2|split; [exact T2|right; exact I2]].
Qed.
End Call.

Section RS.
Import RSApi.
Variable B : Type.
Variable core : nat -> list (option B) -> option (list B).
Variable cb : bool. Variable mk : nat -> B -> B.

Lemma fill_tab : forall (vals : list B) (t : list (option B)) i ev, Stab t (fst (fill cb mk vals t i ev)).
Proof.
  induction vals as [|v vals IH]; intros t i ev; [apply Stab_refl|].
  destruct t as [|e0 t]; [apply Stab_refl|]. cbn [fill]. destruct e0 as [b0|].
  - specialize (IH t (S i) ev). destruct (fill cb mk vals t (S i) ev) as [t2 ev2]. cbn [fst] in *.
    intros [|e] x Hx; [exact Hx|]. cbn [nth] in *. apply IH. exact Hx.
  - specialize (IH t (S i) (if cb then ev ++ [i] else ev)).
    destruct (fill cb mk vals t (S i) (if cb then ev ++ [i] else ev)) as [t2 ev2]. cbn [fst] in *.
    intros [|e] x Hx; [discriminate|]. cbn [nth] in *. apply IH. exact Hx.
Qed.

Lemma rs_finish_Stab (s : rs B) : Stab (tab s) (tab (fst (rs_finish core cb mk s))).
Proof.
  unfold rs_finish. destruct (fin s); [apply Stab_refl|].
  destruct (navail s <? rk s); [apply Stab_refl|].
  destruct (navail_src s =? rk s); [apply Stab_refl|].
  destruct (core (rk s) (tab s)) as [vals|]; [|apply Stab_refl].
  pose proof (fill_tab vals (tab s) 0 (evs s)) as Hf.
  destruct (fill cb mk vals (tab s) 0 (evs s)) as [t2 ev2]. exact Hf.
Qed.

Lemma rs_decode_fresh (s : rs B) esi b : fin s = false -> nth esi (tab s) None = None ->
  Stab (upd (tab s) esi (Some b)) (tab (fst (rs_decode_with_new_symbol core cb mk s esi b))).
Proof.
  intros Hf Hn. unfold rs_decode_with_new_symbol. rewrite Hf, Hn. cbn [rk rn tab navail navail_src fin evs].
  match goal with |- context [if ?c then _ else _] => destruct c end; [apply Stab_refl|].
  match goal with |- context [if ?c then _ else _] => destruct c end; [|apply Stab_refl].
  match goal with |- context [rs_finish core cb mk ?s1] =>
    pose proof (rs_finish_Stab s1) as HF; destruct (rs_finish core cb mk s1) as [s2 stt] end.
  cbn [fst tab] in HF. destruct stt; exact HF.
Qed.

Lemma rs_decode_Stab (s : rs B) esi b : Stab (tab s) (tab (fst (rs_decode_with_new_symbol core cb mk s esi b))).
Proof.
  destruct (fin s) eqn:Hf.
  - unfold rs_decode_with_new_symbol. rewrite Hf. apply Stab_refl.
  - destruct (nth esi (tab s) None) as [w|] eqn:Hn.
    + unfold rs_decode_with_new_symbol. rewrite Hf, Hn. apply Stab_refl.
    + apply (Stab_trans _ (upd (tab s) esi (Some b))); [|apply rs_decode_fresh; assumption].
      rewrite <- ITLemmas.upd_same. apply Stab_upd. exact Hn.
Qed.

Lemma rs_fold_Stab (h : list (nat * B)) (s : rs B) :
  Stab (tab s) (tab (fold_left (RSApiProofs.step B core cb mk) h s)).
Proof.
  apply (fold_left_inv (fun s' => Stab (tab s) (tab s'))); [|apply Stab_refl].
  intros s1 ev H1. exact (Stab_trans _ _ _ H1 (rs_decode_Stab s1 (fst ev) (snd ev))).
Qed.
End RS.

Theorem rs_step_tab_stable (B : Type) (core : nat -> list (option B) -> option (list B)) (cb : bool)
  (mk : nat -> B -> B) (s : RSApi.rs B) (esi : nat) (b : B) :
  forall e x, nth e (RSApi.tab s) None = Some x ->
              nth e (RSApi.tab (fst (RSApi.rs_decode_with_new_symbol core cb mk s esi b))) None = Some x.
Proof. exact (rs_decode_Stab B core cb mk s esi b). Qed.

Theorem rs_finish_tab_stable (B : Type) (core : nat -> list (option B) -> option (list B)) (cb : bool)
  (mk : nat -> B -> B) (s : RSApi.rs B) :
  forall e x, nth e (RSApi.tab s) None = Some x ->
              nth e (RSApi.tab (fst (RSApi.rs_finish core cb mk s))) None = Some x.
Proof. exact (rs_finish_Stab B core cb mk s). Qed.

Theorem rs_run_tab_stable (B : Type) (core : nat -> list (option B) -> option (list B)) (cb : bool)
  (mk : nat -> B -> B) (k n : nat) (h1 h2 : list (nat * B)) :
  forall e x, nth e (RSApi.tab (RSApiProofs.run B core cb mk k n h1)) None = Some x ->
              nth e (RSApi.tab (RSApiProofs.run B core cb mk k n (h1 ++ h2))) None = Some x.
Proof. unfold RSApiProofs.run. rewrite fold_left_app. apply rs_fold_Stab. Qed.

(* a fresh in-range symbol submitted to a session that is not finished is stored as submitted
   (the very buffer b), whatever else the call does (including the decoding it may trigger) *)
Theorem rs_step_stores_submitted (B : Type) (core : nat -> list (option B) -> option (list B)) (cb : bool)
  (mk : nat -> B -> B) (s : RSApi.rs B) (esi : nat) (b : B) :
  RSApi.fin s = false -> esi < length (RSApi.tab s) -> nth esi (RSApi.tab s) None = None ->
  nth esi (RSApi.tab (fst (RSApi.rs_decode_with_new_symbol core cb mk s esi b))) None = Some b.
Proof.
  intros Hf Hl Hn. apply (rs_decode_fresh B core cb mk s esi b Hf Hn).
  apply nth_upd_eq. exact Hl.
Qed.

(* ... and it stays there for the rest of the session *)
Theorem rs_run_keeps_submitted (B : Type) (core : nat -> list (option B) -> option (list B)) (cb : bool)
  (mk : nat -> B -> B) (k n : nat) (h1 h2 : list (nat * B)) (esi : nat) (b : B) :
  let s := RSApiProofs.run B core cb mk k n h1 in
  RSApi.fin s = false -> esi < length (RSApi.tab s) -> nth esi (RSApi.tab s) None = None ->
  nth esi (RSApi.tab (RSApiProofs.run B core cb mk k n (h1 ++ (esi, b) :: h2))) None = Some b.
Proof.
  intros s Hf Hl Hn.
  replace (h1 ++ (esi, b) :: h2) with ((h1 ++ [(esi, b)]) ++ h2) by (rewrite <- app_assoc; reflexivity).
  apply rs_run_tab_stable. unfold RSApiProofs.run. rewrite fold_left_app. cbn [fold_left].
  unfold RSApiProofs.step at 1. cbn [fst snd].
  apply rs_step_stores_submitted; assumption.
Qed.

Print Assumptions decode_tab_stable.
Print Assumptions run_tab_stable.
Print Assumptions decode_stores_submitted.
Print Assumptions simplify_tab_stable.
Print Assumptions ml_finish_tab_stable.
Print Assumptions rs_step_tab_stable.
Print Assumptions rs_finish_tab_stable.
Print Assumptions rs_run_tab_stable.
Print Assumptions rs_step_stores_submitted.
Print Assumptions rs_run_keeps_submitted.
