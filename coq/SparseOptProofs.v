(* C17, continued: set-level specifications of the remaining copy operations of the sparse-matrix model.
   The plain copies (copyrows, copycols, dense round trip) are insertions into a cleared destination
   (s_copy_filled, into the given one: Properties_C17.v).  For the "optimised" copies of SparseOpt.v (s_insert_opt with a column hint,
   s_copyrows_opt, s_copycols_opt) the hinted column walk yields what of_mod2sparse_insert yields, the destination is not
   cleared, and the copy stops at the first out-of-range source index.
   Every copy is the insertion of a list of pairs (insert_all); the optimised ones are shown equal to the
   insertion of the same pairs as the plain ones, so one statement per direction (insert_rows_spec,
   insert_cols_spec) serves all of them. *)
From Coq Require Import Arith List Bool Lia.
From OFV Require Import ListAux Sparse SparseProofs SparseOpt.
Import ListNotations.

Lemma has_range m i j : WF m -> has m i j = true -> i < nr m /\ j < nc m.
Proof. intros W. apply (wf_row m i W). Qed.

Lemma has_col m i j : WF m -> has m i j = true -> In i (nth j (cls m) []).
Proof. intros W H. destruct (has_range m i j W H) as (Hi & Hj). apply (wf_cons m W i j Hi Hj), has_In, H. Qed.

Lemma col_In_has m i j : WF m -> j < nc m -> (In i (nth j (cls m) []) <-> i < nr m /\ has m i j = true).
Proof.
  intros W Hj. rewrite has_In. split.
  - intros Hin. pose proof (proj2 (wf_cs m W j Hj) i Hin) as Hi. split; [exact Hi|]. apply (wf_cons m W i j Hi Hj), Hin.
  - intros (_ & Hh). apply (has_col m i j W), has_In, Hh.
Qed.

(* rows 0 .. p-1 of the destination receive rows rows[0] .. rows[p-1] of m, by insertion in the C's loop order *)
Lemma insert_rows_spec m r rows p : WF m -> WF r -> nc m <= nc r -> p <= nr r -> (forall i, i < p -> nth i rows 0 < nr m) ->
  adds r (insert_all r (flat_map (fun i => map (fun j => (i, j)) (nth (nth i rows 0) (rws m) [])) (seq 0 p)))
       (fun i j => (i <? p) && has m (nth i rows 0) j).
Proof.
  intros Wm Wr Hc Hp Hrows. apply insert_all_set; [exact Wr| |].
  - intros i j. rewrite (in_rowpairs (fun i => nth (nth i rows 0) (rws m) [])), andb_true_iff, Nat.ltb_lt, has_In. reflexivity.
  - intros i j E. apply andb_true_iff in E as (Hi & Hh). apply Nat.ltb_lt in Hi. apply (has_range m _ _ Wm) in Hh. lia.
Qed.

Lemma insert_cols_spec m r cols p : WF m -> WF r -> nr m <= nr r -> p <= nc r -> (forall j, j < p -> nth j cols 0 < nc m) ->
  adds r (insert_all r (flat_map (fun j => map (fun i => (i, j)) (nth (nth j cols 0) (cls m) [])) (seq 0 p)))
       (fun i j => (j <? p) && (i <? nr m) && has m i (nth j cols 0)).
Proof.
  intros Wm Wr Hr Hp Hcols. apply insert_all_set; [exact Wr| |].
  - intros i j. rewrite (in_colpairs (fun j => nth (nth j cols 0) (cls m) [])), !andb_true_iff, !Nat.ltb_lt. split.
    + intros (Hj & Hi). apply (col_In_has m i _ Wm (Hcols j Hj)) in Hi. tauto.
    + intros ((Hj & Hi) & Hh). split; [exact Hj|]. apply (col_In_has m i _ Wm (Hcols j Hj)). tauto.
  - intros i j E. apply andb_true_iff in E as (E & _). apply andb_true_iff in E as (Hj & Hi). apply Nat.ltb_lt in Hj, Hi. lia.
Qed.

Theorem copyrows_spec m r rows : WF m -> WF r -> nc m <= nc r -> (forall i, i < nr r -> nth i rows 0 < nr m) ->
  WF (s_copyrows m r rows) /\ nr (s_copyrows m r rows) = nr r /\ nc (s_copyrows m r rows) = nc r /\
  forall i j, has (s_copyrows m r rows) i j = (i <? nr r) && has m (nth i rows 0) j.
Proof.
  intros Wm Wr Hc Hrows. unfold s_copyrows. destruct (Nat.ltb_spec (nc r) (nc m)); [lia|].
  apply adds_cleared, (insert_rows_spec m (s_clear r) rows (nr r) Wm (proj1 (clear_wf r)) Hc (le_n _) Hrows).
Qed.

Theorem copycols_spec m r cols : WF m -> WF r -> nr m <= nr r -> (forall j, j < nc r -> nth j cols 0 < nc m) ->
  WF (s_copycols m r cols) /\ nr (s_copycols m r cols) = nr r /\ nc (s_copycols m r cols) = nc r /\
  forall i j, has (s_copycols m r cols) i j = (j <? nc r) && (i <? nr m) && has m i (nth j cols 0).
Proof.
  intros Wm Wr Hr Hcols. unfold s_copycols. destruct (Nat.ltb_spec (nr r) (nr m)); [lia|].
  apply adds_cleared, (insert_cols_spec m (s_clear r) cols (nc r) Wm (proj1 (clear_wf r)) Hr (le_n _) Hcols).
Qed.

Lemma to_dense_nth m dr dc i j :
  nth j (nth i (s_to_dense m dr dc) []) false = (i <? dr) && (j <? dc) && ((i <? nr m) && has m i j).
Proof.
  unfold s_to_dense. destruct (Nat.ltb_spec i dr) as [Hi|Hi].
  - rewrite nth_map_seq by exact Hi. destruct (Nat.ltb_spec j dc) as [Hj|Hj]; [now rewrite nth_map_seq|].
    now rewrite nth_overflow by (rewrite map_length, seq_length; exact Hj).
  - rewrite (nth_overflow _ []) by (rewrite map_length, seq_length; exact Hi). now destruct j.
Qed.

(* the pairs that the conversion from dense inserts are the true cells: outside the table nth reads false *)
Lemma in_dense_pairs (d : list (list bool)) i j :
  In (i, j) (flat_map (fun i => flat_map (fun j => if nth j (nth i d []) false then [(i, j)] else [])
                                         (seq 0 (length (nth i d [])))) (seq 0 (length d)))
  <-> nth j (nth i d []) false = true.
Proof.
  rewrite in_flat_map. split.
  - intros (i' & _ & H). apply in_flat_map in H as (j' & _ & H).
    destruct (nth j' (nth i' d []) false) eqn:E; [|destruct H]. destruct H as [H|[]]. now inversion H; subst.
  - intros E. assert (Hj : j < length (nth i d [])).
    { destruct (Nat.lt_ge_cases j (length (nth i d []))) as [H|H]; [exact H|]. now rewrite (nth_overflow _ false H) in E. }
    assert (Hi : i < length d).
    { destruct (Nat.lt_ge_cases i (length d)) as [H|H]; [exact H|]. rewrite (nth_overflow _ [] H) in Hj. inversion Hj. }
    exists i. split; [apply in_seq; lia|]. apply in_flat_map. exists j. split; [apply in_seq; lia|]. rewrite E. now left.
Qed.

Theorem dense_roundtrip m r : WF m -> WF r -> nr r = nr m -> nc r = nc m ->
  WF (s_from_dense (s_to_dense m (nr m) (nc m)) r) /\
  nr (s_from_dense (s_to_dense m (nr m) (nc m)) r) = nr r /\ nc (s_from_dense (s_to_dense m (nr m) (nc m)) r) = nc r /\
  forall i j, i < nr m -> j < nc m -> has (s_from_dense (s_to_dense m (nr m) (nc m)) r) i j = has m i j.
Proof.
  intros Wm Wr En Ec. unfold s_from_dense.
  pose proof (insert_all_set (s_clear r) _ _ (proj1 (clear_wf r)) (in_dense_pairs (s_to_dense m (nr m) (nc m)))) as A.
  apply adds_cleared in A.
  - destruct A as (W' & En' & Ec' & Hh). split; [exact W'|]. split; [exact En'|]. split; [exact Ec'|].
    intros i j Hi Hj. rewrite Hh, to_dense_nth. apply Nat.ltb_lt in Hi, Hj. now rewrite Hi, Hj.
  - intros i j E. rewrite to_dense_nth in E. apply andb_true_iff in E as (E & _). apply andb_true_iff in E as (Hi & Hj).
    apply Nat.ltb_lt in Hi, Hj. simpl. lia.
Qed.

Lemma ins_from_before h x : forall l, ssorted l -> In h l -> h < x -> ins_from h x l = ins_before x l.
Proof.
  induction l as [|y t IH]; intros Hs Hin Hlt; [destruct Hin|].
  cbn [ins_from]. destruct (Nat.eqb_spec y h) as [E|Hne]; [reflexivity|].
  destruct Hs as (Hy & Ht). destruct Hin as [E|Hin]; [congruence|].
  rewrite (IH Ht Hin Hlt). cbn [ins_before]. specialize (Hy h Hin).
  destruct (Nat.ltb_spec y x); [reflexivity|lia].
Qed.

Lemma ins_from_fast h x l : ssorted l -> In h l -> h < x -> ~ In x l -> ins_fast x l = Some (ins_from h x l).
Proof.
  intros Hs Hin Hlt Hn. now rewrite (ins_from_before h x l Hs Hin Hlt), (ins_fast_before x l Hs), (proj2 (mem_false x l) Hn).
Qed.

(* the hint is an entry of the column, not below row i (it is i itself when (i, j) was just found or inserted) *)
Definition hint_ok (m : smat) (i j : nat) (hint : option nat) : Prop :=
  match hint with None => True | Some h => In h (nth j (cls m) []) /\ h <= i end.

Theorem insert_opt_spec m i j hint : WF m -> i < nr m -> j < nc m -> hint_ok m i j hint ->
  s_insert_opt m i j hint = s_insert m i j.
Proof.
  intros W Hi Hj Hh. rewrite (s_insert_inrange m i j W Hi Hj). unfold s_insert_opt, has.
  destruct (Nat.leb_spec (nr m) i); [lia|]. destruct (Nat.leb_spec (nc m) j); [lia|]. cbn [orb].
  rewrite (ins_fast_before j) by apply (wf_rs m W i Hi).
  destruct (mem j (nth i (rws m) [])) eqn:E; [reflexivity|].
  assert (Ec : col_ins hint i (nth j (cls m) []) = ins_before i (nth j (cls m) [])).
  { destruct hint as [h|]; [|reflexivity]. destruct Hh as (Hin & Hle).
    apply ins_from_before; [apply (wf_cs m W j Hj)|exact Hin|].
    (* h = i would put (i, j) into the column, so into the row *)
    assert (h <> i) by (intros ->; apply (wf_cons m W i j Hi Hj), mem_In in Hin; congruence). lia. }
  rewrite Ec. now destruct (pool_take m).
Qed.

(* first index i <= k < i + n with bound <= idx[k], or i + n *)
Fixpoint first_bad (bound : nat) (idx : list nat) (i n : nat) : nat :=
  match n with O => i | S n' => if bound <=? nth i idx 0 then i else first_bad bound idx (S i) n' end.
Definition first_bad_row (m : smat) (rows : list nat) (n : nat) : nat := first_bad (nr m) rows 0 n.
Definition first_bad_col (m : smat) (cols : list nat) (n : nat) : nat := first_bad (nc m) cols 0 n.

Lemma first_bad_spec bound idx : forall n i,
  i <= first_bad bound idx i n <= i + n /\
  (forall k, i <= k < first_bad bound idx i n -> nth k idx 0 < bound) /\
  (first_bad bound idx i n < i + n -> bound <= nth (first_bad bound idx i n) idx 0).
Proof.
  induction n as [|n IH]; intros i; cbn [first_bad].
  - split; [lia|]. split; intros; lia.
  - destruct (Nat.leb_spec bound (nth i idx 0)) as [Hb|Hg].
    + split; [lia|]. split; [intros; lia|]. intros _. exact Hb.
    + destruct (IH (S i)) as (A & B & C). split; [lia|]. split.
      * intros k Hk. destruct (Nat.eq_dec k i) as [->|Hne]; [exact Hg|]. apply B. lia.
      * intros Hp. apply C. lia.
Qed.

Lemma first_bad_all bound idx n i : (forall k, i <= k < i + n -> nth k idx 0 < bound) -> first_bad bound idx i n = i + n.
Proof.
  intros Hall. destruct (first_bad_spec bound idx n i) as (A & _ & C).
  destruct (Nat.lt_ge_cases (first_bad bound idx i n) (i + n)) as [H|H]; [|lia].
  specialize (Hall _ (conj (proj1 A) H)). specialize (C H). lia.
Qed.

(* the table __parsing: every slot c is empty or holds a row h with (h, c) an entry of r, h not below the current row *)
Definition hints_ok (r : smat) (i : nat) (hints : list (option nat)) : Prop :=
  forall c h, nth c hints None = Some h -> has r h c = true /\ h <= i.

(* one source row: the hinted insertions are the plain insertions of its pairs, and leave the table in order *)
Lemma cro_row_eq i : forall cols r hints, WF r -> i < nr r -> (forall c, In c cols -> c < nc r) -> hints_ok r i hints ->
  fst (cro_row r i cols hints) = insert_all r (map (fun c => (i, c)) cols) /\
  hints_ok (insert_all r (map (fun c => (i, c)) cols)) i (snd (cro_row r i cols hints)).
Proof.
  induction cols as [|c t IH]; intros r hints W Hi Hcols Hok; [split; [reflexivity|exact Hok]|].
  cbn [cro_row map]. rewrite insert_all_cons. cbn [fst snd]. assert (Hc : c < nc r) by (apply Hcols; now left).
  rewrite (insert_opt_spec r i c _ W Hi Hc).
  2:{ destruct (nth c hints None) as [h|] eqn:E; [|exact I]. destruct (Hok c h E) as (B & C).
      split; [apply (has_col r h c W B)|exact C]. }
  pose proof (insert_spec r i c W Hi Hc) as HI. destruct (s_insert r i c) as [r1 st].
  destruct HI as (W1 & En1 & Ec1 & Hh1 & _). cbn [fst].
  apply IH; [exact W1|lia|intros c' Hc'; rewrite Ec1; apply Hcols; now right|].
  intros c' h Hnth. rewrite Hh1.
  rewrite nth_upd in Hnth. destruct ((c' =? c) && (c <? length hints)) eqn:E.
  - apply andb_true_iff in E as (->%Nat.eqb_eq & _). injection Hnth as <-. rewrite !Nat.eqb_refl, orb_true_r. auto.
  - destruct (Hok c' h Hnth) as (C & D). rewrite C. auto.
Qed.

Lemma cro_loop_eq m rows : WF m -> forall n r i hints, WF r -> nc m <= nc r -> i + n <= nr r -> hints_ok r i hints ->
  cro_loop m r rows i n hints =
  insert_all r (flat_map (fun i => map (fun j => (i, j)) (nth (nth i rows 0) (rws m) [])) (seq i (first_bad (nr m) rows i n - i))).
Proof.
  intros Wm. induction n as [|n IH]; intros r i hints W Hc Hn Hok; cbn [cro_loop first_bad]; [now rewrite Nat.sub_diag|].
  destruct (Nat.leb_spec (nr m) (nth i rows 0)) as [Hbad|Hgood]; [now rewrite Nat.sub_diag|].
  pose proof (first_bad_spec (nr m) rows n (S i)) as ((Hp & _) & _).
  replace (first_bad (nr m) rows (S i) n - i) with (S (first_bad (nr m) rows (S i) n - S i)) by lia.
  cbn [seq flat_map]. rewrite insert_all_app.
  assert (Hcols : forall c, In c (nth (nth i rows 0) (rws m) []) -> c < nc r).
  { intros c Hin. apply (wf_rs m Wm _ Hgood) in Hin. lia. }
  destruct (cro_row_eq i _ r hints W ltac:(lia) Hcols Hok) as (E & Hok1).
  destruct (cro_row r i (nth (nth i rows 0) (rws m) []) hints) as [r' h']. cbn [fst snd] in E, Hok1. subst r'.
  destruct (insert_all_spec (map (fun c => (i, c)) (nth (nth i rows 0) (rws m) [])) r W) as (W1 & En1 & Ec1 & _).
  { intros e He. apply in_map_iff in He as (c & <- & Hc'). split; [simpl; lia|apply Hcols, Hc']. }
  apply IH; [exact W1|lia|lia|]. intros c h Hnth. destruct (Hok1 c h Hnth). auto.
Qed.

Theorem copyrows_opt_spec m r rows : WF m -> WF r -> nc m <= nc r ->
  WF (s_copyrows_opt m r rows) /\ nr (s_copyrows_opt m r rows) = nr r /\ nc (s_copyrows_opt m r rows) = nc r /\
  forall i j, has (s_copyrows_opt m r rows) i j =
              has r i j || ((i <? first_bad_row m rows (nr r)) && has m (nth i rows 0) j).
Proof.
  intros Wm Wr Hc. unfold s_copyrows_opt, first_bad_row. destruct (Nat.ltb_spec (nc r) (nc m)); [lia|].
  rewrite (cro_loop_eq m rows Wm (nr r) r 0 _ Wr Hc (le_n _)), Nat.sub_0_r.
  2:{ intros c h Hnth. rewrite nth_repeat in Hnth. discriminate. }
  destruct (first_bad_spec (nr m) rows (nr r) 0) as (Hp & Hgood & _).
  apply (insert_rows_spec m r rows _ Wm Wr Hc); [lia|]. intros i Hi. apply Hgood. lia.
Qed.

Corollary copyrows_opt_spec_inrange m r rows : WF m -> WF r -> nc m <= nc r -> (forall i, i < nr r -> nth i rows 0 < nr m) ->
  WF (s_copyrows_opt m r rows) /\
  forall i j, has (s_copyrows_opt m r rows) i j = has r i j || ((i <? nr r) && has m (nth i rows 0) j).
Proof.
  intros Wm Wr Hc Hrows. destruct (copyrows_opt_spec m r rows Wm Wr Hc) as (W' & _ & _ & Hh).
  split; [exact W'|]. intros i j. rewrite Hh. unfold first_bad_row.
  rewrite first_bad_all; [reflexivity|]. intros k Hk. apply Hrows. lia.
Qed.

Lemma cco_col_eq j : forall rows r hint, WF r -> j < nc r -> (forall e, In e rows -> e < nr r) -> ssorted rows ->
  match hint with None => True | Some h => has r h j = true /\ forall e, In e rows -> h <= e end ->
  cco_col r j rows hint = insert_all r (map (fun e => (e, j)) rows).
Proof.
  induction rows as [|e t IH]; intros r hint W Hj Hrows Hs Hh; [reflexivity|].
  cbn [cco_col map]. rewrite insert_all_cons. cbn [fst snd]. assert (He : e < nr r) by (apply Hrows; now left).
  rewrite (insert_opt_spec r e j hint W He Hj).
  2:{ destruct hint as [h|]; [|exact I]. destruct Hh as (B & C).
      split; [apply (has_col r h j W B)|apply C; now left]. }
  pose proof (insert_spec r e j W He Hj) as HI. destruct (s_insert r e j) as [r1 st].
  destruct HI as (W1 & En1 & Ec1 & Hh1 & _). cbn [fst]. destruct Hs as (Hlt & Hs').
  apply IH; [exact W1|lia|intros e' He'; rewrite En1; apply Hrows; now right|exact Hs'|].
  rewrite Hh1, !Nat.eqb_refl, orb_true_r. split; [reflexivity|]. intros e' He'. specialize (Hlt e' He'). lia.
Qed.

Lemma cco_loop_eq m cols : WF m -> forall n r j, WF r -> nr m <= nr r -> j + n <= nc r ->
  cco_loop m r cols j n =
  insert_all r (flat_map (fun j => map (fun i => (i, j)) (nth (nth j cols 0) (cls m) [])) (seq j (first_bad (nc m) cols j n - j))).
Proof.
  intros Wm. induction n as [|n IH]; intros r j W Hr Hn; cbn [cco_loop first_bad]; [now rewrite Nat.sub_diag|].
  destruct (Nat.leb_spec (nc m) (nth j cols 0)) as [Hbad|Hgood]; [now rewrite Nat.sub_diag|].
  pose proof (first_bad_spec (nc m) cols n (S j)) as ((Hp & _) & _).
  replace (first_bad (nc m) cols (S j) n - j) with (S (first_bad (nc m) cols (S j) n - S j)) by lia.
  cbn [seq flat_map]. rewrite insert_all_app. destruct (wf_cs m Wm _ Hgood) as (Hsc & Hrc).
  assert (Hrows : forall e, In e (nth (nth j cols 0) (cls m) []) -> e < nr r).
  { intros e He. apply Hrc in He. lia. }
  rewrite (cco_col_eq j _ r None W ltac:(lia) Hrows Hsc I).
  destruct (insert_all_spec (map (fun e => (e, j)) (nth (nth j cols 0) (cls m) [])) r W) as (W1 & En1 & Ec1 & _).
  { intros e He. apply in_map_iff in He as (x & <- & Hx). split; [apply Hrows, Hx|simpl; lia]. }
  apply IH; [exact W1|lia|lia].
Qed.

Theorem copycols_opt_spec m r cols : WF m -> WF r -> nr m <= nr r ->
  WF (s_copycols_opt m r cols) /\ nr (s_copycols_opt m r cols) = nr r /\ nc (s_copycols_opt m r cols) = nc r /\
  forall i j, has (s_copycols_opt m r cols) i j =
              has r i j || ((j <? first_bad_col m cols (nc r)) && (i <? nr m) && has m i (nth j cols 0)).
Proof.
  intros Wm Wr Hr. unfold s_copycols_opt, first_bad_col. destruct (Nat.ltb_spec (nr r) (nr m)); [lia|].
  rewrite (cco_loop_eq m cols Wm (nc r) r 0 Wr Hr (le_n _)), Nat.sub_0_r.
  destruct (first_bad_spec (nc m) cols (nc r) 0) as (Hp & Hgood & _).
  apply (insert_cols_spec m r cols _ Wm Wr Hr); [lia|]. intros j Hj. apply Hgood. lia.
Qed.

Corollary copycols_opt_spec_inrange m r cols : WF m -> WF r -> nr m <= nr r -> (forall j, j < nc r -> nth j cols 0 < nc m) ->
  WF (s_copycols_opt m r cols) /\
  forall i j, has (s_copycols_opt m r cols) i j = has r i j || ((j <? nc r) && (i <? nr m) && has m i (nth j cols 0)).
Proof.
  intros Wm Wr Hc Hcols. destruct (copycols_opt_spec m r cols Wm Wr Hc) as (W' & _ & _ & Hh).
  split; [exact W'|]. intros i j. rewrite Hh. unfold first_bad_col.
  rewrite first_bad_all; [reflexivity|]. intros k Hk. apply Hcols. lia.
Qed.

Corollary copyrows_opt_pool m r rows : WF m -> WF r -> nc m <= nc r ->
  nblocks (s_copyrows_opt m r rows) * BLOCK = nfree (s_copyrows_opt m r rows) + total (s_copyrows_opt m r rows).
Proof. intros Wm Wr Hc. apply pool_accounting. apply (copyrows_opt_spec m r rows Wm Wr Hc). Qed.

Corollary copycols_opt_pool m r cols : WF m -> WF r -> nr m <= nr r ->
  nblocks (s_copycols_opt m r cols) * BLOCK = nfree (s_copycols_opt m r cols) + total (s_copycols_opt m r cols).
Proof. intros Wm Wr Hc. apply pool_accounting. apply (copycols_opt_spec m r cols Wm Wr Hc). Qed.

Print Assumptions copyrows_spec.
Print Assumptions copycols_spec.
Print Assumptions dense_roundtrip.
Print Assumptions insert_opt_spec.
Print Assumptions copyrows_opt_spec.
Print Assumptions copycols_opt_spec.
Print Assumptions copyrows_opt_pool.
Print Assumptions copycols_opt_pool.
