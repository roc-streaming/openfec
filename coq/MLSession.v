(* Session-level theorem for the LDPC erasure decoder model: the streaming (iterative) decoder
   (ITModel.decode, run over a history of received symbols) followed by the maximum-likelihood
   finish (MLModel.ml_finish).

   The finish may decode repair symbols from the partial sums that the streaming decoder left
   behind also when the streaming decoder had stopped early on completion; "never a wrong symbol"
   therefore needs the VALUES of the partial sums in complete states as well.  This is why the
   session theorem goes through the invariant of every reachable state (ITProofs.run_J) and the
   precondition JF of the finish, which holds in complete and incomplete states alike. *)
From Coq Require Import List Arith Bool Lia.
From OFV Require Import XorGroup ITModel ITLemmas ITProofs MLModel MLSimplify LdpcEnc MLFinish.
From OFV Require DenseSolveComplete StableTables.
Import ListNotations.

Section Session.
Variable Sy : Type. Variable sxor : Sy -> Sy -> Sy. Variable s0 : Sy.
Hypothesis sxor_assoc : forall a b c, sxor a (sxor b c) = sxor (sxor a b) c.
Hypothesis sxor_comm : forall a b, sxor a b = sxor b a.
Hypothesis sxor_0_l : forall a, sxor s0 a = a.
Hypothesis sxor_nilp : forall a, sxor a a = s0.

Variable H0 : list (list nat).
Variable R0 N0 : nat.
Hypothesis H0_len : length H0 = R0.
Hypothesis H0_nodup : forall i, i < R0 -> NoDup (nth i H0 []).
Hypothesis H0_range : forall i c, i < R0 -> In c (nth i H0 []) -> c < N0.
Hypothesis H0_deg : forall i, i < R0 -> 2 <= length (nth i H0 []).
Hypothesis R_le_N : R0 <= N0.

Hypothesis H0_cols : forall c, c < N0 -> exists i, i < R0 /\ In c (nth i H0 []).
Hypothesis H0_stair : stair R0 H0.
Hypothesis Sy_nontrivial : exists a : Sy, a <> s0.

Variable cw : nat -> Sy.
Hypothesis parity : forall i, i < R0 -> xs Sy sxor s0 cw (nth i H0 []) = s0.

Notation st := (st Sy).
Notation WF := (WF Sy R0 N0).
Notation Good := (Good Sy H0 R0 N0).
Notation Kmono := (Kmono Sy).
Notation iscomp := (iscomp Sy R0 N0).
Notation gs := (xs Sy sxor s0).
Notation run := (run Sy sxor s0 H0 R0 N0).
Notation hker := (hker H0 R0).
Notation Det := (Det Sy H0 R0 N0).
Notation MLInv := (MLInv Sy sxor s0 H0 R0 N0).
Notation MLPre := (MLPre Sy H0 R0 N0).
Notation val := (val Sy s0).

(* the structural part of the invariant RJ of the streaming decoder (rows are only ever filtered or emptied);
   it holds for any history, whatever the submitted values *)
Definition Sub (s : st) : Prop :=
  length (rws s) = R0 /\ forall i, i < R0 -> NoDup (nth i (rws s) []) /\ incl (nth i (rws s) []) (nth i H0 []).

Lemma Sub_upd (s s' : st) row rw : rws s' = upd (rws s) row rw -> NoDup rw -> incl rw (nth row (rws s) []) -> Sub s -> Sub s'.
Proof.
  intros E ND Incl (L & Rows). unfold Sub. rewrite E, upd_length. split; [exact L|].
  intros i Hi. destruct (Nat.eq_dec i row) as [->|Hne]; [|rewrite nth_upd_neq by auto; exact (Rows i Hi)].
  rewrite nth_upd_eq by (rewrite L; exact Hi).
  split; [exact ND|]. intros x Hx. apply (proj2 (Rows row Hi)). now apply Incl.
Qed.

Lemma step2_row_Sub (s : st) c v row : Sub s -> Sub (fst (step2_row sxor s0 s c v row)).
Proof.
  intros HS. rewrite step2_row_cases.
  assert (X : forall t, Sub (srS Sy sxor s c v row t)).
  { intros t. unfold srS. eapply (Sub_upd s); [cbn [rws]; reflexivity| | |exact HS].
    - destruct (Nat.lt_ge_cases row R0) as [Hlt|Hge].
      + apply NoDup_filter, NoDup_filter. exact (proj1 (proj2 HS row Hlt)).
      + rewrite nth_overflow by (rewrite (proj1 HS); exact Hge). constructor.
    - intros x Hx. apply filter_In in Hx. destruct Hx as (Hx & _). apply filter_In in Hx. apply Hx. }
  destruct (nth row (ct s) None); [apply X|].
  destruct (getn (unk s) row - 1 =? 1); [apply X|exact HS].
Qed.

(* Sub only speaks of the rows, which set_tab and is_complete leave alone *)
Lemma decode_Sub fuel (s : st) e v s' : Sub s -> decode sxor s0 fuel s e v = Some s' -> Sub s'.
Proof.
  apply (decode_P Sy sxor s0 Sub (fun _ _ => Sub)); auto.
  - intros s2 c v2 row HS _ _. now apply step2_row_Sub.
  - intros s2 row cc t HS _ _. eapply (Sub_upd s2); [unfold consume; cbn [rws]; reflexivity|constructor|intros x []|exact HS].
Qed.

Theorem run_Sub_any fuel (hist : list (nat * Sy)) (s : st) : run fuel hist = Some s -> Sub s.
Proof using H0_len H0_nodup R_le_N. (* R_le_N: a premise of the closed statement that the proof does not use *)
  apply (run_ind Sy sxor s0 H0 R0 N0 fuel (fun _ => Sub)).
  - split; [exact H0_len|]. intros i Hi. cbn [init rws]. split; [now apply H0_nodup|apply incl_refl].
  - intros h ev sA sB HS Ed. exact (decode_Sub fuel _ _ _ _ HS Ed).
Qed.

Corollary run_Sub fuel (hist : list (nat * Sy)) (s : st) :
  (forall ev, In ev hist -> fst ev < N0 /\ snd ev = cw (fst ev)) -> run fuel hist = Some s -> Sub s.
Proof using sxor_assoc sxor_comm sxor_0_l sxor_nilp H0_len H0_nodup H0_range H0_deg R_le_N parity.
  (* the closed statement has all of these as premises; only those of run_Sub_any are needed *)
  intros _. apply run_Sub_any.
Qed.

(* JF cwx s: the rows are duplicate-free sub-lists of the original rows that still contain every
   unknown column, and the partial sum of a non-empty row is the sum of the symbols (of the
   codeword cwx) of its entries.  The counters are irrelevant (prepar resets them). *)
Definition JF (cwx : nat -> Sy) (s : st) : Prop :=
  WF s /\ (forall c v, nth c (tab s) None = Some v -> v = cwx c) /\
  (forall i, i < R0 -> NoDup (nth i (rws s) []) /\ incl (nth i (rws s) []) (nth i H0 [])) /\
  (forall i, i < R0 -> nth i (rws s) [] <> [] -> val (nth i (ct s) None) = gs cwx (nth i (rws s) [])) /\
  (forall i c, i < R0 -> In c (nth i H0 []) -> known s c = false -> In c (nth i (rws s) [])).

Lemma RJ_JF (s : st) : WF s -> RJ Sy sxor s0 H0 R0 N0 cw s -> Keep Sy H0 R0 s -> JF cw s.
Proof.
  intros W [_ _ _ _ _ V Rows] K. split; [exact W|]. split; [exact V|]. split; [|split; [|exact K]].
  - intros i Hi. destruct (Rows i Hi) as (A & B & _). split; [exact A|exact B].
  - intros i Hi Hne. destruct (Rows i Hi) as (_ & _ & M).
    destruct (nth i (ct s) None) as [t|].
    + destruct M as (_ & M). exact (M Hne).
    + destruct M as [M|(M & _)]; [now elim Hne|]. rewrite M. cbn [MLSimplify.val]. symmetry. now apply parity.
Qed.

(* JF cwx s says that s is well formed and that prepar s satisfies MLInv, whose clauses do not look at
   the counters *)
Lemma JF_prepar (cwx : nat -> Sy) (s : st) : JF cwx s -> MLSimplify.MLInv Sy sxor s0 H0 R0 N0 cwx (prepar s).
Proof. intros (W & T & S & V & K). now apply prepar_MLInv. Qed.

Lemma MLPre_JF (cwx : nat -> Sy) (s : st) : (forall i, i < R0 -> gs cwx (nth i H0 []) = s0) -> MLPre cwx s -> JF cwx s.
Proof.
  intros parx P. destruct (prepar_inv Sy sxor s0 H0 R0 N0 H0_nodup cwx parx s P) as ([_ S _ V T K] & _).
  exact (conj (proj1 P) (conj T (conj S (conj V K)))).
Qed.

Lemma reduce_main_JF fuel perm (s : st) :
  JF cw s -> N0 < fuel -> (forall c, c < R0 -> In c perm) -> (forall c, In c perm -> c < R0) ->
  exists s1, red Sy sxor fuel perm s = Some s1 /\ MLInv cw s1 /\ Kmono s s1
    /\ (forall c, known s c = true -> nth c (tab s1) None = nth c (tab s) None)
    /\ (iscomp s1 \/ RC Sy H0 R0 s1)
    /\ (forall z, hker z -> (forall c, c < N0 -> known s c = true -> z c = false) ->
        forall c, known s1 c = true -> z c = false).
Proof using sxor_assoc sxor_comm sxor_0_l sxor_nilp H0_len H0_nodup H0_range H0_deg R_le_N Sy_nontrivial parity.
  intros P Hf Hp1 _. apply reduce_main; auto. now apply JF_prepar.
Qed.

Theorem ml_finish_JF fuel perm (s : st) :
  JF cw s -> N0 < fuel -> (forall c, c < R0 -> In c perm) ->
  exists o, ml_finish sxor s0 fuel perm s = Some o /\
    (forall c v, nth c (tab (o_st o)) None = Some v -> v = cw c) /\
    Kmono s (o_st o) /\
    (o_ok o = true <-> iscomp (o_st o)) /\
    (iscomp (o_st o) <-> Det s).
Proof using All.
  intros P Hf Hp1.
  destruct (finish_spec Sy sxor s0 sxor_assoc sxor_comm sxor_0_l sxor_nilp H0 R0 N0 H0_len H0_nodup H0_range H0_deg R_le_N
              cw H0_cols H0_stair Sy_nontrivial fuel perm s (JF_prepar cw s P) Hf Hp1)
    as (o & Ho & V & OK & D).
  exists o. split; [exact Ho|]. split; [exact V|]. split; [|split; [exact OK|exact D]].
  exact (proj1 (Stab_known Sy s (o_st o) (StableTables.ml_finish_tab_stable Sy sxor s0 fuel perm s o Ho))).
Qed.

(* the finish from a state in which every source symbol is already available (the streaming decoder
   stops early on completion and leaves rows half-processed: MLPre does not hold there, JF does) *)
Corollary ml_finish_from_complete fuel perm (s : st) :
  JF cw s -> iscomp s -> N0 < fuel -> (forall c, c < R0 -> In c perm) -> (forall c, In c perm -> c < R0) ->
  exists o, ml_finish sxor s0 fuel perm s = Some o /\ o_ok o = true /\ iscomp (o_st o)
    /\ (forall c v, nth c (tab (o_st o)) None = Some v -> v = cw c)
    /\ (forall e x, nth e (tab s) None = Some x -> nth e (tab (o_st o)) None = Some x).
Proof.
  intros P C Hf Hp1 Hp2.
  destruct (ml_finish_JF fuel perm s P Hf Hp1) as (o & Ho & V & KM & OK & _).
  exists o. split; [exact Ho|].
  assert (C' : iscomp (o_st o)) by (intros c Hc; apply KM, C, Hc).
  split; [apply OK; exact C'|]. split; [exact C'|]. split; [exact V|].
  exact (StableTables.ml_finish_tab_stable Sy sxor s0 fuel perm s o Ho).
Qed.

Lemma Urow_nil_known (s : st) i : Urow H0 (known s) i = [] -> forall c, In c (nth i H0 []) -> known s c = true.
Proof.
  intros E c Hc. destruct (known s c) eqn:Hk; [reflexivity|]. exfalso.
  assert (Hin : In c (Urow H0 (known s) i)) by (unfold Urow; apply filter_In; split; [exact Hc|now rewrite Hk]).
  rewrite E in Hin. destruct Hin.
Qed.

Lemma good_MLPre (s : st) : Good s -> ~ iscomp s -> (forall c v, nth c (tab s) None = Some v -> v = cw c) -> MLPre cw s.
Proof.
  intros (W & HG) Hnc T. destruct HG as [C|(HI & HN)]; [now elim Hnc|].
  split; [exact W|]. split; [exact T|].
  intros i Hi. specialize (HI i Hi). specialize (HN i Hi). unfold rowinv in HI. unfold ready1 in HN.
  destruct (nth i (ct s) None) as [t|] eqn:Ect.
  - right. destruct HI as (A & B & _ & _).
    assert (E : Urow H0 (known s) i = []).
    { destruct (Urow H0 (known s) i) as [|x [|y l]] eqn:EU; [reflexivity| |simpl in B; lia].
      exfalso. apply HN. split; [discriminate|]. rewrite A. reflexivity. }
    split; [rewrite A; exact E|exact (Urow_nil_known s i E)].
  - destruct HI as [(A & _)|(A & _ & C)].
    + left. split; [exact A|reflexivity].
    + right. split; [exact A|]. apply Urow_nil_known.
      destruct (Urow H0 (known s) i) as [|x l]; [reflexivity|].
      specialize (C x (or_introl eq_refl)). discriminate C.
Qed.

Definition Rcv (hist : list (nat * Sy)) : nat -> Prop := fun c => In c (map fst hist).
(* the sources are uniquely determined by the RECEIVED symbols and the parity equations *)
Definition DetR (hist : list (nat * Sy)) : Prop :=
  forall z, hker z -> (forall c, Rcv hist c -> z c = false) -> forall c, R0 <= c < N0 -> z c = false.

(* a kernel vector that vanishes on a set vanishes on its peeling closure *)
Lemma ker_peel (z : nat -> bool) (Rc : nat -> Prop) : hker z -> (forall c, Rc c -> z c = false) ->
  forall c, peel H0 R0 Rc c -> z c = false.
Proof.
  intros Hz Hv c Hp. induction Hp as [c Hc|i c Hi Hin Hall IH]; [now apply Hv|].
  pose proof (Hz i Hi) as E. change (xs bool xorb false z (nth i H0 []) = false) in E.
  rewrite (xs_rm bool xorb false DenseSolveComplete.bx_assoc DenseSolveComplete.bx_comm z c (nth i H0 [])
             (H0_nodup i Hi) Hin) in E.
  assert (E2 : xs bool xorb false z (rm c (nth i H0 [])) = false).
  { apply DenseSolveComplete.fold_xorb_zero. intros x Hx. apply rm_In in Hx. destruct Hx as (Hx & Hne). now apply IH. }
  rewrite E2 in E. destruct (z c); [discriminate E|reflexivity].
Qed.

Lemma run_facts fuel (hist : list (nat * Sy)) (s : st) :
  (forall ev, In ev hist -> fst ev < N0 /\ snd ev = cw (fst ev)) -> run fuel hist = Some s ->
  JF cw s /\ (forall c, Rcv hist c -> c < N0 /\ known s c = true) /\ (forall c, known s c = true -> peel H0 R0 (Rcv hist) c).
Proof.
  intros Hh Hrun.
  destruct (init_good Sy sxor s0 H0 R0 N0 H0_len H0_deg R_le_N) as (G0 & K0).
  destruct (fold_good_seen Sy sxor s0 H0 R0 N0 H0_len H0_nodup H0_range H0_deg R_le_N fuel (Rcv hist) hist (init Sy R0 N0 H0) s) as ((W & _) & A & _ & KR).
  - intros ev Hev. split; [apply (Hh ev Hev)|exact (in_map fst hist ev Hev)].
  - exact Hrun.
  - exact G0.
  - intros c Hc. rewrite K0 in Hc. discriminate Hc.
  - destruct (run_J Sy sxor s0 H0 R0 N0 H0_len H0_nodup H0_range H0_deg R_le_N sxor_assoc sxor_comm sxor_0_l sxor_nilp
                cw parity fuel hist s Hh Hrun) as (J & K).
    split; [exact (RJ_JF s W J K)|]. split; [|exact A].
    intros c Hc. apply in_map_iff in Hc. destruct Hc as (ev & <- & Hev).
    split; [apply (Hh ev Hev)|exact (KR ev Hev)].
Qed.

Lemma Det_DetR fuel (hist : list (nat * Sy)) (s : st) :
  (forall ev, In ev hist -> fst ev < N0 /\ snd ev = cw (fst ev)) -> run fuel hist = Some s ->
  (Det s <-> DetR hist).
Proof.
  intros Hh Hrun. destruct (run_facts fuel hist s Hh Hrun) as (_ & KR & A).
  split; intros D z Hz Hv c Hc; apply (D z Hz); try exact Hc.
  - intros c' _ Hk. apply (ker_peel z (Rcv hist) Hz Hv). now apply A.
  - intros c' Hr. destruct (KR c' Hr) as (Hlt & Hk). now apply Hv.
Qed.

Lemma DetR_ext (h1 h2 : list (nat * Sy)) : (forall c, In c (map fst h1) <-> In c (map fst h2)) -> (DetR h1 <-> DetR h2).
Proof.
  intros E. split; intros D z Hz Hv c Hc; apply (D z Hz); try exact Hc; intros c' Hr; apply Hv; unfold Rcv in *; now apply E.
Qed.

Theorem ldpc_session_finish : forall hist s fuel perm o,
  (forall ev, In ev hist -> fst ev < N0 /\ snd ev = cw (fst ev)) -> run (S N0) hist = Some s ->
  N0 < fuel -> (forall c, c < R0 -> In c perm) -> (forall c, In c perm -> c < R0) ->
  ml_finish sxor s0 fuel perm s = Some o ->
  (forall c v, nth c (tab (o_st o)) None = Some v -> v = cw c)                        (* never a wrong symbol *)
  /\ (forall c x, nth c (tab s) None = Some x -> nth c (tab (o_st o)) None = Some x)   (* held symbols are kept *)
  /\ (o_ok o = true <-> iscomp (o_st o))                                              (* status tells the truth *)
  /\ (iscomp (o_st o) <-> DetR hist).                                                 (* succeeds iff recoverable *)
Proof.
  intros hist s fuel perm o Hh Hrun Hf Hp1 Hp2 Ho.
  destruct (run_facts (S N0) hist s Hh Hrun) as (P & _ & _).
  destruct (ml_finish_JF fuel perm s P Hf Hp1) as (o' & Ho' & V & _ & OK & D).
  rewrite Ho in Ho'. injection Ho' as <-.
  split; [exact V|]. split; [exact (StableTables.ml_finish_tab_stable Sy sxor s0 fuel perm s o Ho)|].
  split; [exact OK|]. rewrite D. exact (Det_DetR (S N0) hist s Hh Hrun).
Qed.

Theorem ldpc_session_finish_total : forall hist s fuel perm,
  (forall ev, In ev hist -> fst ev < N0 /\ snd ev = cw (fst ev)) -> run (S N0) hist = Some s ->
  N0 < fuel -> (forall c, c < R0 -> In c perm) -> (forall c, In c perm -> c < R0) ->
  exists o, ml_finish sxor s0 fuel perm s = Some o.
Proof.
  intros hist s fuel perm Hh Hrun Hf Hp1 Hp2.
  destruct (run_facts (S N0) hist s Hh Hrun) as (P & _ & _).
  destruct (ml_finish_JF fuel perm s P Hf Hp1) as (o & Ho & _). exists o. exact Ho.
Qed.

(* the whole session (streaming decoder, then ML finish) always produces an outcome *)
Corollary ldpc_session_total : forall hist fuel perm,
  (forall ev, In ev hist -> fst ev < N0 /\ snd ev = cw (fst ev)) ->
  N0 < fuel -> (forall c, c < R0 -> In c perm) -> (forall c, In c perm -> c < R0) ->
  exists s o, run (S N0) hist = Some s /\ ml_finish sxor s0 fuel perm s = Some o.
Proof.
  intros hist fuel perm Hh Hf Hp1 Hp2.
  destruct (run_total Sy sxor s0 H0 R0 N0 H0_len H0_nodup H0_range H0_deg R_le_N (S N0) hist (Nat.lt_succ_diag_r N0)
              (fun ev Hev => proj1 (Hh ev Hev))) as (s & Hs).
  destruct (ldpc_session_finish_total hist s fuel perm Hh Hs Hf Hp1 Hp2) as (o & Ho).
  exists s, o. split; [exact Hs|exact Ho].
Qed.

Corollary ldpc_session_finish_order_independent : forall h1 h2 s1 s2 fuel1 fuel2 perm1 perm2 o1 o2,
  (forall ev, In ev h1 -> fst ev < N0 /\ snd ev = cw (fst ev)) ->
  (forall ev, In ev h2 -> fst ev < N0 /\ snd ev = cw (fst ev)) ->
  (forall c, In c (map fst h1) <-> In c (map fst h2)) ->
  run (S N0) h1 = Some s1 -> run (S N0) h2 = Some s2 ->
  N0 < fuel1 -> N0 < fuel2 ->
  (forall c, c < R0 -> In c perm1) -> (forall c, In c perm1 -> c < R0) ->
  (forall c, c < R0 -> In c perm2) -> (forall c, In c perm2 -> c < R0) ->
  ml_finish sxor s0 fuel1 perm1 s1 = Some o1 -> ml_finish sxor s0 fuel2 perm2 s2 = Some o2 ->
  o_ok o1 = o_ok o2.
Proof.
  intros h1 h2 s1 s2 fuel1 fuel2 perm1 perm2 o1 o2 Hh1 Hh2 E R1 R2 F1 F2 A1 A2 B1 B2 O1 O2.
  destruct (ldpc_session_finish h1 s1 fuel1 perm1 o1 Hh1 R1 F1 A1 A2 O1) as (_ & _ & X1 & Y1).
  destruct (ldpc_session_finish h2 s2 fuel2 perm2 o2 Hh2 R2 F2 B1 B2 O2) as (_ & _ & X2 & Y2).
  apply eq_true_iff_eq. rewrite X1, Y1, X2, Y2. now apply DetR_ext.
Qed.

End Session.

Print Assumptions run_Sub_any.
Print Assumptions run_J.
Print Assumptions ml_finish_JF.
Print Assumptions good_MLPre.
Print Assumptions ldpc_session_finish.
Print Assumptions ldpc_session_finish_total.
Print Assumptions ldpc_session_finish_order_independent.
