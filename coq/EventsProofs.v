(* The callback-event logs of Events.v (C11).  Simulation: the logged functions compute the states of
   ITModel.decode / MLModel.simplify / MLModel.inject / MLModel.ml_finish (erase of the log = the unlogged
   function).  Exactly-once: the log lists, without repetition, exactly the columns that become known during
   the call and were not submitted by the application - for one call of the streaming decoder, for a whole
   streaming session, for the ML finish.  No hypothesis on the symbol values or on the xor. *)
From Coq Require Import List Arith Bool Lia Permutation.
From OFV Require Import ListAux ITModel ITLemmas ITProofs DenseSolve MLModel StableTables Events.
Import ListNotations.

Definition erase {A : Type} (o : option (A * list nat)) : option A :=
  match o with Some (a, _) => Some a | None => None end.

Lemma erase_some {A : Type} (o : option (A * list nat)) a : erase o = Some a <-> exists l, o = Some (a, l).
Proof.
  destruct o as [[a' l']|]; cbn [erase]; split.
  - intros H. injection H as <-. exists l'. reflexivity.
  - intros [l H]. injection H as <- _. reflexivity.
  - discriminate.
  - intros [l H]. discriminate.
Qed.

(* the three-part form in which the simulation results are stated *)
Lemma erase_sim {A : Type} (o : option (A * list nat)) (p : option A) : erase o = p ->
  (forall a l, o = Some (a, l) -> p = Some a)
  /\ (forall a, p = Some a -> exists l, o = Some (a, l))
  /\ (p = None <-> o = None).
Proof.
  intros <-. split; [|split].
  - intros a l ->. reflexivity.
  - intros a. apply erase_some.
  - destruct o as [[a l]|]; cbn [erase]; split; (discriminate || reflexivity).
Qed.

Section SIM.
Variable Sy : Type. Variable sxor : Sy -> Sy -> Sy. Variable s0 : Sy.
Notation st := (st Sy).

Lemma step3_ev_cons (dec : st -> nat -> Sy -> option (st * list nat)) row L' (s : st) :
  step3_ev dec (row :: L') s =
  (let '(c', s1) := is_complete s in
   if c' then Some (s1, []) else
   if getn (enc s1) row =? 1 then
     match nth row (rws s1) [], nth row (ct s1) None with
     | [cc], Some t =>
         match dec (consume s1 row) cc t with
         | None => None
         | Some (s2, e1) => match step3_ev dec L' s2 with None => None | Some (s3, e2) => Some (s3, cc :: e1 ++ e2) end
         end
     | _, _ => None
     end
   else step3_ev dec L' s1).
Proof. reflexivity. Qed.

Lemma step3_ev_erase (dec_ev : st -> nat -> Sy -> option (st * list nat)) (dec : st -> nat -> Sy -> option st) :
  (forall s c v, erase (dec_ev s c v) = dec s c v) ->
  forall L s, erase (step3_ev dec_ev L s) = step3 dec L s.
Proof.
  intros Hd. induction L as [|row L IH]; intros s; [reflexivity|].
  rewrite step3_ev_cons, step3_cons. destruct (is_complete s) as [b s1]. destruct b; [reflexivity|].
  destruct (getn (enc s1) row =? 1); [|apply IH].
  destruct (nth row (rws s1) []) as [|cc [|c2 rest]]; try reflexivity.
  destruct (nth row (ct s1) None) as [t|]; [|reflexivity].
  rewrite <- (Hd (consume s1 row) cc t). destruct (dec_ev (consume s1 row) cc t) as [[s2 e1]|]; [|reflexivity].
  cbn [erase]. rewrite <- IH. destruct (step3_ev dec_ev L s2) as [[s3 e2]|]; reflexivity.
Qed.

Lemma decode_ev_unfold fuel (s : st) c v : decode_ev sxor s0 (S fuel) s c v =
  if known s c then Some (s, []) else
  let s1 := set_tab s c v in
  let early := if r s1 <=? c then is_complete s1 else (false, s1) in
  if fst early then Some (snd early, []) else
  let '(s2, L) := step2 sxor s0 (snd early) c v in
  step3_ev (decode_ev sxor s0 fuel) (rev L) s2.
Proof. reflexivity. Qed.

Lemma decode_ev_erase : forall fuel (s : st) c v,
  erase (decode_ev sxor s0 fuel s c v) = decode sxor s0 fuel s c v.
Proof.
  induction fuel as [|f IH]; intros s c v; [reflexivity|].
  rewrite decode_ev_unfold, decode_unfold. destruct (known s c); [reflexivity|]. cbv zeta.
  destruct (if r (set_tab s c v) <=? c then is_complete (set_tab s c v) else (false, set_tab s c v)) as [b sx].
  cbn [fst snd]. destruct b; [reflexivity|].
  destruct (step2 sxor s0 sx c v) as [s2 L]. apply step3_ev_erase. exact IH.
Qed.

Theorem decode_ev_sim fuel (s : st) c v :
  (forall s' l, decode_ev sxor s0 fuel s c v = Some (s', l) -> decode sxor s0 fuel s c v = Some s')
  /\ (forall s', decode sxor s0 fuel s c v = Some s' -> exists l, decode_ev sxor s0 fuel s c v = Some (s', l))
  /\ (decode sxor s0 fuel s c v = None <-> decode_ev sxor s0 fuel s c v = None).
Proof. exact (erase_sim _ _ (decode_ev_erase fuel s c v)). Qed.

(* histories, from any start state: estep is the step function of run_ev, dstep that of ITProofs.run *)
Definition dstep (fuel : nat) (os : option st) (ev : nat * Sy) : option st :=
  match os with Some s => decode sxor s0 fuel s (fst ev) (snd ev) | None => None end.

Definition estep (fuel : nat) (acc : option (st * list nat)) (ev : nat * Sy) : option (st * list nat) :=
  match acc with None => None | Some (s, l) =>
    match decode_ev sxor s0 fuel s (fst ev) (snd ev) with None => None | Some (s', l') => Some (s', l ++ l') end end.

Lemma estep_erase fuel acc ev : erase (estep fuel acc ev) = dstep fuel (erase acc) ev.
Proof.
  destruct acc as [[s l]|]; [|reflexivity]. cbn [estep erase dstep].
  rewrite <- decode_ev_erase. destruct (decode_ev sxor s0 fuel s (fst ev) (snd ev)) as [[s' l']|]; reflexivity.
Qed.

Lemma run_ev_erase fuel (s : st) hist :
  erase (run_ev sxor s0 fuel s hist) =
  fold_left (fun os ev => match os with Some s => decode sxor s0 fuel s (fst ev) (snd ev) | None => None end)
            hist (Some s).
Proof. exact (fold_left_commute erase (estep fuel) (dstep fuel) (estep_erase fuel) hist (Some (s, []))). Qed.

Theorem run_ev_sim fuel (s : st) hist :
  (forall s' l, run_ev sxor s0 fuel s hist = Some (s', l) ->
     fold_left (fun os ev => match os with Some s => decode sxor s0 fuel s (fst ev) (snd ev) | None => None end)
               hist (Some s) = Some s')
  /\ (forall s',
     fold_left (fun os ev => match os with Some s => decode sxor s0 fuel s (fst ev) (snd ev) | None => None end)
               hist (Some s) = Some s' -> exists l, run_ev sxor s0 fuel s hist = Some (s', l)).
Proof. destruct (erase_sim _ _ (run_ev_erase fuel s hist)) as (A & B & _). exact (conj A B). Qed.

Corollary run_ev_sim_init (H0 : list (list nat)) (R0 N0 : nat) fuel hist :
  erase (run_ev sxor s0 fuel (init Sy R0 N0 H0) hist) = run Sy sxor s0 H0 R0 N0 fuel hist.
Proof. apply run_ev_erase. Qed.

(* StableTables.srow with the log: the body of the row loop of simplify_ev, the recursive call abstracted *)
Definition srow_ev (rec : st -> nat -> Sy -> option (st * list nat)) (c : nat) (v : Sy)
                   (os : option (st * list nat)) (row : nat) : option (st * list nat) :=
  match os with None => None | Some (s, l) =>
    let t := match nth row (ct s) None with None => v | Some t => sxor t v end in
    let u := getn (unk s) row - 1 in
    let rw := rm c (nth row (rws s) []) in
    let s1 := set_row s row rw u (Some t) in
    if u =? 1 then
      match rw with
      | c' :: _ =>
        match nth c' (tab s1) None with
        | Some _ => Some (s1, l)
        | None => match rec (set_tab (set_row s1 row (rm c' rw) (u - 1) None) c' t) c' t with
                  | None => None | Some (s2, l2) => Some (s2, l ++ c' :: l2) end
        end
      | [] => None
      end
    else Some (s1, l)
  end.

Lemma simplify_ev_unfold fuel (s : st) c v : simplify_ev sxor (S fuel) s c v =
  match rows_with s c with
  | [] => Some (s, [])
  | rowsl =>
    let early := if r s <=? c then is_complete s else (false, s) in
    if fst early then Some (snd early, []) else
    fold_left (srow_ev (simplify_ev sxor fuel) c v) rowsl (Some (snd early, []))
  end.
Proof. reflexivity. Qed.

Lemma srow_ev_erase rec_ev rec c v : (forall s c v, erase (rec_ev s c v) = rec s c v) ->
  forall os row, erase (srow_ev rec_ev c v os row) = srow Sy sxor rec c v (erase os) row.
Proof.
  intros Hr os row. destruct os as [[s l]|]; [|reflexivity]. cbn [erase]. unfold srow_ev, srow. cbv zeta.
  destruct (_ =? 1); [|reflexivity].
  destruct (rm c _) as [|c' rest]; [reflexivity|].
  destruct (nth c' _ None); [reflexivity|].
  rewrite <- Hr. destruct (rec_ev _ _ _) as [[s2 l2]|]; reflexivity.
Qed.

Lemma simplify_ev_erase : forall fuel (s : st) c v,
  erase (simplify_ev sxor fuel s c v) = simplify sxor fuel s c v.
Proof.
  induction fuel as [|f IH]; intros s c v; [reflexivity|].
  rewrite simplify_ev_unfold, simplify_unfold. destruct (rows_with s c) as [|row0 rowsl]; [reflexivity|].
  cbv zeta. destruct (if r s <=? c then is_complete s else (false, s)) as [b sx]. cbn [fst snd].
  destruct b; [reflexivity|].
  exact (fold_left_commute erase _ _ (srow_ev_erase _ _ c v IH) _ (Some (sx, []))).
Qed.

Theorem simplify_ev_sim fuel (s : st) c v :
  (forall s' l, simplify_ev sxor fuel s c v = Some (s', l) -> simplify sxor fuel s c v = Some s')
  /\ (forall s', simplify sxor fuel s c v = Some s' -> exists l, simplify_ev sxor fuel s c v = Some (s', l))
  /\ (simplify sxor fuel s c v = None <-> simplify_ev sxor fuel s c v = None).
Proof. exact (erase_sim _ _ (simplify_ev_erase fuel s c v)). Qed.

Lemma inject_ev_erase fuel os c : erase (inject_ev sxor fuel os c) = inject sxor fuel (erase os) c.
Proof.
  destruct os as [[s l]|]; [|reflexivity]. cbn [erase inject_ev inject].
  destruct (nth c (tab s) None) as [v|]; [|reflexivity].
  rewrite <- simplify_ev_erase. destruct (simplify_ev sxor fuel s c v) as [[s' l']|]; reflexivity.
Qed.

Theorem inject_ev_sim fuel (os : option (st * list nat)) c :
  (forall s' l, inject_ev sxor fuel os c = Some (s', l) -> inject sxor fuel (erase os) c = Some s')
  /\ (forall s', inject sxor fuel (erase os) c = Some s' -> exists l, inject_ev sxor fuel os c = Some (s', l))
  /\ (inject sxor fuel (erase os) c = None <-> inject_ev sxor fuel os c = None).
Proof. exact (erase_sim _ _ (inject_ev_erase fuel os c)). Qed.

Lemma inject_ev_fold_erase fuel cols os :
  erase (fold_left (inject_ev sxor fuel) cols os) = fold_left (inject sxor fuel) cols (erase os).
Proof. apply fold_left_commute, inject_ev_erase. Qed.

Lemma ml_finish_ev_erase fuel perm (s : st) :
  erase (ml_finish_ev sxor s0 fuel perm s) = ml_finish sxor s0 fuel perm s.
Proof.
  unfold ml_finish_ev. cbv zeta. rewrite <- fold_left_app.
  pose proof (ml_finish_shape Sy sxor s0 fuel perm s) as Hs.
  pose proof (inject_ev_fold_erase fuel (map (fun i => r s + i) (seq 0 (n s - r s)) ++ perm) (Some (prepar s, []))) as He.
  cbn [erase] in He. rewrite <- He in Hs.
  destruct (fold_left (inject_ev sxor fuel) _ _) as [[s1 l]|]; cbn [erase] in Hs.
  - destruct (ml_finish sxor s0 fuel perm s) as [o|]; reflexivity.
  - symmetry. exact Hs.
Qed.

Theorem ml_finish_ev_sim fuel perm (s : st) :
  (forall o l, ml_finish_ev sxor s0 fuel perm s = Some (o, l) -> ml_finish sxor s0 fuel perm s = Some o)
  /\ (forall o, ml_finish sxor s0 fuel perm s = Some o -> exists l, ml_finish_ev sxor s0 fuel perm s = Some (o, l))
  /\ (ml_finish sxor s0 fuel perm s = None <-> ml_finish_ev sxor s0 fuel perm s = None).
Proof. exact (erase_sim _ _ (ml_finish_ev_erase fuel perm s)). Qed.
End SIM.

Section LOGK.
Variable Sy : Type.
Notation st := (st Sy).

Definition newly (s s' : st) (c : nat) : Prop := known s c = false /\ known s' c = true.

(* known, of a table: known s c is kn (tab s) c *)
Definition kn (tb : list (option Sy)) (c : nat) : bool := match nth c tb None with Some _ => true | None => false end.

(* nothing held by t is lost in t', and l lists, without repetition, exactly the entries that t' holds and
   t does not.  On the tables of two states the last part reads In e l <-> newly s s' e. *)
Definition LogOK (t t' : list (option Sy)) (l : list nat) : Prop :=
  (forall c, kn t c = true -> kn t' c = true) /\ NoDup l /\ forall e, In e l <-> kn t e = false /\ kn t' e = true.

Lemma LogOK_refl t : LogOK t t [].
Proof.
  split; [auto|split; [constructor|]]. intros e. split; [intros []|]. intros [Ha Hb]. congruence.
Qed.

Lemma LogOK_app t t1 t2 l1 l2 : LogOK t t1 l1 -> LogOK t1 t2 l2 -> LogOK t t2 (l1 ++ l2).
Proof.
  intros (Hm1 & Hn1 & Hi1) (Hm2 & Hn2 & Hi2). split; [|split].
  - intros c Hc. apply Hm2, Hm1, Hc.
  - apply NoDup_app_iff. split; [exact Hn1|split; [exact Hn2|]].
    intros e H1 H2. apply Hi1 in H1. apply Hi2 in H2. destruct H1 as [_ H1], H2 as [H2 _]. congruence.
  - intros e. rewrite in_app_iff, (Hi1 e), (Hi2 e). specialize (Hm1 e). specialize (Hm2 e).
    destruct (kn t e), (kn t1 e), (kn t2 e); intuition congruence.
Qed.

Lemma kn_upd t c v e : c < length t -> kn (upd t c (Some v)) e = kn t e || (e =? c).
Proof.
  intros Hc. unfold kn. destruct (Nat.eqb_spec e c) as [->|Hne].
  - rewrite nth_upd_eq by exact Hc. symmetry. apply orb_true_r.
  - rewrite nth_upd_neq by (intros E; exact (Hne (eq_sym E))). symmetry. apply orb_false_r.
Qed.

Lemma LogOK_single t c v : nth c t None = None -> c < length t -> LogOK t (upd t c (Some v)) [c].
Proof.
  intros Hn Hc. assert (Hkc : kn t c = false) by (unfold kn; rewrite Hn; reflexivity).
  split; [|split].
  - intros e He. rewrite kn_upd, He by exact Hc. reflexivity.
  - constructor; [intros []|constructor].
  - intros e. rewrite kn_upd by exact Hc. cbn [In]. destruct (Nat.eqb_spec e c) as [->|Hne].
    + rewrite Hkc. tauto.
    + rewrite orb_false_r. split; [intros [E|[]]; congruence|intros [A B]; congruence].
Qed.

Lemma LogOK_perm t t' l l' : Permutation l l' -> LogOK t t' l -> LogOK t t' l'.
Proof.
  intros Hp (Hm & Hn & Hi). split; [exact Hm|split].
  - exact (Permutation_NoDup Hp Hn).
  - intros e. rewrite <- (Hi e). split; apply Permutation_in; [apply Permutation_sym|]; exact Hp.
Qed.

(* for one call: c is the submitted column, l the log of the call *)
Lemma LogOK_first_inv t t' c l : LogOK t t' ((if kn t c then [] else [c]) ++ l) ->
  NoDup l /\ ~ In c l /\ (forall e, In e l <-> ((kn t e = false /\ kn t' e = true) /\ e <> c)).
Proof.
  intros (_ & Hn & Hi). destruct (kn t c) eqn:Hk; cbn [app] in *.
  - assert (Hc : ~ In c l) by (intros Hin; apply Hi in Hin; destruct Hin; congruence).
    split; [exact Hn|split; [exact Hc|]]. intros e. rewrite <- (Hi e).
    split; [intros He; split; [exact He|intros ->; exact (Hc He)]|tauto].
  - apply NoDup_cons_iff in Hn. destruct Hn as [Hc Hn]. split; [exact Hn|split; [exact Hc|]].
    intros e. rewrite <- (Hi e). cbn [In]. split.
    + intros He. split; [right; exact He|intros ->; exact (Hc He)].
    + intros [[->|He] Hne]; [congruence|exact He].
Qed.

(* The only hypothesis of the finish on the state: the columns named by the rows (and the source columns) are entries of the
   table - otherwise a table write is silently lost. *)
Definition MLRng (s : st) : Prop := forall row x, In x (nth row (rws s) []) -> x < length (tab s).

Lemma MLRng_set_row (s : st) row rw u t : MLRng s -> (forall x, In x rw -> x < length (tab s)) ->
  MLRng (set_row s row rw u t).
Proof.
  intros HR Hrw row' x Hx. cbn [set_row rws tab] in *. rewrite upd_same, ListAux.nth_upd in Hx.
  destruct ((row' =? row) && (row <? length (rws s))); [apply Hrw; exact Hx|exact (HR row' x Hx)].
Qed.

Lemma MLRng_set_tab (s : st) c v : MLRng s -> MLRng (set_tab s c v).
Proof. intros HR row x Hx. cbn [set_tab rws tab] in *. rewrite upd_length. exact (HR row x Hx). Qed.

(* what a stretch of the finish does to (state, log): the log grows by the entries newly held; r and the
   length of the table stay *)
Definition StepOK '((s, l) : st * list nat) '((s', l') : st * list nat) : Prop :=
  exists l2, l' = l ++ l2 /\ r s' = r s /\ length (tab s') = length (tab s) /\ LogOK (tab s) (tab s') l2.

Lemma StepOK_refl p : StepOK p p.
Proof. destruct p as [s l]. exists []. rewrite app_nil_r. auto using LogOK_refl. Qed.

Lemma StepOK_trans p1 p2 p3 : StepOK p1 p2 -> StepOK p2 p3 -> StepOK p1 p3.
Proof.
  destruct p1 as [s1 l1], p2 as [s2 l2], p3 as [s3 l3]. intros (la & -> & R1 & T1 & L1) (lb & -> & R2 & T2 & L2).
  exists (la ++ lb). rewrite app_assoc.
  split; [reflexivity|split; [congruence|split; [congruence|exact (LogOK_app _ _ _ _ _ L1 L2)]]].
Qed.

(* the loops of the finish keep MLRng and are StepOK as soon as their steps are *)
Definition fold_log {X} F := @fold_opt_rel (st * list nat) X (fun p => MLRng (fst p)) StepOK F StepOK_refl StepOK_trans.

End LOGK.

Section LOG.
Variable Sy : Type. Variable sxor : Sy -> Sy -> Sy. Variable s0 : Sy.
Notation st := (st Sy).
Notation MLRng := (MLRng Sy).
Notation StepOK := (StepOK Sy).
Notation LogOK := (LogOK Sy).
Notation newly := (newly Sy).

Definition SimContract (rec : st -> nat -> Sy -> option (st * list nat)) : Prop :=
  forall s c v s' l, MLRng s -> rec s c v = Some (s', l) -> MLRng s' /\ StepOK (s, []) (s', l).

Lemma srow_ev_step rec c v : SimContract rec -> forall p row p', MLRng (fst p) ->
  srow_ev Sy sxor rec c v (Some p) row = Some p' -> MLRng (fst p') /\ StepOK p p'.
Proof.
  intros HC [s l] row [s' l'] HR H. cbn [fst] in *. unfold srow_ev in H. cbv zeta in H.
  set (t := match nth row (ct s) None with Some t => sxor t v | None => v end) in *.
  set (u := getn (unk s) row - 1) in *.
  set (rw := rm c (nth row (rws s) [])) in *.
  assert (Hrw : forall x, In x rw -> x < length (tab s)).
  { intros x Hx. apply filter_In in Hx. exact (HR row x (proj1 Hx)). }
  assert (Hsame : MLRng (set_row s row rw u (Some t)) /\ StepOK (s, l) (set_row s row rw u (Some t), l)).
  { split; [apply MLRng_set_row; assumption|exact (StepOK_refl Sy (s, l))]. }
  destruct (u =? 1); [|injection H as <- <-; exact Hsame].
  destruct rw as [|c' rest] eqn:Erw; [discriminate|].
  cbn [set_row tab] in H. destruct (nth c' (tab s) None) as [w|] eqn:Ec'; [injection H as <- <-; exact Hsame|].
  match type of H with match rec ?a ?b ?d with Some _ => _ | None => _ end = _ =>
    destruct (rec a b d) as [[s2 l2]|] eqn:Erec; [|discriminate]; set (sm := a) in * end.
  injection H as <- <-.
  assert (Hc' : c' < length (tab s)) by (apply Hrw; left; reflexivity).
  assert (HRm : MLRng sm).
  { apply MLRng_set_tab, MLRng_set_row; [exact (proj1 Hsame)|].
    intros x Hx. apply filter_In in Hx. apply Hrw, Hx. }
  destruct (HC sm c' t s2 l2 HRm Erec) as (HR2 & la & -> & R2 & T2 & L2). cbn [app].
  split; [exact HR2|]. exists (c' :: la). split; [reflexivity|split; [exact R2|split]].
  - rewrite T2. apply upd_length.
  - exact (LogOK_app Sy _ _ _ [c'] la (LogOK_single Sy _ _ _ Ec' Hc') L2).
Qed.

Lemma simplify_ev_contract : forall fuel, SimContract (simplify_ev sxor fuel).
Proof.
  induction fuel as [|f IH]; intros s c v s' l HR H; [discriminate|].
  rewrite simplify_ev_unfold in H. destruct (rows_with s c) as [|row0 rowsl].
  - injection H as <- <-. split; [exact HR|apply StepOK_refl].
  - cbv zeta in H. destruct (early_fnd Sy s c) as [i E].
    destruct (if r s <=? c then is_complete s else (false, s)) as [cf se]. cbn [fst snd] in *. subst se.
    destruct cf; [injection H as <- <-; split; [exact HR|exact (StepOK_refl Sy (s, []))]|].
    exact (fold_log Sy _ (fun _ => eq_refl) (srow_ev_step _ c v IH) _ (set_fnd s i, []) (s', l) HR H).
Qed.

Theorem simplify_ev_log fuel (s : st) c v s' l : MLRng s -> simplify_ev sxor fuel s c v = Some (s', l) ->
  NoDup l /\ forall e, In e l <-> newly s s' e.
Proof.
  intros HR H. destruct (simplify_ev_contract fuel s c v s' l HR H) as (_ & l2 & -> & _ & _ & _ & Hn & Hi).
  exact (conj Hn Hi).
Qed.

Lemma inject_ev_step fuel p c p' : MLRng (fst p) ->
  inject_ev sxor fuel (Some p) c = Some p' -> MLRng (fst p') /\ StepOK p p'.
Proof.
  destruct p as [s l], p' as [s' l']. intros HR H. cbn [inject_ev fst] in *. destruct (nth c (tab s) None) as [v|].
  - destruct (simplify_ev sxor fuel s c v) as [[s2 l2]|] eqn:E; [|discriminate]. injection H as <- <-.
    destruct (simplify_ev_contract fuel s c v s2 l2 HR E) as (HR2 & la & -> & Hs).
    split; [exact HR2|]. exists la. exact (conj eq_refl Hs).
  - injection H as <- <-. split; [exact HR|apply StepOK_refl].
Qed.

Lemma write_back_log : forall (srcs : list nat) (x : list Sy) pos (tb : list (option Sy)),
  NoDup srcs -> (forall c, In c srcs -> c < length tb) ->
  LogOK tb (write_back s0 srcs x pos tb)
        (filter (fun c => match nth c tb None with None => true | Some _ => false end) srcs).
Proof.
  induction srcs as [|c srcs IH]; intros x pos tb Hnd Hr; [apply LogOK_refl|].
  apply NoDup_cons_iff in Hnd. destruct Hnd as [Hc Hnd]. cbn [write_back filter].
  destruct (nth c tb None) as [w|] eqn:Ec.
  - apply IH; [exact Hnd|]. intros c0 H0. apply Hr. right. exact H0.
  - apply (LogOK_app Sy _ (upd tb c (Some (nth pos x s0))) _ [c]).
    + apply LogOK_single; [exact Ec|apply Hr; left; reflexivity].
    + rewrite (filter_ext_in _ (fun c0 => match nth c0 (upd tb c (Some (nth pos x s0))) None with
                                           None => true | Some _ => false end)).
      * apply IH; [exact Hnd|]. intros c0 H0. rewrite upd_length. apply Hr. right. exact H0.
      * intros c0 H0. rewrite nth_upd_neq; [reflexivity|]. intros ->. exact (Hc H0).
Qed.

(* the whole finish: the log lists exactly once every column that becomes known during the call
   (sources AND repairs: the repairs found by the solver are not stored, hence not newly known) *)
Theorem ml_finish_ev_logok fuel perm (s : st) o l : MLRng s -> n s <= length (tab s) ->
  ml_finish_ev sxor s0 fuel perm s = Some (o, l) -> LogOK (tab s) (tab (o_st o)) l.
Proof.
  intros HR Hn H. unfold ml_finish_ev in H. cbv zeta in H. rewrite <- fold_left_app in H.
  pose proof (ml_finish_shape Sy sxor s0 fuel perm s) as Hs.
  set (srcs := map (fun i => r s + i) (seq 0 (n s - r s))) in *.
  pose proof (inject_ev_fold_erase Sy sxor fuel (srcs ++ perm) (Some (prepar s, []))) as He.
  cbn [erase] in He. rewrite <- He in Hs. clear He.
  destruct (fold_left (inject_ev sxor fuel) (srcs ++ perm) (Some (prepar s, []))) as [[s1 l1]|] eqn:Hf; [|discriminate].
  cbn [erase] in Hs. destruct Hs as (o' & Ho & _ & _ & Ht). rewrite Ho in H. injection H as <- <-.
  destruct (fold_log Sy _ (fun _ => eq_refl) (inject_ev_step fuel) _ (prepar s, []) (s1, l1) HR Hf)
    as (_ & l2 & -> & Pr & Pt & HL).
  cbn [app prepar r tab] in *.
  destruct Ht as [(-> & ->)|(-> & x & pos & ->)]; [exact HL|].
  apply (LogOK_app Sy _ _ _ _ _ HL). rewrite Pr. subst srcs. rewrite map_add_seq. apply write_back_log.
  - apply seq_NoDup.
  - intros c Hc. apply in_seq in Hc. lia.
Qed.
End LOG.

(* the streaming decoder, on the states of ITProofs (WF, Inv / PInv, Good) *)
Section ITLOG.
Variable Sy : Type. Variable sxor : Sy -> Sy -> Sy. Variable s0 : Sy.
Notation st := (st Sy).
Variable H0 : list (list nat).
Variable R0 N0 : nat.
Hypothesis H0_len : length H0 = R0.
Hypothesis H0_nodup : forall i, i < R0 -> NoDup (nth i H0 []).
Hypothesis H0_range : forall i c, i < R0 -> In c (nth i H0 []) -> c < N0.
Hypothesis H0_deg : forall i, i < R0 -> 2 <= length (nth i H0 []).
Hypothesis R_le_N : R0 <= N0.

Notation WF := (WF Sy R0 N0).
Notation Inv := (Inv Sy H0 R0).
Notation PInv := (PInv Sy H0 R0).
Notation Good := (Good Sy H0 R0 N0).
Notation iscomp := (iscomp Sy R0 N0).
Notation Contract := (Contract Sy H0 R0 N0).
Notation LogOK := (LogOK Sy).
Notation newly := (newly Sy).

Definition EvContract (dec_ev : st -> nat -> Sy -> option (st * list nat)) : Prop :=
  forall s e v s' l, WF s -> iscomp s \/ PInv s e -> known s e = false -> e < N0 -> dec_ev s e v = Some (s', l) ->
  LogOK (tab s) (tab s') (e :: l).

(* step 3 logs the column of each ready row, then what the nested call logs; the states are taken from the contract
   of the plain decoder *)
Lemma step3_ev_log dec_ev dec : Contract dec -> (forall s c v, erase (dec_ev s c v) = dec s c v) ->
  EvContract dec_ev -> forall L (s s' : st) l,
  WF s -> iscomp s \/ Inv s -> step3_ev dec_ev L s = Some (s', l) -> LogOK (tab s) (tab s') l.
Proof.
  intros HC Her HE. induction L as [|row L' IH]; intros s s' l W HG H.
  - cbn [step3_ev] in H. injection H as <- <-. apply LogOK_refl.
  - rewrite step3_ev_cons in H.
    pose proof (step3_iter Sy sxor s0 H0 R0 N0 H0_len H0_range H0_deg R_le_N dec s row HC W HG) as Hs.
    destruct (is_complete s) as [b s1]. destruct Hs as (W1 & T1 & _ & Hb). rewrite <- T1.
    destruct b; [injection H as <- <-; apply LogOK_refl|]. destruct (Hb eq_refl) as (HI1 & Hready).
    destruct (getn (enc s1) row =? 1) eqn:E1; [|exact (IH s1 s' l W1 (or_intror HI1) H)].
    destruct (Hready (proj1 (Nat.eqb_eq _ _) E1)) as (cc & t & Hr & Hct & Wc & Pc & Kc & Cc & Hnest).
    rewrite Hr, Hct in H.
    destruct (dec_ev (consume s1 row) cc t) as [[s2 e1]|] eqn:Ed; [|discriminate].
    destruct (step3_ev dec_ev L' s2) as [[s3 e2]|] eqn:E3; [|discriminate].
    injection H as <- <-.
    destruct (Hnest s2) as (W2 & HG2); [rewrite <- Her, Ed; reflexivity|].
    exact (LogOK_app Sy _ _ _ (cc :: e1) e2 (HE _ _ _ _ _ Wc (or_intror Pc) Kc Cc Ed) (IH s2 s3 e2 W2 HG2 E3)).
Qed.

Lemma decode_ev_contract : forall fuel, EvContract (decode_ev sxor s0 fuel).
Proof.
  induction fuel as [|f IH]; intros s e v s' l W HG Hke He Hdec; [discriminate|].
  assert (H1 : LogOK (tab s) (upd (tab s) e (Some v)) [e]).
  { apply LogOK_single; [exact (known_false_nth s e Hke)|rewrite (wf_tab Sy R0 N0 s W); exact He]. }
  rewrite decode_ev_unfold, Hke in Hdec. cbv zeta in Hdec.
  destruct (decode_steps12 Sy sxor s0 H0 R0 N0 H0_len H0_nodup H0_range H0_deg R_le_N s e v W HG Hke He)
    as (b & i & Ee & _ & H2).
  rewrite Ee in Hdec. cbn [fst snd] in Hdec. destruct b; [injection Hdec as <- <-; exact H1|].
  destruct (step2 sxor s0 (set_fnd (set_tab s e v) i) e v) as [s2 L]. destruct H2 as (W2 & T2 & HG2).
  apply (LogOK_app Sy _ _ _ [e] l H1). rewrite <- T2.
  exact (step3_ev_log (decode_ev sxor s0 f) (decode sxor s0 f)
           (decode_contract Sy sxor s0 H0 R0 N0 H0_len H0_nodup H0_range H0_deg R_le_N f)
           (decode_ev_erase Sy sxor s0 f) IH (rev L) s2 s' l W2 HG2 Hdec).
Qed.

(* one call, complete state or not: the submitted column (if it was unknown) followed by the log *)
Theorem decode_ev_logok fuel (s : st) c v s' l : WF s -> iscomp s \/ PInv s c -> c < N0 ->
  decode_ev sxor s0 fuel s c v = Some (s', l) ->
  LogOK (tab s) (tab s') ((if known s c then [] else [c]) ++ l).
Proof.
  intros W HG Hc H. destruct (known s c) eqn:Hk; [|exact (decode_ev_contract fuel s c v s' l W HG Hk Hc H)].
  destruct fuel as [|f]; [discriminate|]. rewrite decode_ev_unfold, Hk in H. injection H as <- <-. apply LogOK_refl.
Qed.

(* under the preconditions of ITProofs.decode_contract (nested calls included) *)
Theorem decode_ev_log fuel (s : st) c v s' l : WF s -> PInv s c -> c < N0 ->
  decode_ev sxor s0 fuel s c v = Some (s', l) ->
  NoDup l /\ ~ In c l /\ (forall e, In e l <-> (newly s s' e /\ e <> c)).
Proof. intros W HP Hc H. exact (LogOK_first_inv Sy _ _ c l (decode_ev_logok fuel s c v s' l W (or_intror HP) Hc H)). Qed.

Theorem decode_ev_log_good fuel (s : st) c v s' l : Good s -> c < N0 ->
  decode_ev sxor s0 fuel s c v = Some (s', l) ->
  NoDup l /\ ~ In c l /\ (forall e, In e l <-> (newly s s' e /\ e <> c)).
Proof.
  intros HG Hc H.
  exact (LogOK_first_inv Sy _ _ c l (decode_ev_logok fuel s c v s' l (proj1 HG) (Good_PInv Sy H0 R0 N0 s c HG) Hc H)).
Qed.

(* the columns submitted at a moment they were unknown ("received first"), in order *)
Fixpoint firsts (fuel : nat) (s : st) (hist : list (nat * Sy)) : list nat :=
  match hist with
  | [] => []
  | ev :: h =>
      (if known s (fst ev) then [] else [fst ev]) ++
      match decode sxor s0 fuel s (fst ev) (snd ev) with Some s' => firsts fuel s' h | None => [] end
  end.

Lemma firsts_sub fuel : forall hist (s : st) e, In e (firsts fuel s hist) -> In e (map fst hist).
Proof.
  induction hist as [|ev h IH]; intros s e He; [exact He|].
  cbn [firsts] in He. cbn [map]. apply in_app_or in He. destruct He as [He|He].
  - destruct (known s (fst ev)); [destruct He|]. destruct He as [<-|[]]. left. reflexivity.
  - destruct (decode sxor s0 fuel s (fst ev) (snd ev)) as [s1|]; [|destruct He]. right. exact (IH s1 e He).
Qed.

(* a session, from any Good state and any log so far: received-first columns and logged columns together are
   exactly the columns that became known, each listed once *)
Theorem run_ev_logok fuel : forall hist (s sf : st) l0 l, Good s -> (forall ev, In ev hist -> fst ev < N0) ->
  fold_left (estep Sy sxor s0 fuel) hist (Some (s, l0)) = Some (sf, l) ->
  exists l1, l = l0 ++ l1 /\ Good sf /\ LogOK (tab s) (tab sf) (firsts fuel s hist ++ l1).
Proof.
  induction hist as [|ev h IH]; intros s sf l0 l HG Hr H; cbn [fold_left] in H.
  - injection H as <- <-. exists []. rewrite app_nil_r. split; [reflexivity|split; [exact HG|apply LogOK_refl]].
  - cbn [estep] in H. destruct (decode_ev sxor s0 fuel s (fst ev) (snd ev)) as [[s1 l1]|] eqn:Ed;
      [|rewrite fold_left_None in H by reflexivity; discriminate].
    assert (Hev : fst ev < N0) by (apply Hr; left; reflexivity).
    pose proof (proj1 (decode_ev_sim Sy sxor s0 fuel s (fst ev) (snd ev)) s1 l1 Ed) as Hd.
    destruct (decode_keeps_good Sy sxor s0 H0 R0 N0 H0_len H0_nodup H0_range H0_deg R_le_N fuel s s1 (fst ev) (snd ev) HG Hev Hd)
      as (G1 & _).
    destruct (IH s1 sf (l0 ++ l1) l G1 (fun e He => Hr e (or_intror He)) H) as (l2 & -> & G2 & HL2).
    exists (l1 ++ l2). split; [symmetry; apply app_assoc|split; [exact G2|]].
    pose proof (LogOK_app Sy _ _ _ _ _ (decode_ev_logok fuel s (fst ev) (snd ev) s1 l1 (proj1 HG) (Good_PInv Sy H0 R0 N0 s _ HG) Hev Ed) HL2)
      as HL.
    cbn [firsts]. rewrite Hd. revert HL. apply LogOK_perm.
    rewrite <- !app_assoc. apply Permutation_app_head, Permutation_app_swap_app.
Qed.

Theorem run_ev_log fuel hist (sf : st) l : (forall ev, In ev hist -> fst ev < N0) ->
  run_ev sxor s0 fuel (init Sy R0 N0 H0) hist = Some (sf, l) ->
  let fs := firsts fuel (init Sy R0 N0 H0) hist in
  NoDup l /\ NoDup fs
  /\ (forall e, ~ (In e l /\ In e fs))
  /\ (forall e, known sf e = true -> In e l \/ In e fs)
  /\ (forall e, In e l <-> (known sf e = true /\ ~ In e fs))
  /\ (forall e, In e fs -> known sf e = true /\ In e (map fst hist)).
Proof.
  intros Hr H fs.
  destruct (init_good Sy sxor s0 H0 R0 N0 H0_len H0_deg R_le_N) as (G0 & K0).
  destruct (run_ev_logok fuel hist _ sf [] l G0 Hr H) as (l1 & -> & _ & _ & Hn & Hi). cbn [app] in *. fold fs in Hn, Hi.
  apply NoDup_app_iff in Hn. destruct Hn as (Nf & Nl & Hd).
  assert (Hall : forall e, In e fs \/ In e l1 <-> known sf e = true).
  { intros e. rewrite <- in_app_iff, (Hi e). split; [intros [_ Hb]; exact Hb|intros Hb; split; [apply K0|exact Hb]]. }
  split; [exact Nl|split; [exact Nf|]].
  split; [|split; [|split]]; intros e; specialize (Hall e); specialize (Hd e); [tauto|tauto|tauto|].
  intros He. split; [tauto|exact (firsts_sub fuel hist _ e He)].
Qed.

(* the row/column hypothesis of the finish holds on every state whose rows are sub-rows of the matrix
   (the states the streaming decoder leaves behind, and those of the simplification) *)
Lemma MLRng_of_rows (s : st) : WF s -> (forall i, i < R0 -> incl (nth i (rws s) []) (nth i H0 [])) ->
  MLRng Sy s /\ n s <= length (tab s).
Proof.
  intros W Hsub. split.
  - intros row x Hx. rewrite (wf_tab Sy R0 N0 s W).
    destruct (Nat.lt_ge_cases row R0) as [Hlt|Hge].
    + exact (H0_range row x Hlt (Hsub row Hlt x Hx)).
    + rewrite nth_overflow in Hx by (rewrite (wf_rws Sy R0 N0 s W); exact Hge). destruct Hx.
  - rewrite (wf_tab Sy R0 N0 s W), (wf_n Sy R0 N0 s W). apply Nat.le_refl.
Qed.

Corollary ml_finish_ev_log_wf fuel perm (s : st) o l : WF s ->
  (forall i, i < R0 -> incl (nth i (rws s) []) (nth i H0 [])) ->
  ml_finish_ev sxor s0 fuel perm s = Some (o, l) ->
  NoDup l
  /\ (forall e, In e l -> known s e = false /\ known (o_st o) e = true)
  /\ (forall e, known s e = false -> known (o_st o) e = true -> In e l).
Proof.
  intros W Hsub H. destruct (MLRng_of_rows s W Hsub) as (HR & Hn).
  destruct (ml_finish_ev_logok Sy sxor s0 fuel perm s o l HR Hn H) as (_ & Hnd & Hi).
  split; [exact Hnd|split]; intros e; [apply Hi|intros A B; apply Hi; split; assumption].
Qed.
End ITLOG.

Print Assumptions decode_ev_sim.
Print Assumptions run_ev_sim.
Print Assumptions simplify_ev_sim.
Print Assumptions inject_ev_sim.
Print Assumptions ml_finish_ev_sim.
Print Assumptions decode_ev_log.
Print Assumptions decode_ev_log_good.
Print Assumptions run_ev_logok.
Print Assumptions run_ev_log.
Print Assumptions simplify_ev_log.
Print Assumptions ml_finish_ev_logok.
Print Assumptions MLRng_of_rows.
Print Assumptions ml_finish_ev_log_wf.
