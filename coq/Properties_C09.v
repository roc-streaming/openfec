(* C09 — parameters are validated: accepted <=> inside the advertised limits.
   Params.v holds the decisions of the three set_fec_parameters functions on the 32-bit values the
   C sees, with the limits re-read from /repo's headers on every run (gen/GenConsts.v).  They are TIED TO THE SOURCE TEXT:
   gen/GenParams.v is regenerated on every run from the parameter checks at the head of the three functions and of the
   matrix construction (tools/gen_params.py; clang parses, c2gallina gives the expressions C's integer semantics), and the
   theorems *_source_checks_* below prove, for every value the C types can hold, that the generated code is defined and
   decides exactly accept_*.  The check also compares the decisions with the compiled C on an exhaustive boundary grid.
   RS over GF(2^m) is a known finding: n is never compared with the field size (the repository's own
   test RS_2m_4.src1 relies on it), so the full statement is refuted there and holds outside that class. *)
From Coq Require Import ZArith Bool Lia ZifyBool.
From OFV Require Import CSem Params ParamsProofs ParamsTie ApiArgs ApiArgsProofs.
From OFV.gen Require Import GenConsts GenParams.
Local Open Scope Z_scope.

Theorem accept_ldpc_iff_limits : forall k r L n1 seed,
  0 <= k < 2^32 -> 0 <= r < 2^32 -> accept_ldpc k r L n1 seed = limits_ldpc k r L n1 seed.
Proof. exact accept_ldpc_iff_limits_proof. Qed.

Theorem accept_rs28_iff_limits : forall k r L, 0 <= k -> 0 <= r -> accept_rs28 k r L = limits_rs28 k r L.
Proof. intros k r L Hk Hr. unfold accept_rs28, limits_rs28, c_rs28_max_k, c_rs28_max_n. lia. Qed.

Theorem accept_rs2m_iff_limits_refuted : exists m k r L, accept_rs2m m k r L = true /\ limits_rs2m m k r L = false.
Proof. exists 4, 1, 23, 1024. split; reflexivity. Qed.   (* the configuration of test RS_2m_4.src1 *)

Theorem accept_rs2m_iff_limits_holds_outside_class : forall m k r L, 0 <= k -> 0 <= r ->
  (k + r <= 2 ^ m - 1 \/ accept_rs2m m k r L = false) -> accept_rs2m m k r L = limits_rs2m m k r L.
Proof.
  intros m k r L Hk Hr H. unfold accept_rs2m, limits_rs2m in *.
  destruct (Z.eq_dec m 4) as [->|N4]; [change (2 ^ 4 - 1) with 15 in *; lia|].
  destruct (Z.eq_dec m 8) as [->|N8]; [change (2 ^ 8 - 1) with 255 in *; lia|].
  replace (m =? 4) with false by lia. replace (m =? 8) with false by lia. reflexivity.
Qed.

(* accepted LDPC configurations satisfy the premises the LDPC theorems need *)
Theorem accept_ldpc_implies_valid : forall k r L n1 seed, 0 <= k < 2^32 -> 0 <= r < 2^32 -> accept_ldpc k r L n1 seed = true ->
  1 <= k /\ 3 <= n1 <= r /\ 1 <= L /\ 1 <= seed <= 2147483646 /\ k + r <= 50000.
Proof. exact accept_ldpc_valid_proof. Qed.

Example accepted_at_the_limits : accept_ldpc 50000 0 1 3 1 = false /\ accept_ldpc 49997 3 1 3 2147483646 = true /\
  accept_rs28 254 1 1 = true /\ accept_rs28 255 1 1 = false /\ accept_rs2m 8 200 55 7 = true.
Proof. vm_compute. repeat split. Qed.

(* the decision functions are what the source text says (translator output) *)
Theorem rs28_source_checks_decide_accept : forall k r L, is_u32 k -> is_u32 r -> is_u32 L ->
  rs28_prefix k c_rs28_max_k r L c_rs28_max_n = Some (accept_rs28 k r L).
Proof. exact rs28_prefix_is_accept. Qed.
Theorem rs2m_source_checks_decide_accept : forall m k r L, 0 <= m < 65536 -> is_u32 k -> is_u32 r -> is_u32 L ->
  rs2m_prefix m k r L = Some (accept_rs2m m k r L).
Proof. exact rs2m_prefix_is_accept. Qed.
Theorem ldpc_source_checks_decide_accept : forall k r L n1 seed, is_u32 k -> is_u32 r -> is_u32 L -> 0 <= n1 < 256 ->
  -2147483648 <= seed < 2147483648 ->
  (ldpc_prefix n1 k r L seed c_ldpc_max_k c_ldpc_max_n = Some true /\ pchk_prefix r (u32 (k + r)) n1 (wrapu32 seed) = Some true)
  <-> accept_ldpc k r L n1 seed = true.
Proof. exact ldpc_checks_pass_iff_accept. Qed.
Theorem ldpc_source_checks_never_undefined : forall k r L n1 seed, is_u32 k -> is_u32 r -> is_u32 L -> 0 <= n1 < 256 ->
  -2147483648 <= seed < 2147483648 ->
  match ldpc_prefix n1 k r L seed c_ldpc_max_k c_ldpc_max_n with
  | Some true => pchk_prefix r (u32 (k + r)) n1 (wrapu32 seed) = Some (accept_ldpc k r L n1 seed)
  | Some false => accept_ldpc k r L n1 seed = false
  | None => False
  end.
Proof. exact ldpc_prefix_is_accept. Qed.

Print Assumptions rs28_source_checks_decide_accept.
Print Assumptions rs2m_source_checks_decide_accept.
Print Assumptions ldpc_source_checks_decide_accept.
Print Assumptions accept_ldpc_iff_limits.
Print Assumptions accept_rs2m_iff_limits_holds_outside_class.

(* Second half of the property: encoding, decoding and query calls.  ApiArgs.v mirrors the tests every API function
   makes before it hands the call to a codec (NULL session, role, ESI range, the pointers it tests) plus the ESI test
   of the codecs' build functions; the check runs a grid of such calls on the compiled C for every codec and role. *)

(* a call reaches the codec exactly when it is inside the documented domain *)
Theorem api_dispatch_iff_domain : forall (s : option ses) (c : call),
  (forall ss, s = Some ss -> 0 <= s_k ss /\ 0 <= s_r ss /\ s_k ss + s_r ss < 2 ^ 32) ->
  (api_verdict s c = VDispatch <-> in_domain s c).
Proof. exact api_dispatch_iff_domain_proof. Qed.

(* every other call reports an error (false for the completion query) ... *)
Theorem api_refused_is_error : forall (s : option ses) (c : call),
  api_verdict s c <> VDispatch ->
  (c = CIsComplete /\ api_verdict s c = VFalse) \/ (c <> CIsComplete /\ status_of (api_verdict s c) <> 0).
Proof. exact api_refused_is_error_proof. Qed.

(* ... and returns before the codec is entered.  api_step is that early return written down (no codec model is run
   through it), so this reads its definition back: whatever the state type and step function, the state is unchanged *)
Theorem api_refused_keeps_state : forall (St Out : Type) (dispatch : St -> call -> St * Out) (refused : verdict -> Out) info st c,
  api_verdict info c <> VDispatch -> fst (api_step dispatch refused info st c) = st.
Proof. intros. apply api_refused_keeps_state_proof. assumption. Qed.

Example api_examples :
  let d := Some {| s_role := RDec; s_codec := 3; s_k := 10; s_r := 6 |} in
  let e := Some {| s_role := REnc; s_codec := 1; s_k := 10; s_r := 6 |} in
  api_verdict d (CDecode false 15) = VDispatch /\ api_verdict d (CDecode false 16) = VFatal /\ api_verdict d (CBuild 10) = VFatal /\
  api_verdict e (CBuild 9) = VError /\ api_verdict e (CBuild 10) = VDispatch /\ api_verdict e (CBuild 16) = VError /\
  api_verdict e CFinish = VFatal /\ api_verdict None CIsComplete = VFalse /\ api_verdict d (CGetCtl 1024 false 1) = VDispatch.
Proof. vm_compute. repeat split. Qed.

Print Assumptions api_dispatch_iff_domain.
Print Assumptions api_refused_is_error.
