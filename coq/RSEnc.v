(* Model of the Reed-Solomon encoders at symbol level (of_rs_encode / of_rs_2m_encode: repair symbol
   j = sum over i of G[j][i] * source symbol i, byte by byte; for GF(2^4) every byte carries two field
   elements).  G is the canonical generator of RSCanon.v (coefN = Lagrange basis on the points
   0, 1, x, x^2, ...); gen_row computes one row with the k inverses shared between the rows, and is
   proved equal to coefN.  This is what the extracted model runs against the C encoders. *)
From Coq Require Import List Arith NArith Bool Lia.
From OFV Require Import ListAux GF2Poly RSSpec GFField RSCanon.
Import ListNotations.
Local Open Scope N_scope.

Definition others (k i : nat) : list nat := filter (fun j => negb (Nat.eqb j i)) (seq 0 k).
Definition xorl (l : list N) : N := fold_right N.lxor 0 l.

Section G.
Variables (m p : N) (mul : N -> N -> N) (inv : N -> N).

(* the point list is computed once and shared (the extracted code is strict) *)
Definition invden_p (pts : list N) (k i : nat) : N :=
  inv (prod N 1 mul (map (fun j => N.lxor (nth i pts 0) (nth j pts 0)) (others k i))).
Definition invdens (k : nat) : list N := let pts := ptsN m p k in map (invden_p pts k) (seq 0 k).
Definition gen_row_p (pts ivd : list N) (k : nat) (x : N) : list N :=
  map (fun i => mul (prod N 1 mul (map (fun t => N.lxor x (nth t pts 0)) (others k i))) (nth i ivd 0)) (seq 0 k).
Definition gen_row (ivd : list N) (k j : nat) : list N := gen_row_p (ptsN m p k) ivd k (rs_point m p j).

Lemma gen_row_nth k i j : (i < k)%nat -> nth i (gen_row (invdens k) k j) 0 = coefN m p mul inv k i j.
Proof.
  intros Hi. unfold gen_row, gen_row_p. rewrite nth_map_seq by exact Hi.
  unfold invdens. cbv zeta. rewrite nth_map_seq by exact Hi.
  unfold coefN, lagr_nd, invden_p, others, sub. rewrite ptsN_length. reflexivity.
Qed.

Lemma gen_row_length ivd k j : length (gen_row ivd k j) = k.
Proof. unfold gen_row, gen_row_p. now rewrite map_length, seq_length. Qed.

Lemma gen_row_coefs k j : gen_row (invdens k) k j = map (fun i => coefN m p mul inv k i j) (seq 0 k).
Proof.
  rewrite <- (map_nth_seq (gen_row _ k j) 0), gen_row_length.
  apply map_ext_in. intros i Hi. apply in_seq in Hi. now rewrite gen_row_nth by lia.
Qed.

(* sum over i < k of row_i * (element i of the sources) *)
Definition dotN (row els : list N) : N := xorl (map (fun '(c, s) => mul s c) (combine row els)).

Lemma dotN_elem k j els : length els = k ->
  dotN (gen_row (invdens k) k j) els = elemN m p mul inv k els j.
Proof.
  intros Hl. unfold dotN, elemN, xorl.
  rewrite (combine_seq _ _ 0 0), map_map, gen_row_length by (rewrite gen_row_length; congruence).
  f_equal. apply map_ext_in. intros i Hi. apply in_seq in Hi.
  rewrite gen_row_nth by lia. reflexivity.
Qed.
End G.

(* symbol level: symbols are byte lists of length L *)
Definition byte_col (src : list (list N)) (b : nat) : list N := map (fun s => nth b s 0) src.

(* GF(2^8): one element per byte *)
Definition rs8_repair (k L : nat) (ivd : list N) (src : list (list N)) (j : nat) : list N :=
  let row := gen_row 8 P256 mul256 ivd k j in
  map (fun b => dotN mul256 row (byte_col src b)) (seq 0 L).
(* GF(2^4): two elements per byte, high and low nibble encoded independently *)
Definition rs4_repair (k L : nat) (ivd : list N) (src : list (list N)) (j : nat) : list N :=
  let row := gen_row 4 P16 mul16 ivd k j in
  map (fun b => N.lor (N.shiftl (dotN mul16 row (map (fun x => N.shiftr x 4) (byte_col src b))) 4)
                      (dotN mul16 row (map (fun x => N.land x 15) (byte_col src b)))) (seq 0 L).

(* all repair symbols of a block: m = 8 or 4, n - k repair symbols *)
Definition rs_repairs (m8 : bool) (k n L : nat) (src : list (list N)) : list (list N) :=
  if m8 then let ivd := invdens 8 P256 mul256 inv256 k in map (rs8_repair k L ivd src) (seq k (n - k))
  else let ivd := invdens 4 P16 mul16 inv16 k in map (rs4_repair k L ivd src) (seq k (n - k)).

Lemma rs8_repair_byte k L src j b : length src = k -> (b < L)%nat ->
  nth b (rs8_repair k L (invdens 8 P256 mul256 inv256 k) src j) 0 = elem256 k (byte_col src b) j.
Proof.
  intros Hl Hb. unfold rs8_repair. rewrite nth_map_seq by exact Hb.
  apply dotN_elem. unfold byte_col. now rewrite map_length.
Qed.

Lemma rs4_repair_byte k L src j b : length src = k -> (b < L)%nat ->
  nth b (rs4_repair k L (invdens 4 P16 mul16 inv16 k) src j) 0 =
  N.lor (N.shiftl (elem16 k (map (fun x => N.shiftr x 4) (byte_col src b)) j) 4)
        (elem16 k (map (fun x => N.land x 15) (byte_col src b)) j).
Proof.
  intros Hl Hb. unfold rs4_repair. rewrite nth_map_seq by exact Hb.
  rewrite !dotN_elem by (unfold byte_col; now rewrite !map_length). reflexivity.
Qed.
