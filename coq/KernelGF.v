(* C13, GF part: the multiply-accumulate kernels instantiated with the table rows of /repo
   (gen/GenTables.v, proved to be the field in C14) compute the bytewise field definition. *)
From Coq Require Import NArith ZArith Arith List Bool Lia.
From OFV Require Import ListAux GF2Poly GFField Tables TablesProofs RS28Gen RS28GenProofs Kernels KernelProofs WordBytes.
From OFV.gen Require Import GenTables.
Import ListNotations.
Local Open Scope N_scope.

(* a table row that is f below `bound`, applied to operands below `bound` *)
Lemma addmul1_row (row f : N -> N) bound dst src sz : (0 <= sz)%Z -> 0 < bound ->
  (forall s, s < bound -> row s = f s) -> Forall (fun b => b < bound) src ->
  addmul1 row dst src sz = upd_range (fun i x => N.lxor x (f (nth i src 0))) 0 (Z.to_nat sz) dst.
Proof.
  intros Hsz H0 Hrow Hs. rewrite addmul1_spec by exact Hsz. apply upd_range_ext. intros j _ _. f_equal.
  apply Hrow, Forall_nth_default; assumption.
Qed.

Definition pack16 (c s : N) : N := N.lor (N.shiftl (mul16 c (N.shiftr s 4)) 4) (mul16 c (N.land s 15)).

Lemma nibbles s : s < 256 -> N.shiftr s 4 < 16 /\ N.land s 15 < 16.
Proof.
  intros H. change 15 with (N.ones 4). rewrite N.land_ones, N.shiftr_div_pow2.
  split; [apply N.div_lt_upper_bound; [discriminate|exact H]|apply N.mod_lt; discriminate].
Qed.

(* GF_ADDMULC_COMPACT works on the two nibbles separately; with x = xl + 16 xh this is the XOR of
   the byte x with the byte pl + 16 ph, digit by digit *)
Lemma nib_xor x ph pl : x < 256 -> ph < 16 -> pl < 16 ->
  (N.lor (N.shiftl (N.lxor (N.shiftr x 4) ph) 4) (N.lxor (N.land x 15) pl)) mod 256
  = N.lxor x (N.lor (N.shiftl ph 4) pl).
Proof.
  intros Hx Hh Hl. destruct (nibbles x Hx) as [Hxh Hxl]. revert Hxh Hxl.
  change 15 with (N.ones 4). rewrite N.land_ones, N.shiftr_div_pow2. intros Hxh Hxl.
  rewrite (split_digit 4 x) at 3.
  rewrite !(N.lor_comm (N.shiftl _ 4)), !(lor_shift_cons 4), (lxor_cons 4) by (try apply lxor_digit; assumption).
  apply N.mod_small. pose proof (lxor_digit 4 _ _ Hxh Hh). pose proof (lxor_digit 4 _ _ Hxl Hl).
  change (2^4) with 16 in *. lia.
Qed.

Lemma optrow_nibble c h : c < 16 -> h < 16 -> get2 gf24_optmul c h = mul16 c h.
Proof.
  intros Hc Hh. destruct gf24_tables_are_field_proof as (_ & Hopt & _). rewrite Hopt by lia.
  change 15 with (N.ones 4). rewrite N.land_ones, N.shiftr_div_pow2, N.div_small, N.mod_small by exact Hh.
  rewrite (gf16_mul_comm c 0), gf16_mul_0_l by (assumption || reflexivity). reflexivity.
Qed.

Theorem addmul1_compact_gf16 c dst src sz : (0 <= sz)%Z -> c < 16 ->
  Forall (fun b => b < 256) dst -> Forall (fun b => b < 256) src ->
  addmul1_compact (get2 gf24_optmul c) dst src sz =
  upd_range (fun i x => N.lxor x (pack16 c (nth i src 0))) 0 (Z.to_nat sz) dst.
Proof.
  intros Hsz Hc Hd Hs. unfold addmul1_compact.
  destruct gf24_tables_are_field_proof as (_ & Hopt & _).
  assert (Hsrc : forall i, nth i src 0 < 256) by (intros i; apply Forall_nth_default; [exact Hs|reflexivity]).
  rewrite addmul_gen_spec.
  - apply upd_range_ext. intros j _ _. unfold fmul. f_equal. apply Hopt; [exact Hc|apply Hsrc].
  - intros j _. unfold fnib, fmul. specialize (Hsrc j). destruct (nibbles _ Hsrc) as [Hh Hl].
    rewrite !optrow_nibble, (Hopt c _ Hc Hsrc) by assumption.
    apply nib_xor; [apply Forall_nth_default; [exact Hd|reflexivity]|apply gf16_closed; assumption..].
Qed.
