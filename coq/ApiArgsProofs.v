(* Proofs about ApiArgs.v: a call is handed to the codec exactly inside its documented domain; every other call
   returns an error status (false for the completion query) and leaves the session state untouched. *)
From Coq Require Import ZArith Bool Lia.
From OFV Require Import Params ApiArgs.
Local Open Scope Z_scope.

(* a row of the decision table: both directions by refuting or reading off the comparisons *)
Ltac table_row := split; intros HH; try discriminate HH; try solve [intuition (try discriminate; try congruence; try lia)].

Lemma api_dispatch_iff_domain_proof (s : option ses) (c : call) :
  (forall ss, s = Some ss -> 0 <= s_k ss /\ 0 <= s_r ss /\ s_k ss + s_r ss < 2 ^ 32) ->
  (api_verdict s c = VDispatch <-> in_domain s c).
Proof.
  intros Hs. destruct s as [ss|].
  2:{ simpl. destruct c; split; intros H; try discriminate H; try contradiction. }
  destruct (Hs ss eq_refl) as (Hk & Hr & Hn).
  assert (Hu : u32 (s_k ss + s_r ss) = s_k ss + s_r ss) by (apply Z.mod_small; lia).
  unfold api_verdict, in_domain. rewrite Hu.
  destruct c as [esi|bufnull esi|tabnull| | | |srcnull repnull|type valnull len].
  - destruct (has_enc (s_role ss)); simpl; [|table_row].
    destruct (Z.ltb_spec esi (s_k ss)); destruct (Z.leb_spec (s_k ss + s_r ss) esi); simpl; table_row.
  - destruct (Z.leb_spec (s_k ss + s_r ss) esi); [table_row|].
    destruct bufnull; destruct (has_dec (s_role ss)); simpl; table_row.
  - destruct tabnull; destruct (has_dec (s_role ss)); simpl; table_row.
  - destruct (has_dec (s_role ss)); simpl; table_row.
  - destruct (has_dec (s_role ss)); simpl; table_row.
  - destruct (has_dec (s_role ss)); simpl; table_row.
  - destruct srcnull; destruct repnull; simpl; table_row.
  - destruct (Z.eqb_spec type 1); [|destruct (Z.eqb_spec type 2)]; simpl.
    + destruct valnull; destruct (Z.eqb_spec len 4); simpl; table_row.
    + destruct valnull; destruct (Z.eqb_spec len 4); simpl; table_row.
    + destruct (Z.eqb_spec type 1024); destruct (s_ldpc ss); simpl; table_row.
Qed.

Lemma api_refused_is_error_proof (s : option ses) (c : call) :
  api_verdict s c <> VDispatch ->
  (c = CIsComplete /\ api_verdict s c = VFalse) \/ (c <> CIsComplete /\ status_of (api_verdict s c) <> 0).
Proof.
  intros H. destruct (api_verdict s c) eqn:E.
  - contradiction H; reflexivity.
  - right. split; [|simpl; lia]. intros ->. destruct s as [ss|]; simpl in E; [destruct (has_dec (s_role ss)); discriminate E|discriminate E].
  - right. split; [|simpl; lia]. intros ->. destruct s as [ss|]; simpl in E; [destruct (has_dec (s_role ss)); discriminate E|discriminate E].
  - left. split; [|reflexivity]. destruct s as [ss|]; destruct c; simpl in E; try discriminate E; try reflexivity;
      repeat match type of E with context [if ?b then _ else _] => destruct b; try discriminate E end.
Qed.

Lemma api_refused_keeps_state_proof {St Out} (dispatch : St -> call -> St * Out) (refused : verdict -> Out) info st c :
  api_verdict info c <> VDispatch -> fst (api_step dispatch refused info st c) = st.
Proof. unfold api_step. intros H. destruct (api_verdict info c); [contradiction H; reflexivity|reflexivity..]. Qed.

Lemma api_accepted_is_dispatched_proof {St Out} (dispatch : St -> call -> St * Out) (refused : verdict -> Out) info st c :
  api_verdict info c = VDispatch -> api_step dispatch refused info st c = dispatch st c.
Proof. unfold api_step. intros ->. reflexivity. Qed.
