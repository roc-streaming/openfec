(* Corollaries of the IT = peeling theorem (C04): totality with linear fuel, independence of order
   and duplicates, completion flag. *)
From Coq Require Import List Arith Bool Lia.
From OFV Require Import ITModel ITLemmas ITProofs.
Import ListNotations.

Section C.
Variable Sy : Type. Variable sxor : Sy -> Sy -> Sy. Variable s0 : Sy.
Variable H0 : list (list nat). Variable R0 N0 : nat.
Hypothesis H0_len : length H0 = R0.
Hypothesis H0_nodup : forall i, i < R0 -> NoDup (nth i H0 []).
Hypothesis H0_range : forall i c, i < R0 -> In c (nth i H0 []) -> c < N0.
Hypothesis H0_deg : forall i, i < R0 -> 2 <= length (nth i H0 []).
Hypothesis R_le_N : R0 <= N0.

Let peelH := peel H0 R0.
Let runH := run Sy sxor s0 H0 R0 N0.

Lemma peel_ext (Rc Rc' : nat -> Prop) : (forall e, Rc e -> Rc' e) -> forall c, peelH Rc c -> peelH Rc' c.
Proof.
  intros Hsub c Hp. induction Hp as [c Hc|i c Hi Hin Hall IH].
  - apply peel_recv. auto.
  - apply (peel_row H0 R0 Rc' i c Hi Hin). exact IH.
Qed.

(* full statement of C04 for the model: for every history of in-range symbols (any order,
   repetitions allowed) the run succeeds and the available sources are exactly the source part of
   the peeling closure of the received set; complete <-> the closure has all sources *)
Theorem it_closure_full (hist : list (nat * Sy)) :
  (forall ev, In ev hist -> fst ev < N0) ->
  exists s, runH (S N0) hist = Some s /\
    let Rc := fun e => In e (map fst hist) in
    (forall c, R0 <= c < N0 -> (known s c = true <-> peelH Rc c)) /\
    ((forall c, R0 <= c < N0 -> known s c = true) <-> (forall c, R0 <= c < N0 -> peelH Rc c)).
Proof.
  intros Hr.
  destruct (run_total Sy sxor s0 H0 R0 N0 H0_len H0_nodup H0_range H0_deg R_le_N (S N0) hist ltac:(lia) Hr) as (s & Hs).
  exists s. split; [exact Hs|]. cbv zeta.
  destruct (it_is_peeling Sy sxor s0 H0 R0 N0 H0_len H0_nodup H0_range H0_deg R_le_N (S N0) hist s Hr Hs) as (A & B & _).
  split.
  - intros c Hc. split; [apply A|apply B; exact Hc].
  - split; intros H c Hc; [apply A, H, Hc|apply B; [exact Hc|apply H, Hc]].
Qed.

Lemma it_monotone_in_received (h1 h2 : list (nat * Sy)) s1 s2 :
  (forall ev, In ev h1 -> fst ev < N0) -> (forall ev, In ev h2 -> fst ev < N0) ->
  (forall e, In e (map fst h1) -> In e (map fst h2)) ->
  runH (S N0) h1 = Some s1 -> runH (S N0) h2 = Some s2 ->
  forall c, R0 <= c < N0 -> known s1 c = true -> known s2 c = true.
Proof.
  intros R1 R2 Hsub E1 E2 c Hc K1.
  destruct (it_is_peeling Sy sxor s0 H0 R0 N0 H0_len H0_nodup H0_range H0_deg R_le_N (S N0) h1 s1 R1 E1) as (A1 & _).
  destruct (it_is_peeling Sy sxor s0 H0 R0 N0 H0_len H0_nodup H0_range H0_deg R_le_N (S N0) h2 s2 R2 E2) as (_ & B2 & _).
  apply (B2 c Hc), (peel_ext _ _ Hsub), A1, K1.
Qed.

Theorem it_order_independent (h1 h2 : list (nat * Sy)) s1 s2 :
  (forall ev, In ev h1 -> fst ev < N0) -> (forall ev, In ev h2 -> fst ev < N0) ->
  (forall e, In e (map fst h1) <-> In e (map fst h2)) ->
  runH (S N0) h1 = Some s1 -> runH (S N0) h2 = Some s2 ->
  forall c, R0 <= c < N0 -> known s1 c = known s2 c.
Proof.
  intros R1 R2 Hset E1 E2 c Hc.
  pose proof (it_monotone_in_received h1 h2 s1 s2 R1 R2 (fun e => proj1 (Hset e)) E1 E2 c Hc) as H12.
  pose proof (it_monotone_in_received h2 h1 s2 s1 R2 R1 (fun e => proj2 (Hset e)) E2 E1 c Hc) as H21.
  destruct (known s1 c), (known s2 c); auto. symmetry. auto.
Qed.
End C.
