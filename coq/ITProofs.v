(* The streaming decoder of ITModel.v, in three layers.
   Structure (up to it_is_peeling).  A row is `lazy` (untouched and without a partial sum: only its counter unk is
   counted down), `ready` (it has a partial sum and holds exactly its unknown columns, at most one) or `consumed`
   (emptied).  Inv is the state between calls; PInv s e the state inside a call in which column e has been taken
   out of its row and is not yet stored, which is where decode s e starts; ready1 marks the rows step3 has still
   to consume.  Contract says what one call of decode does to these.  Good (well formed, and complete or Inv with
   no ready1 row) is what holds between the calls of a run: on completion decode stops early and leaves Inv
   broken, hence the disjunction.
   Totality: munk, the number of unknown columns, bounds the fuel.
   Values (from xs on): RJ and Keep hold in every reachable state, complete or not; they go through the induction
   principle decode_P of Section DecodeInd, which other files apply to invariants of their own. *)
From Coq Require Import List Arith Bool Lia. Import ListNotations.
From OFV Require Import ListAux ITModel ITLemmas.

Section P.
Variable Sy : Type. Variable sxor : Sy -> Sy -> Sy. Variable s0 : Sy.
Notation st := (st Sy).

Variable H0 : list (list nat).     (* original parity-check rows, as matrix columns *)
Variable R0 N0 : nat.              (* number of rows, number of columns *)
Hypothesis H0_len : length H0 = R0.
Hypothesis H0_nodup : forall i, i < R0 -> NoDup (nth i H0 []).
Hypothesis H0_range : forall i c, i < R0 -> In c (nth i H0 []) -> c < N0.
Hypothesis H0_deg : forall i, i < R0 -> 2 <= length (nth i H0 []).
Hypothesis R_le_N : R0 <= N0.

Definition Urow (kn:nat->bool) i := filter (fun c => negb (kn c)) (nth i H0 []).

Lemma Urow_In kn i c : In c (Urow kn i) <-> In c (nth i H0 []) /\ kn c = false.
Proof. unfold Urow. rewrite filter_In, negb_true_iff. reflexivity. Qed.

Record WF (s:st) : Prop := {
  wf_r : r s = R0; wf_n : n s = N0;
  wf_rws : length (rws s) = R0; wf_unk : length (unk s) = R0; wf_enc : length (enc s) = R0;
  wf_ct : length (ct s) = R0; wf_tab : length (tab s) = N0;
  wf_fnd : fnd s <= N0 - R0;
  wf_cur : forall j, j < fnd s -> known s (R0 + j) = true }.

Definition lazy kn (s:st) i := nth i (rws s) [] = nth i H0 [] /\ getn (unk s) i = length (Urow kn i)
   /\ getn (enc s) i = length (nth i H0 []) /\ 2 <= length (Urow kn i).
Definition consumed kn (pend:option nat) (s:st) i := nth i (rws s) [] = [] /\ getn (enc s) i = 0
   /\ forall c, In c (Urow kn i) -> pend = Some c.
Definition ready kn (s:st) i := nth i (rws s) [] = Urow kn i /\ length (Urow kn i) <= 1
   /\ getn (enc s) i = length (Urow kn i) /\ getn (unk s) i = length (Urow kn i).
Definition rowinv kn (pend:option nat) (s:st) i :=
  match nth i (ct s) None with
  | None => lazy kn s i \/ consumed kn pend s i
  | Some _ => ready kn s i
  end.
Definition Inv (s:st) := forall i, i < R0 -> rowinv (known s) None s i.
Definition PInv (s:st) e := forall i, i < R0 -> rowinv (known s) (Some e) s i.
Definition ready1 (s:st) i := nth i (ct s) None <> None /\ length (nth i (rws s) []) = 1.
Definition iscomp (s:st) := forall c, R0 <= c < N0 -> known s c = true.

Lemma Inv_PInv s e : Inv s -> PInv s e.
Proof.
  intros H i Hi. specialize (H i Hi). unfold rowinv in *. destruct (nth i (ct s) None); auto.
  destruct H as [H|[A [B C]]]; [now left|right]. repeat split; auto. intros c Hc. specialize (C c Hc). discriminate.
Qed.

Definition kadd (kn:nat->bool) e := fun c => kn c || (c =? e).

Lemma Urow_kadd_notin kn e i : ~ In e (nth i H0 []) -> Urow (kadd kn e) i = Urow kn i.
Proof.
  intros H. unfold Urow, kadd. apply filter_ext_in. intros c Hc.
  destruct (c =? e) eqn:E; [apply Nat.eqb_eq in E; subst; tauto|]. now rewrite orb_false_r.
Qed.

Lemma Urow_kadd_in kn e i : i < R0 -> kn e = false -> In e (nth i H0 []) ->
  length (Urow (kadd kn e) i) = length (Urow kn i) - 1 /\ In e (Urow kn i)
  /\ Urow (kadd kn e) i = filter (fun c => negb (c =? e)) (Urow kn i).
Proof.
  intros Hi Hk Hin.
  assert (Hin' : In e (Urow kn i)) by (apply Urow_In; auto).
  assert (Heq : Urow (kadd kn e) i = filter (fun c => negb (c =? e)) (Urow kn i)).
  { unfold Urow, kadd. rewrite filter_filter. apply filter_ext. intros c. now rewrite negb_orb. }
  split; [|split]; auto. rewrite Heq. apply filter_remove_nodup; auto.
  unfold Urow. apply NoDup_filter. auto.
Qed.


Lemma Urow_ext kn kn' i : (forall c, kn c = kn' c) -> Urow kn i = Urow kn' i.
Proof. intros H. unfold Urow. apply filter_ext. intros c. now rewrite H. Qed.

Definition same_row (s s':st) j := nth j (rws s') [] = nth j (rws s) [] /\ getn (unk s') j = getn (unk s) j
  /\ getn (enc s') j = getn (enc s) j /\ nth j (ct s') None = nth j (ct s) None.

Lemma rowinv_same_row kn pend s s' j : same_row s s' j -> rowinv kn pend s j -> rowinv kn pend s' j.
Proof.
  intros (A & B & C & D). unfold rowinv, lazy, consumed, ready. rewrite A, B, C, D. auto.
Qed.

Lemma known_tab_eq (s s':st) : tab s' = tab s -> forall c, known s' c = known s c.
Proof. intros H c. unfold known. now rewrite H. Qed.

Ltac solve_wf := constructor; simpl; rewrite ?upd_length; auto.
Ltac solve_same := let j := fresh "j" in let Hj := fresh "Hj" in
  intros j Hj; unfold same_row, getn; simpl; rewrite ?nth_upd_neq by auto; auto.

Lemma step2_row_spec s e v i kn :
  WF s -> i < R0 -> e < N0 -> kn e = false -> (forall c, known s c = kadd kn e c) ->
  In e (nth i (rws s) []) -> rowinv kn None s i ->
  let '(s', rdy) := step2_row sxor s0 s e v i in
    WF s' /\ tab s' = tab s /\ fnd s' = fnd s
    /\ rowinv (known s) None s' i
    /\ (forall j, j <> i -> same_row s s' j)
    /\ (rdy = true <-> ready1 s' i).
Proof using All. (* every hypothesis of the section is a premise of the closed statement, used below or not *)
  intros W Hi He Hk Hkn Hin Hrow.
  set (R := nth i (rws s) []) in *. set (U := Urow kn i).
  (* what the two shapes of a row that still contains e have in common *)
  assert (HR : NoDup R /\ filter (fun c => negb (kn c)) R = U /\ getn (enc s) i = length R
               /\ getn (unk s) i = length U /\ In e (nth i H0 [])
               /\ match nth i (ct s) None with Some _ => length U <= 1 | None => R = nth i H0 [] /\ 2 <= length U end).
  { unfold rowinv, lazy, ready, consumed in Hrow. fold R U in Hrow. destruct (nth i (ct s) None).
    - destruct Hrow as (A & B & C & D). rewrite A in *. repeat split; auto.
      + apply NoDup_filter, H0_nodup, Hi.
      + unfold U, Urow. rewrite filter_filter. apply filter_ext. intros c. now destruct (kn c).
      + apply Urow_In in Hin. tauto.
    - destruct Hrow as [(A & B & C & D)|(A & _)]; [|rewrite A in Hin; inversion Hin].
      rewrite A in *. repeat split; auto. }
  destruct HR as (ND & HfU & Cenc & Dunk & HinH & Hshape).
  destruct (Urow_kadd_in kn e i Hi Hk HinH) as (HlenU & HinU & HUeq). fold U in HlenU, HinU, HUeq.
  set (U' := Urow (known s) i).
  assert (HU' : U' = filter (fun c => negb (c =? e)) U /\ length U' = length U - 1)
    by (unfold U'; rewrite (Urow_ext _ _ i Hkn); auto).
  destruct HU' as (HU' & HlenU').
  (* the new row: the entries still unknown, and their number in both counters *)
  set (ents := filter (fun c' => negb (c' =? e)) R).
  assert (Hents' : filter (fun c' => negb (known s c')) ents = U').
  { unfold ents. rewrite HU', <- HfU, !filter_filter. apply filter_ext. intros c.
    rewrite Hkn. unfold kadd. now destruct (kn c), (c =? e). }
  assert (He' : getn (enc s) i - 1 - length (filter (known s) ents) = length U').
  { pose proof (filter_length_split (known s) ents) as Hsplit. rewrite Hents' in Hsplit.
    assert (length ents = length R - 1) by (apply filter_remove_nodup; auto). lia. }
  assert (Hu : getn (unk s) i - 1 = length U') by lia.
  destruct W as [Wr Wn Wrws Wunk Wenc Wct Wtab Wfnd Wcur].
  unfold step2_row. cbv zeta. fold R. fold ents. rewrite Hu, He', Hents'.
  destruct (match nth i (ct s) None with Some t => Some t | None => _ end) as [t|] eqn:Ect1.
  - (* the row has, or now gets, a partial sum *)
    assert (HU1 : length U' <= 1).
    { destruct (nth i (ct s) None); [lia|]. destruct (Nat.eqb_spec (length U') 1); [lia|discriminate]. }
    split; [solve_wf|]. split; [reflexivity|]. split; [reflexivity|]. split; [|split; [solve_same|]].
    + unfold rowinv, ready, getn. simpl. rewrite !nth_upd_eq by lia. auto.
    + unfold ready1. simpl. rewrite !nth_upd_eq by lia. rewrite Nat.eqb_eq. split; [split; [discriminate|]|]; tauto.
  - (* a lazy row that stays lazy *)
    destruct (nth i (ct s) None) eqn:Ect; [discriminate|]. destruct Hshape as (HRH & H2).
    destruct (Nat.eqb_spec (length U') 1) as [|Hne]; [discriminate|].
    split; [solve_wf|]. split; [reflexivity|]. split; [reflexivity|]. split; [|split; [solve_same|]].
    + unfold rowinv. simpl. rewrite Ect. left. unfold lazy, getn. simpl. rewrite nth_upd_eq by lia.
      fold R U'. rewrite <- HRH. repeat split; auto; lia.
    + unfold ready1. simpl. rewrite Ect, Nat.eqb_eq. specialize (H0_deg i Hi). split; [lia|tauto].
Qed.


Lemma rowinv_kn_ext kn kn' pend s i : (forall c, kn c = kn' c) -> rowinv kn pend s i -> rowinv kn' pend s i.
Proof. intros H. unfold rowinv, lazy, consumed, ready. rewrite (Urow_ext kn kn' i H). auto. Qed.

Lemma ready1_same_row (s s':st) j : same_row s s' j -> (ready1 s' j <-> ready1 s j).
Proof. intros (A & _ & _ & D). unfold ready1. rewrite A, D. tauto. Qed.

Lemma same_row_refl (s:st) j : same_row s s j.
Proof. unfold same_row; auto. Qed.
Lemma same_row_trans (s1 s2 s3:st) j : same_row s1 s2 j -> same_row s2 s3 j -> same_row s1 s3 j.
Proof. unfold same_row. intros (A&B&C&D) (A'&B'&C'&D'). rewrite A', B', C', D'. auto. Qed.

Definition f2 e v := (fun '(s, L) row => let '(s', rdy) := step2_row sxor s0 s e v row in
                                         (s', if rdy then L ++ [row] else L)) : st * list nat -> nat -> st * list nat.

Lemma step2_fold e v kn : e < N0 -> kn e = false ->
  forall rowsl (s:st) L, NoDup rowsl ->
  (forall i, In i rowsl -> i < R0 /\ In e (nth i (rws s) []) /\ rowinv kn None s i) ->
  WF s -> (forall c, known s c = kadd kn e c) ->
  let '(s', L') := fold_left (f2 e v) rowsl (s, L) in
  WF s' /\ tab s' = tab s /\ fnd s' = fnd s
  /\ (forall i, In i rowsl -> rowinv (known s) None s' i /\ (ready1 s' i -> In i L'))
  /\ (forall j, ~ In j rowsl -> same_row s s' j)
  /\ (forall i, In i L' -> In i L \/ In i rowsl) /\ (forall i, In i L -> In i L').
Proof using All. (* as for step2_row_spec *)
  intros He Hk. induction rowsl as [|a rest IH]; intros s L ND Hrows W Hkn.
  - simpl. repeat (split; [assumption || reflexivity|]). split; [intros i []|].
    split; [intros; apply same_row_refl|]. split; [intros i Hi; now left | auto].
  - simpl. inversion ND as [|? ? Hnotin ND']; subst.
    destruct (Hrows a (or_introl eq_refl)) as (Ha & Hina & Hrowa).
    pose proof (step2_row_spec s e v a kn W Ha He Hk Hkn Hina Hrowa) as Hspec.
    destruct (step2_row sxor s0 s e v a) as [s1 rdy] eqn:E1.
    destruct Hspec as (W1 & T1 & F1 & R1 & S1 & RD1).
    assert (Hkeq : forall c, known s1 c = known s c) by (apply known_tab_eq; auto).
    assert (Hkn1 : forall c, known s1 c = kadd kn e c) by (intros c; rewrite Hkeq; auto).
    assert (Hrows1 : forall i, In i rest -> i < R0 /\ In e (nth i (rws s1) []) /\ rowinv kn None s1 i).
    { intros i Hi. destruct (Hrows i (or_intror Hi)) as (A & B & C).
      assert (Hne : i <> a) by (intro; subst; tauto).
      split; auto. split.
      - now rewrite (proj1 (S1 i Hne)).
      - eapply rowinv_same_row; eauto. }
    specialize (IH s1 (if rdy then L ++ [a] else L) ND' Hrows1 W1 Hkn1).
    destruct (fold_left (f2 e v) rest (s1, if rdy then L ++ [a] else L)) as [s' L'] eqn:E2.
    destruct IH as (W' & T' & F' & R' & S' & L1 & L2).
    repeat (split; [assumption || congruence|]).
    split; [|split; [|split]].
    + intros i [->|Hi].
      * assert (Hs : same_row s1 s' i) by (apply S'; auto).
        split.
        -- eapply rowinv_same_row; eauto.
        -- intros Hr. apply (proj1 (ready1_same_row s1 s' i Hs)) in Hr. apply RD1 in Hr. subst rdy. apply L2. apply in_or_app. right. now left.
      * destruct (R' i Hi) as (A & B). split; auto.
        eapply rowinv_kn_ext; [|exact A]. auto.
    + intros j Hj. assert (j <> a) by (intro; subst; apply Hj; now left).
      eapply same_row_trans; [apply S1; auto|apply S'; intro; apply Hj; now right].
    + intros i Hi. destruct (L1 i Hi) as [Hl|Hl]; [|right; now right].
      destruct rdy; [|auto]. apply in_app_or in Hl. destruct Hl as [Hl|[->|[]]]; [auto|right; now left].
    + intros i Hi. apply L2. destruct rdy; [apply in_or_app; now left|auto].
Qed.


Lemma adv_spec fuel (s:st) i :
  let i' := adv fuel s i in
  i <= i' /\ (forall j, i <= j < i' -> known s (r s + j) = true /\ r s + j < n s)
  /\ (i' - i < fuel -> (r s + i' <? n s) && known s (r s + i') = false).
Proof.
  revert i. induction fuel as [|f IH]; intros i; simpl.
  - split; [lia|]. split; [intros; lia|intros; lia].
  - destruct ((r s + i <? n s) && known s (r s + i)) eqn:E.
    + specialize (IH (S i)). simpl in IH. destruct IH as (A & B & C).
      apply andb_true_iff in E. destruct E as (E1 & E2). apply Nat.ltb_lt in E1.
      split; [lia|]. split.
      * intros j Hj. destruct (Nat.eq_dec j i) as [->|Hne]; [auto|]. apply B. lia.
      * intros Hlt. apply C. lia.
    + split; [lia|]. split; [intros; lia|]. intros _. exact E.
Qed.

Lemma known_set_fnd (s:st) i c : known (set_fnd s i) c = known s c.
Proof. reflexivity. Qed.

Lemma is_complete_spec (s:st) : WF s ->
  let '(b, s') := is_complete s in
  WF s' /\ tab s' = tab s /\ rws s' = rws s /\ unk s' = unk s /\ enc s' = enc s /\ ct s' = ct s
  /\ (b = true <-> iscomp s).
Proof.
  intros W. destruct W as [Wr Wn Wrws Wunk Wenc Wct Wtab Wfnd Wcur].
  unfold is_complete.
  pose proof (adv_spec (n s - r s) s (fnd s)) as Hadv. simpl in Hadv.
  set (i' := adv (n s - r s) s (fnd s)) in *.
  destruct Hadv as (A & B & C). rewrite Wr, Wn in *.
  assert (Hle : i' <= N0 - R0).
  { destruct (Nat.le_gt_cases i' (N0 - R0)); auto. destruct (B (N0 - R0)); lia. }
  assert (Hkn : forall j, j < i' -> known s (R0 + j) = true).
  { intros j Hj. destruct (Nat.lt_ge_cases j (fnd s)); [now apply Wcur|]. now apply B. }
  split; [constructor; simpl; auto|]. repeat split; auto.
  - intros Hb c Hc. apply Nat.leb_le in Hb. replace c with (R0 + (c - R0)) by lia. apply Hkn. lia.
  - intros Hcomp. apply Nat.leb_le. destruct (Nat.le_gt_cases (N0 - R0) i'); auto. exfalso.
    rewrite Hcomp, (proj2 (Nat.ltb_lt _ _)) in C by lia. discriminate C. lia.
Qed.


Lemma rowinv_after_known kn e (s:st) i : i < R0 -> kn e = false -> ~ In e (nth i (rws s) []) ->
  rowinv kn (Some e) s i -> rowinv (kadd kn e) None s i.
Proof.
  intros Hi Hk Hnot Hrow. unfold rowinv in *.
  destruct (nth i (ct s) None).
  - destruct Hrow as (A & B & C & D).
    assert (HnH : ~ In e (nth i H0 [])).
    { intro Hin. apply Hnot. rewrite A. apply Urow_In. auto. }
    unfold ready. rewrite (Urow_kadd_notin kn e i HnH). auto.
  - destruct Hrow as [(A & B & C & D)|(A & B & C)].
    + left. assert (HnH : ~ In e (nth i H0 [])) by (rewrite <- A; auto).
      unfold lazy. rewrite (Urow_kadd_notin kn e i HnH). auto.
    + right. unfold consumed. repeat split; auto.
      intros c Hc. exfalso.
      apply Urow_In in Hc. destruct Hc as (Hc1 & Hc2). apply orb_false_iff in Hc2. destruct Hc2 as (Hc2 & Hc3).
      specialize (C c (proj2 (Urow_In kn i c) (conj Hc1 Hc2))). inversion C; subst.
      rewrite Nat.eqb_refl in Hc3. discriminate.
Qed.

Lemma rowinv_pend_none kn e (s:st) i : nth i (rws s) [] <> [] -> rowinv kn (Some e) s i -> rowinv kn None s i.
Proof.
  intros Hne Hrow. unfold rowinv in *. destruct (nth i (ct s) None); auto.
  destruct Hrow as [H|(A & _)]; [now left|tauto].
Qed.

Lemma rows_with_spec (s:st) c i : r s = R0 -> (In i (rows_with s c) <-> i < R0 /\ In c (nth i (rws s) [])).
Proof.
  intros Hr. unfold rows_with. rewrite filter_In, in_seq, Hr. rewrite existsb_exists.
  split.
  - intros (A & x & Hx & E). apply Nat.eqb_eq in E; subst. split; [lia|auto].
  - intros (A & B). split; [lia|]. exists c. split; auto. apply Nat.eqb_refl.
Qed.

Lemma rows_with_nodup (s:st) c : NoDup (rows_with s c).
Proof. unfold rows_with. apply NoDup_filter. apply seq_NoDup. Qed.

Lemma step2_spec (s:st) e v :
  WF s -> e < N0 -> known s e = true ->
  (forall i, i < R0 -> rowinv (fun c => known s c && negb (c =? e)) (Some e) s i) ->
  let '(s', L) := step2 sxor s0 s e v in
  WF s' /\ tab s' = tab s /\ fnd s' = fnd s /\ Inv s'
  /\ (forall i, i < R0 -> ready1 s' i -> ready1 s i \/ In i L) /\ (forall i, In i L -> i < R0).
Proof.
  intros W He Hke Hrows.
  set (kn := fun c => known s c && negb (c =? e)).
  assert (Hk : kn e = false) by (unfold kn; rewrite Nat.eqb_refl; apply andb_false_r).
  assert (Hkn : forall c, known s c = kadd kn e c).
  { intros c. unfold kadd, kn. destruct (Nat.eqb_spec c e) as [->|_]; [now rewrite Hke|].
    now rewrite andb_true_r, orb_false_r. }
  unfold step2. fold (f2 e v).
  pose proof (step2_fold e v kn He Hk (rows_with s e) s [] (rows_with_nodup s e)) as Hf.
  assert (Hpre : forall i, In i (rows_with s e) -> i < R0 /\ In e (nth i (rws s) []) /\ rowinv kn None s i).
  { intros i Hi. apply (rows_with_spec s e i (wf_r s W)) in Hi. destruct Hi as (A & B). split; auto. split; auto.
    eapply rowinv_pend_none; [|apply Hrows; auto]. intro Hnil. rewrite Hnil in B. inversion B. }
  specialize (Hf Hpre W Hkn).
  destruct (fold_left (f2 e v) (rows_with s e) (s, [])) as [s' L] eqn:E.
  destruct Hf as (W' & T' & F' & Rr & Ss & L1 & L2).
  repeat (split; [assumption|]).
  assert (Hkeq : forall c, known s' c = known s c) by (apply known_tab_eq; auto).
  split; [|split].
  - intros i Hi.
    destruct (in_dec Nat.eq_dec i (rows_with s e)) as [Hin|Hnin].
    + destruct (Rr i Hin) as (A & _). eapply rowinv_kn_ext; [|exact A]. intros c. now rewrite Hkeq.
    + assert (Hne : ~ In e (nth i (rws s) [])).
      { intro Hc. apply Hnin. apply rows_with_spec; auto. apply (wf_r s W). }
      pose proof (rowinv_after_known kn e s i Hi Hk Hne (Hrows i Hi)) as Hr.
      eapply rowinv_same_row; [apply Ss; auto|].
      eapply rowinv_kn_ext; [|exact Hr]. intros c. rewrite Hkeq. now rewrite Hkn.
  - intros i Hi Hr.
    destruct (in_dec Nat.eq_dec i (rows_with s e)) as [Hin|Hnin].
    + right. now apply (Rr i Hin).
    + left. apply (ready1_same_row s s' i (Ss i Hnin)). auto.
  - intros i Hi. destruct (L1 i Hi) as [[]|Hin]. apply (rows_with_spec s e i (wf_r s W)) in Hin. tauto.
Qed.


Arguments is_complete : simpl never.

Inductive peel (Rc : nat -> Prop) : nat -> Prop :=
| peel_recv c : Rc c -> peel Rc c
| peel_row i c : i < R0 -> In c (nth i H0 []) ->
    (forall c', In c' (nth i H0 []) -> c' <> c -> peel Rc c') -> peel Rc c.
Definition Sound (Rc:nat->Prop) (s:st) := forall c, known s c = true -> peel Rc c.
Definition Kmono (s s':st) := forall c, known s c = true -> known s' c = true.

Definition Contract (dec : st -> nat -> Sy -> option st) := forall s e v s',
  WF s -> PInv s e -> known s e = false -> e < N0 -> dec s e v = Some s' ->
  WF s' /\ Kmono s s' /\ known s' e = true
  /\ (forall Rc, Sound Rc s -> peel Rc e -> Sound Rc s')
  /\ (iscomp s' \/ (Inv s' /\ forall i, i < R0 -> ready1 s' i -> ready1 s i)).

Lemma rowinv_fields_eq kn pend (s s':st) i :
  rws s' = rws s -> unk s' = unk s -> enc s' = enc s -> ct s' = ct s ->
  rowinv kn pend s i -> rowinv kn pend s' i.
Proof. intros A B C D. unfold rowinv, lazy, consumed, ready. rewrite A, B, C, D. auto. Qed.

Lemma iscomp_tab_eq (s s':st) : tab s' = tab s -> iscomp s -> iscomp s'.
Proof. intros T H c Hc. rewrite (known_tab_eq s s' T). auto. Qed.

Lemma step3_cons dec row L' (s:st) : step3 dec (row :: L') s =
  (let '(c', s1) := is_complete s in
   if c' then Some s1 else
   if getn (enc s1) row =? 1 then
     match nth row (rws s1) [], nth row (ct s1) None with
     | [cc], Some t => match dec (consume s1 row) cc t with None => None | Some s2 => step3 dec L' s2 end
     | _, _ => None
     end
   else step3 dec L' s1).
Proof. reflexivity. Qed.

Lemma step3_iscomp dec L (s:st) : WF s -> iscomp s ->
  exists s', step3 dec L s = Some s' /\ WF s' /\ tab s' = tab s /\ rws s' = rws s /\ ct s' = ct s.
Proof.
  intros W Hc. destruct L as [|row L']; [simpl; eauto 6|]. rewrite step3_cons.
  pose proof (is_complete_spec s W) as Hs. destruct (is_complete s) as [b s1].
  destruct Hs as (W1 & T1 & A1 & _ & _ & D1 & Hb). rewrite (proj2 Hb Hc). eauto 6.
Qed.

Lemma step3_complete dec L (s s':st) : WF s -> iscomp s -> step3 dec L s = Some s' ->
  WF s' /\ iscomp s' /\ tab s' = tab s.
Proof.
  intros W Hc H. destruct (step3_iscomp dec L s W Hc) as (s'' & E & W' & T' & _).
  rewrite E in H. inversion H; subst s''.
  split; [exact W'|]. split; [exact (iscomp_tab_eq s s' T' Hc)|exact T'].
Qed.

Lemma ready_row_shape (s:st) i : i < R0 -> rowinv (known s) None s i -> getn (enc s) i = 1 ->
  exists cc t, nth i (rws s) [] = [cc] /\ nth i (ct s) None = Some t /\ Urow (known s) i = [cc].
Proof.
  intros Hi Hrow He. unfold rowinv in Hrow. destruct (nth i (ct s) None) as [t|] eqn:E.
  - destruct Hrow as (A & B & C & D). rewrite He in C.
    destruct (Urow (known s) i) as [|cc [|x l]] eqn:EU; simpl in C; try lia.
    exists cc, t. auto.
  - destruct Hrow as [(A & B & C & D)|(A & B & C)].
    + specialize (H0_deg i Hi). lia.
    + lia.
Qed.

Lemma consume_spec (s:st) i cc t : WF s -> Inv s -> i < R0 ->
  nth i (rws s) [] = [cc] -> nth i (ct s) None = Some t -> Urow (known s) i = [cc] ->
  WF (consume s i) /\ PInv (consume s i) cc /\ tab (consume s i) = tab s
  /\ known s cc = false /\ cc < N0 /\ ~ ready1 (consume s i) i
  /\ (forall j, j <> i -> same_row s (consume s i) j)
  /\ (forall Rc, Sound Rc s -> peel Rc cc).
Proof.
  intros W HI Hi Hr Hc HU.
  assert (HinU : In cc (Urow (known s) i)) by (rewrite HU; now left).
  apply Urow_In in HinU. destruct HinU as (HinH & Hk).
  destruct W as [Wr Wn Wrws Wunk Wenc Wct Wtab Wfnd Wcur].
  assert (Hsame : forall j, j <> i -> same_row s (consume s i) j) by solve_same.
  split; [solve_wf|].
  split; [|split; [reflexivity|split; [auto|split; [eapply H0_range; eauto|split; [|split; [exact Hsame|]]]]]].
  - intros j Hj. destruct (Nat.eq_dec j i) as [->|Hne].
    + unfold rowinv. simpl. rewrite nth_upd_eq by lia. right.
      unfold consumed; simpl. unfold getn. rewrite !nth_upd_eq by lia. repeat split; auto.
      intros c Hc'. change (known (consume s i)) with (known s) in Hc'. rewrite HU in Hc'.
      destruct Hc' as [->|[]]. reflexivity.
    + change (known (consume s i)) with (known s).
      exact (rowinv_same_row _ _ s _ j (Hsame j Hne) (Inv_PInv s cc HI j Hj)).
  - intros (Hct & _). simpl in Hct. rewrite nth_upd_eq in Hct by lia. tauto.
  - intros Rc HS. apply (peel_row Rc i cc Hi HinH). intros c' Hc' Hne.
    apply HS. destruct (known s c') eqn:E; auto. exfalso.
    assert (In c' (Urow (known s) i)) by (apply Urow_In; auto).
    rewrite HU in H. destruct H as [->|[]]. tauto.
Qed.

Lemma Inv_fields_eq (s s':st) : tab s' = tab s -> rws s' = rws s -> unk s' = unk s -> enc s' = enc s -> ct s' = ct s ->
  Inv s -> Inv s'.
Proof.
  intros T A B C D HI i Hi. specialize (HI i Hi).
  eapply rowinv_kn_ext; [|eapply rowinv_fields_eq; eauto]. intros c. symmetry. now apply known_tab_eq.
Qed.

Lemma ready1_fields_eq (s s':st) i : rws s' = rws s -> ct s' = ct s -> (ready1 s' i <-> ready1 s i).
Proof. intros A D. unfold ready1. rewrite A, D. tauto. Qed.

Lemma same_tab_grows (s s':st) : tab s' = tab s -> Kmono s s' /\ (forall Rc, Sound Rc s -> Sound Rc s').
Proof.
  intros T. pose proof (known_tab_eq _ _ T) as Hk.
  split; [intros c Hc; now rewrite Hk|intros Rc HS c Hc; apply HS; now rewrite <- Hk].
Qed.

Lemma known_add (s s':st) e : (forall c, known s' c = known s c || (c =? e)) ->
  known s' e = true /\ Kmono s s' /\ (forall c, known s' c = true -> known s c = true \/ c = e).
Proof.
  intros Hk. split; [rewrite Hk, Nat.eqb_refl; apply orb_true_r|]. split; intros c Hc; [now rewrite Hk, Hc|].
  rewrite Hk in Hc. apply orb_true_iff in Hc. destruct Hc as [Hc|Hc]; [now left|right; now apply Nat.eqb_eq].
Qed.

Lemma step3_row_spec (s:st) row : WF s -> Inv s -> row < R0 ->
  let '(b, s1) := is_complete s in
  WF s1 /\ Inv s1 /\ tab s1 = tab s /\ rws s1 = rws s /\ ct s1 = ct s /\ (b = true <-> iscomp s)
  /\ if getn (enc s1) row =? 1 then
       exists cc t, nth row (rws s1) [] = [cc] /\ nth row (ct s1) None = Some t
         /\ WF (consume s1 row) /\ PInv (consume s1 row) cc /\ tab (consume s1 row) = tab s
         /\ known (consume s1 row) cc = false /\ cc < N0 /\ ~ ready1 (consume s1 row) row
         /\ (forall j, j <> row -> same_row s1 (consume s1 row) j)
         /\ (forall Rc, Sound Rc s -> peel Rc cc)
     else ~ ready1 s1 row.
Proof.
  intros W HI Hrow. pose proof (is_complete_spec s W) as Hs. destruct (is_complete s) as [b s1].
  destruct Hs as (W1 & T1 & A1 & B1 & C1 & D1 & Hb).
  assert (HI1 : Inv s1) by (eapply Inv_fields_eq; eauto).
  repeat (split; [assumption|]).
  destruct (Nat.eqb_spec (getn (enc s1) row) 1) as [E1|E1].
  - destruct (ready_row_shape s1 row Hrow (HI1 row Hrow) E1) as (cc & t & Hr & Hct & HU).
    destruct (consume_spec s1 row cc t W1 HI1 Hrow Hr Hct HU) as (Wc & Pc & Tc & Kc & Cc & NRc & Sc & Pl).
    exists cc, t. repeat (split; [assumption || congruence|]).
    intros Rc HS. apply Pl. intros c Hc. apply HS. now rewrite <- (known_tab_eq _ _ T1).
  - intros (Hct & Hlen). specialize (HI1 row Hrow). unfold rowinv in HI1.
    destruct (nth row (ct s1) None); [|tauto]. destruct HI1 as (A & _ & C & _). rewrite A in Hlen. lia.
Qed.

Lemma step3_spec dec : Contract dec -> forall L (s s':st),
  WF s -> Inv s -> (forall i, In i L -> i < R0) -> step3 dec L s = Some s' ->
  WF s' /\ Kmono s s' /\ (forall Rc, Sound Rc s -> Sound Rc s')
  /\ (iscomp s' \/ (Inv s' /\ forall i, i < R0 -> ready1 s' i -> ready1 s i /\ ~ In i L)).
Proof.
  intros HC. induction L as [|row L' IH]; intros s s' W HI HL H; [simpl in H|rewrite step3_cons in H].
  - inversion H; subst. split; auto. split; [intros c; auto|]. split; [auto|]. right. split; auto.
  - assert (Hrow : row < R0) by (apply HL; now left).
    assert (HL' : forall i, In i L' -> i < R0) by (intros i Hi; apply HL; now right).
    pose proof (step3_row_spec s row W HI Hrow) as Hs. destruct (is_complete s) as [b s1].
    destruct Hs as (W1 & HI1 & T1 & A1 & D1 & Hb & Hcase).
    destruct (same_tab_grows s s1 T1) as (M1 & S1).
    destruct b.
    + inversion H; subst. repeat (split; [assumption|]). left. apply (iscomp_tab_eq s s' T1), Hb. reflexivity.
    + destruct (getn (enc s1) row =? 1).
      * destruct Hcase as (cc & t & Hr & Hct & Wc & Pc & Tc & Kc & Cc & NRc & Sc & Pl).
        rewrite Hr, Hct in H.
        destruct (dec (consume s1 row) cc t) as [s2|] eqn:Ed; [|discriminate].
        destruct (HC _ _ _ _ Wc Pc Kc Cc Ed) as (W2 & M2 & K2 & S2 & Post2).
        destruct (same_tab_grows s (consume s1 row) Tc) as (Mc & Sc').
        (* the rest of the list, whether or not the recursive call completed the decoding *)
        assert (Htail : WF s' /\ Kmono s2 s' /\ (forall Rc, Sound Rc s2 -> Sound Rc s')
                  /\ (iscomp s' \/ (Inv s' /\ forall i, i < R0 -> ready1 s' i -> ready1 (consume s1 row) i /\ ~ In i L'))).
        { destruct Post2 as [Hcomp2|(HI2 & R2)].
          - destruct (step3_complete dec L' s2 s' W2 Hcomp2 H) as (W' & C' & T').
            destruct (same_tab_grows s2 s' T'). auto.
          - destruct (IH s2 s' W2 HI2 HL' H) as (W' & M' & S' & Post'). repeat (split; [assumption|]).
            destruct Post' as [|(HI' & R')]; [now left|right]. split; [exact HI'|].
            intros i Hi Hr1. destruct (R' i Hi Hr1). auto. }
        destruct Htail as (W' & M' & S' & Post').
        split; [exact W'|]. split; [intros c Hc; apply M', M2, Mc, Hc|].
        split; [intros Rc HS; apply S', (S2 Rc); [apply Sc', HS|apply Pl, HS]|].
        destruct Post' as [|(HI' & R')]; [now left|right]. split; [exact HI'|].
        intros i Hi Hr1. destruct (R' i Hi Hr1) as (Hr2 & Hn).
        assert (Hne : i <> row) by (intro; subst; tauto).
        split; [|intros [->|Hin]; tauto].
        apply (ready1_fields_eq s s1 i A1 D1), (ready1_same_row s1 (consume s1 row) i (Sc i Hne)), Hr2.
      * destruct (IH s1 s' W1 HI1 HL' H) as (W' & M' & S' & Post').
        split; [exact W'|]. split; [intros c Hc; apply M', M1, Hc|].
        split; [intros Rc HS; apply S', S1, HS|].
        destruct Post' as [Hc'|(HI' & R')]; [now left|right]. split; auto.
        intros i Hi Hr1. destruct (R' i Hi Hr1) as (Hr2 & Hn).
        split; [apply (ready1_fields_eq s s1 i A1 D1); auto|].
        intros [->|Hin]; tauto.
Qed.


Lemma nth_upd_same_or {A} (l:list A) i j x d : nth j (upd l i x) d = if (j =? i) && (i <? length l) then x else nth j l d.
Proof using H0_len R_le_N. (* premises of the closed statement, not needed *) rewrite upd_same. apply nth_upd. Qed.

Lemma known_set_tab (s:st) e v c : e < length (tab s) -> known (set_tab s e v) c = known s c || (c =? e).
Proof.
  intros He. unfold known, set_tab; simpl. rewrite nth_upd_same_or, (proj2 (Nat.ltb_lt _ _) He), andb_true_r.
  destruct (c =? e); [now rewrite orb_true_r|now rewrite orb_false_r].
Qed.

Lemma step2_row_wf (s:st) e v i : WF s -> i < R0 ->
  WF (fst (step2_row sxor s0 s e v i)) /\ tab (fst (step2_row sxor s0 s e v i)) = tab s.
Proof.
  intros W Hi. destruct W as [Wr Wn Wrws Wunk Wenc Wct Wtab Wfnd Wcur]. unfold step2_row.
  destruct (nth i (ct s) None); [|destruct (getn (unk s) i - 1 =? 1)]; simpl; (split; [solve_wf|reflexivity]).
Qed.

Lemma step2_fold_wf e v rowsl : forall (s:st) L, WF s -> (forall i, In i rowsl -> i < R0) ->
  WF (fst (fold_left (f2 e v) rowsl (s, L))) /\ tab (fst (fold_left (f2 e v) rowsl (s, L))) = tab s.
Proof.
  induction rowsl as [|a rest IH]; intros s L W HL; simpl; auto.
  destruct (step2_row_wf s e v a W (HL a (or_introl eq_refl))) as (W1 & T1).
  destruct (step2_row sxor s0 s e v a) as [s1 rdy]. simpl in *.
  destruct (IH s1 (if rdy then L ++ [a] else L) W1 (fun i Hi => HL i (or_intror Hi))) as (W' & T').
  split; auto. congruence.
Qed.

Lemma step2_wf (s:st) e v : WF s ->
  WF (fst (step2 sxor s0 s e v)) /\ tab (fst (step2 sxor s0 s e v)) = tab s.
Proof.
  intros W. apply (step2_fold_wf e v (rows_with s e) s [] W).
  intros i Hi. now apply (rows_with_spec s e i (wf_r s W)) in Hi.
Qed.

Lemma set_tab_wf (s:st) e v : WF s -> e < N0 ->
  WF (set_tab s e v) /\ forall c, known (set_tab s e v) c = known s c || (c =? e).
Proof.
  intros W He.
  assert (Hk : forall c, known (set_tab s e v) c = known s c || (c =? e))
    by (intros c; apply known_set_tab; now rewrite (wf_tab s W)).
  split; [|exact Hk].
  destruct W as [Wr Wn Wrws Wunk Wenc Wct Wtab Wfnd Wcur]. solve_wf.
  intros j Hj. now rewrite Hk, Wcur.
Qed.

Lemma decode_unfold fuel (s:st) c v : decode sxor s0 (S fuel) s c v =
  if known s c then Some s else
  let s1 := set_tab s c v in
  let early := if r s1 <=? c then is_complete s1 else (false, s1) in
  if fst early then Some (snd early) else
  let '(s2, L) := step2 sxor s0 (snd early) c v in
  step3 (decode sxor s0 fuel) (rev L) s2.
Proof. reflexivity. Qed.

Definition srS (s : st) (c : nat) (v : Sy) (row : nat) (t : Sy) : st :=
  let t1 := if 1 <? getn (enc s) row then sxor t v else t in
  let ents := filter (fun c' => negb (c' =? c)) (nth row (rws s) []) in
  let kn := filter (known s) ents in
  let t2 := fold_left (fun acc c' => match nth c' (tab s) None with Some w => sxor acc w | None => acc end) kn t1 in
  let ents' := filter (fun c' => negb (known s c')) ents in
  let e' := getn (enc s) row - 1 - length kn in
  mk (r s) (n s) (upd (rws s) row ents') (upd (unk s) row (getn (unk s) row - 1)) (upd (enc s) row e')
     (upd (ct s) row (Some t2)) (tab s) (fnd s).

Definition srN (s : st) (row : nat) : st :=
  mk (r s) (n s) (rws s) (upd (unk s) row (getn (unk s) row - 1)) (enc s) (ct s) (tab s) (fnd s).

Lemma step2_row_cases (s : st) c v row : fst (step2_row sxor s0 s c v row) =
  match nth row (ct s) None with
  | Some t => srS s c v row t
  | None => if getn (unk s) row - 1 =? 1 then srS s c v row s0 else srN s row
  end.
Proof.
  unfold step2_row. destruct (nth row (ct s) None); [reflexivity|].
  destruct (getn (unk s) row - 1 =? 1); reflexivity.
Qed.

Lemma step2_row_frame (s : st) c v row : tab (fst (step2_row sxor s0 s c v row)) = tab s /\
  forall j, j <> row -> nth j (rws (fst (step2_row sxor s0 s c v row))) [] = nth j (rws s) [].
Proof.
  rewrite step2_row_cases.
  destruct (nth row (ct s) None); [|destruct (_ =? 1)]; (split; [reflexivity|]); intros j Hj;
    try reflexivity; apply nth_upd_neq; auto.
Qed.

Lemma rows_with_In (s:st) c i : In i (rows_with s c) -> In c (nth i (rws s) []).
Proof.
  unfold rows_with. rewrite filter_In, existsb_exists. intros (_ & x & Hx & E). apply Nat.eqb_eq in E. now subst x.
Qed.

(* P holds of the states between two steps, PX e v of a state about to store v in column e.  decode is:
   return if e is known; store; stop if complete; step2_row on every row that contains e, in which the
   table entry of e is v (if e is in the table at all); then, for the rows left with one entry, consume the
   row and decode that entry in turn. *)
Section DecodeInd.
Variable P : st -> Prop.
Variable PX : nat -> Sy -> st -> Prop.
Hypothesis P_known : forall s e v, PX e v s -> known s e = true -> P s.
Hypothesis P_store : forall s e v, PX e v s -> known s e = false -> P (set_tab s e v).
Hypothesis P_complete : forall s, P s -> P (snd (is_complete s)).
Hypothesis P_row : forall s c v row, P s -> (c < length (tab s) -> nth c (tab s) None = Some v) ->
  In c (nth row (rws s) []) -> P (fst (step2_row sxor s0 s c v row)).
Hypothesis P_consume : forall s row cc t, P s -> nth row (rws s) [] = [cc] -> nth row (ct s) None = Some t ->
  PX cc t (consume s row).

Lemma step2_fold_P c v : forall rowsl (s : st) L, NoDup rowsl -> P s ->
  (c < length (tab s) -> nth c (tab s) None = Some v) ->
  (forall i, In i rowsl -> In c (nth i (rws s) [])) ->
  P (fst (fold_left (f2 c v) rowsl (s, L))).
Proof.
  induction rowsl as [|a rest IH]; intros s L ND Ps Hv Hrows; [exact Ps|].
  apply NoDup_cons_iff in ND. destruct ND as (Hnotin & ND').
  destruct (step2_row_frame s c v a) as (T1 & S1).
  cbn [fold_left].
  assert (E : f2 c v (s, L) a =
              (fst (step2_row sxor s0 s c v a), if snd (step2_row sxor s0 s c v a) then L ++ [a] else L)).
  { unfold f2. destruct (step2_row sxor s0 s c v a); reflexivity. }
  rewrite E. apply IH; [exact ND'|apply P_row; auto; apply Hrows; now left|now rewrite T1|].
  intros i Hi. rewrite S1; [apply Hrows; now right|]. intros ->. now apply Hnotin.
Qed.

Definition DecP (dec : st -> nat -> Sy -> option st) : Prop :=
  forall s e v s', PX e v s -> dec s e v = Some s' -> P s'.

Lemma step3_P dec : DecP dec -> forall L (s s' : st), P s -> step3 dec L s = Some s' -> P s'.
Proof.
  intros HD. induction L as [|row L IH]; intros s s' Ps H.
  - cbn [step3] in H. injection H as <-. exact Ps.
  - rewrite step3_cons in H.
    pose proof (P_complete s Ps) as P1.
    destruct (is_complete s) as [b s1]. cbn [snd] in P1.
    destruct b; [injection H as <-; exact P1|].
    destruct (getn (enc s1) row =? 1); [|exact (IH s1 s' P1 H)].
    destruct (nth row (rws s1) []) as [|cc [|cc2 rest]] eqn:Er; try discriminate H.
    destruct (nth row (ct s1) None) as [t|] eqn:Ect; [|discriminate H].
    destruct (dec (consume s1 row) cc t) as [s2|] eqn:Ed; [|discriminate H].
    exact (IH s2 s' (HD _ _ _ _ (P_consume s1 row cc t P1 Er Ect) Ed) H).
Qed.

Lemma decode_P : forall fuel, DecP (decode sxor s0 fuel).
Proof.
  induction fuel as [|f IH]; intros s e v s' Px Hdec; [discriminate Hdec|].
  rewrite decode_unfold in Hdec.
  destruct (known s e) eqn:Hke; [injection Hdec as <-; exact (P_known s e v Px Hke)|].
  cbv zeta in Hdec.
  pose proof (P_store s e v Px Hke) as P1.
  set (s1 := set_tab s e v) in *.
  assert (Hv : e < length (tab s1) -> nth e (tab s1) None = Some v).
  { unfold s1, set_tab; cbn [tab]. rewrite upd_length. apply nth_upd_eq. }
  assert (Hearly : P (snd (if r s1 <=? e then is_complete s1 else (false, s1)))
                   /\ tab (snd (if r s1 <=? e then is_complete s1 else (false, s1))) = tab s1).
  { destruct (r s1 <=? e); split; [now apply P_complete|reflexivity|exact P1|reflexivity]. }
  destruct (if r s1 <=? e then is_complete s1 else (false, s1)) as [b sx]. cbn [fst snd] in *.
  destruct Hearly as (Px' & Tx).
  destruct b; [injection Hdec as <-; exact Px'|].
  assert (P2 : P (fst (step2 sxor s0 sx e v))).
  { unfold step2. fold (f2 e v). apply step2_fold_P; [apply rows_with_nodup|exact Px'|now rewrite Tx|].
    intros i. apply rows_with_In. }
  destruct (step2 sxor s0 sx e v) as [s2 L]. cbn [fst] in *.
  exact (step3_P (decode sxor s0 f) IH (rev L) s2 s' P2 Hdec).
Qed.
End DecodeInd.

Lemma decode_iscomp fuel (s:st) e v : WF s -> iscomp s -> e < N0 -> known s e = false ->
  exists s', decode sxor s0 (S fuel) s e v = Some s' /\ WF s' /\ tab s' = tab (set_tab s e v).
Proof.
  intros W Hc He Hke. rewrite decode_unfold, Hke. cbv zeta.
  destruct (set_tab_wf s e v W He) as (W1 & Hk1). set (s1 := set_tab s e v) in *.
  assert (Hc1 : iscomp s1) by (intros c Hcc; now rewrite Hk1, Hc).
  destruct (r s1 <=? e).
  - pose proof (is_complete_spec s1 W1) as Hs. destruct (is_complete s1) as [b sx].
    destruct Hs as (Wx & Tx & _ & _ & _ & _ & Hb). simpl. rewrite (proj2 Hb Hc1). eauto.
  - simpl. destruct (step2_wf s1 e v W1) as (W2 & T2).
    destruct (step2 sxor s0 s1 e v) as [s2 L]. simpl in *.
    destruct (step3_iscomp (decode sxor s0 fuel) (rev L) s2 W2 (iscomp_tab_eq s1 s2 T2 Hc1)) as (s' & E & W' & T' & _).
    exists s'. split; [exact E|]. split; [exact W'|congruence].
Qed.

Lemma decode_front (s:st) e v : WF s -> PInv s e -> known s e = false -> e < N0 ->
  let s1 := set_tab s e v in
  let p := if r s1 <=? e then is_complete s1 else (false, s1) in
  WF (snd p) /\ tab (snd p) = tab s1 /\ (forall c, known (snd p) c = known s c || (c =? e))
  /\ rws (snd p) = rws s /\ ct (snd p) = ct s
  /\ (fst p = true -> iscomp (snd p))
  /\ (forall i, i < R0 -> rowinv (fun c => known (snd p) c && negb (c =? e)) (Some e) (snd p) i).
Proof.
  intros W HP Hke He s1 p. destruct (set_tab_wf s e v W He) as (W1 & Hk1). fold s1 in W1, Hk1.
  assert (Hp : WF (snd p) /\ tab (snd p) = tab s1 /\ rws (snd p) = rws s /\ unk (snd p) = unk s
               /\ enc (snd p) = enc s /\ ct (snd p) = ct s /\ (fst p = true -> iscomp s1)).
  { unfold p. destruct (r s1 <=? e); [|simpl; split; [exact W1|]; repeat split; intros E; discriminate E].
    pose proof (is_complete_spec s1 W1) as Hs. destruct (is_complete s1) as [b sx]. simpl.
    destruct Hs as (Wx & ? & ? & ? & ? & ? & Hb). split; [exact Wx|]. repeat split; auto. apply Hb. }
  destruct Hp as (Wx & Tx & Ax & Bx & Cx & Dx & Hb).
  assert (Hkx : forall c, known (snd p) c = known s c || (c =? e)) by (intros c; now rewrite (known_tab_eq _ _ Tx)).
  split; [exact Wx|]. split; [exact Tx|]. split; [exact Hkx|]. split; [exact Ax|]. split; [exact Dx|]. split.
  - intros E. apply (iscomp_tab_eq s1 _ Tx (Hb E)).
  - intros i Hi. eapply rowinv_kn_ext; [|eapply rowinv_fields_eq; [..|exact (HP i Hi)]; assumption].
    intros c. rewrite Hkx. destruct (Nat.eqb_spec c e) as [->|_]; simpl.
    + now rewrite Hke.
    + now rewrite orb_false_r, andb_true_r.
Qed.

Lemma decode_contract fuel : Contract (decode sxor s0 fuel).
Proof.
  induction fuel as [|f IH]; intros s e v s' W HP Hke He Hdec; [discriminate|].
  rewrite decode_unfold, Hke in Hdec. cbv zeta in Hdec.
  destruct (decode_front s e v W HP Hke He) as (Wx & _ & Hkx & Ax & Dx & Hbx & Hrows).
  set (p := if r (set_tab s e v) <=? e then _ else _) in *.
  destruct (known_add s (snd p) e Hkx) as (Hkex & Hmono & Hnew).
  assert (HSx : forall Rc, Sound Rc s -> peel Rc e -> Sound Rc (snd p)).
  { intros Rc HS Hp c Hc. destruct (Hnew c Hc) as [Hc'| ->]; auto. }
  destruct (fst p).
  - inversion Hdec; subst s'. repeat (split; [assumption|]). left. now apply Hbx.
  - pose proof (step2_spec (snd p) e v Wx He Hkex Hrows) as H2.
    destruct (step2 sxor s0 (snd p) e v) as [s2 L].
    destruct H2 as (W2 & T2 & F2 & I2 & R2 & L2).
    assert (HLrev : forall i, In i (rev L) -> i < R0) by (intros i Hi; apply L2; now apply in_rev).
    destruct (step3_spec (decode sxor s0 f) IH (rev L) s2 s' W2 I2 HLrev Hdec) as (W' & M' & S' & Post').
    destruct (same_tab_grows (snd p) s2 T2) as (M2 & S2).
    split; auto. split; [intros c Hc; apply M', M2, Hmono, Hc|].
    split; [apply M', M2, Hkex|].
    split.
    + intros Rc HS Hp. apply S', S2, HSx; assumption.
    + destruct Post' as [Hc'|(HI' & R')]; [now left|right]. split; auto.
      intros i Hi Hr. destruct (R' i Hi Hr) as (Hr2 & Hn).
      destruct (R2 i Hi Hr2) as [Hrx|Hin]; [|exfalso; apply Hn; now apply -> in_rev].
      apply (ready1_fields_eq s (snd p) i Ax Dx). auto.
Qed.


(* the measure for the fuel: how many columns are still unknown *)
Definition munk (s:st) := length (filter (fun c => negb (known s c)) (seq 0 N0)).

Lemma filter_length_le {A} (f g:A->bool) l : (forall x, In x l -> f x = true -> g x = true) ->
  length (filter f l) <= length (filter g l).
Proof using H0_len R_le_N. (* as for nth_upd_same_or *) apply filter_length_mono. Qed.

Lemma filter_length_lt {A} (f g:A->bool) l a : In a l -> f a = false -> g a = true ->
  (forall x, In x l -> f x = true -> g x = true) -> length (filter f l) < length (filter g l).
Proof.
  induction l as [|h t IH]; intros Hin Hf Hg H; simpl; [inversion Hin|].
  destruct Hin as [->|Hin].
  - rewrite Hf, Hg. simpl. pose proof (filter_length_le f g t (fun x Hx => H x (or_intror Hx))). lia.
  - specialize (IH Hin Hf Hg (fun x Hx => H x (or_intror Hx))).
    destruct (f h) eqn:E.
    + rewrite (H h (or_introl eq_refl) E). simpl. lia.
    + destruct (g h); simpl; lia.
Qed.

Lemma Kmono_unknown (s s':st) : Kmono s s' -> forall c, negb (known s' c) = true -> negb (known s c) = true.
Proof. intros M c Hc. destruct (known s c) eqn:E; auto. now rewrite (M c E) in Hc. Qed.

Lemma munk_mono (s s':st) : Kmono s s' -> munk s' <= munk s.
Proof. intros M. apply filter_length_le. intros c _. apply (Kmono_unknown s s' M). Qed.

Lemma munk_lt (s s':st) e : Kmono s s' -> e < N0 -> known s e = false -> known s' e = true -> munk s' < munk s.
Proof.
  intros M He K K'. apply filter_length_lt with (a := e).
  - apply in_seq. lia.
  - now rewrite K'.
  - now rewrite K.
  - intros c _. apply (Kmono_unknown s s' M).
Qed.

Lemma munk_pos (s:st) e : e < N0 -> known s e = false -> 0 < munk s.
Proof.
  intros He K. unfold munk.
  assert (Hin : In e (filter (fun c => negb (known s c)) (seq 0 N0))) by (apply filter_In; split; [apply in_seq; lia|now rewrite K]).
  destruct (filter _ _); [contradiction|simpl; lia].
Qed.

Lemma munk_tab_eq (s s':st) : tab s' = tab s -> munk s' = munk s.
Proof. intros T. unfold munk. f_equal. apply filter_ext. intros c. now rewrite (known_tab_eq _ _ T). Qed.

Lemma step3_total f : (forall s e v, WF s -> PInv s e -> known s e = false -> e < N0 -> munk s <= f ->
                        exists s', decode sxor s0 f s e v = Some s') ->
  forall L (s:st), WF s -> (iscomp s \/ Inv s) -> (forall i, In i L -> i < R0) -> munk s <= f ->
  exists s', step3 (decode sxor s0 f) L s = Some s'.
Proof.
  intros Hdec. induction L as [|row L' IH]; intros s W HG HL Hm; [simpl; eauto|].
  destruct HG as [Hc|HI]; [destruct (step3_iscomp (decode sxor s0 f) (row :: L') s W Hc) as (s' & E & _); eauto|].
  assert (Hrow : row < R0) by (apply HL; now left).
  assert (HL' : forall i, In i L' -> i < R0) by (intros i Hi; apply HL; now right).
  rewrite step3_cons. pose proof (step3_row_spec s row W HI Hrow) as Hs. destruct (is_complete s) as [b s1].
  destruct Hs as (W1 & HI1 & T1 & _ & _ & _ & Hcase). destruct b; [eauto|].
  destruct (getn (enc s1) row =? 1); [|apply IH; auto; now rewrite (munk_tab_eq _ _ T1)].
  destruct Hcase as (cc & t & Hr & Hct & Wc & Pc & Tc & Kc & Cc & _). rewrite Hr, Hct.
  assert (Hmc : munk (consume s1 row) <= f) by now rewrite (munk_tab_eq _ _ Tc).
  destruct (Hdec _ cc t Wc Pc Kc Cc Hmc) as (s2 & Ed). rewrite Ed.
  destruct (decode_contract f _ cc t s2 Wc Pc Kc Cc Ed) as (W2 & M2 & _ & _ & Post2).
  apply IH; auto.
  - destruct Post2 as [|(HI2 & _)]; auto.
  - eapply Nat.le_trans; [apply munk_mono; exact M2|exact Hmc].
Qed.

Lemma decode_total : forall f (s:st) e v, WF s -> PInv s e -> known s e = false -> e < N0 -> munk s <= f ->
  exists s', decode sxor s0 f s e v = Some s'.
Proof.
  induction f as [|f IH]; intros s e v W HP Hke He Hm; [pose proof (munk_pos s e He Hke); lia|].
  destruct (decode_front s e v W HP Hke He) as (Wx & _ & Hkx & _ & _ & _ & Hrows).
  rewrite decode_unfold, Hke. cbv zeta.
  set (p := if r (set_tab s e v) <=? e then _ else _) in *. destruct (fst p); [eauto|].
  destruct (known_add s (snd p) e Hkx) as (Hkex & Hmono & _).
  assert (Hmx : munk (snd p) < munk s) by (apply (munk_lt s (snd p) e); auto).
  pose proof (step2_spec (snd p) e v Wx He Hkex Hrows) as H2.
  destruct (step2 sxor s0 (snd p) e v) as [s2 L]. destruct H2 as (W2 & T2 & _ & I2 & _ & L2).
  apply (step3_total f IH); auto.
  - intros i Hi. apply L2. now apply in_rev.
  - rewrite (munk_tab_eq _ _ T2). lia.
Qed.

Definition Good (s:st) := WF s /\ (iscomp s \/ (Inv s /\ forall i, i < R0 -> ~ ready1 s i)).

Lemma decode_complete fuel (s s':st) e v : WF s -> iscomp s -> e < N0 ->
  decode sxor s0 fuel s e v = Some s' ->
  WF s' /\ iscomp s' /\ (forall c, known s' c = true -> known s c = true \/ c = e) /\ Kmono s s' /\ known s' e = true.
Proof.
  intros W Hc He Hdec. destruct fuel as [|f]; [discriminate|].
  destruct (known s e) eqn:Hke.
  - rewrite decode_unfold, Hke in Hdec. inversion Hdec; subst. repeat (split; [assumption|]). split; [auto|]. split; [intros c; auto|exact Hke].
  - destruct (decode_iscomp f s e v W Hc He Hke) as (s'' & E & W' & T'). rewrite E in Hdec. inversion Hdec; subst s''.
    assert (Hk : forall c, known s' c = known s c || (c =? e))
      by (intros c; rewrite (known_tab_eq _ _ T'); apply (set_tab_wf s e v W He)).
    destruct (known_add s s' e Hk) as (Hke' & Hmono & Hnew).
    split; [exact W'|]. split; [intros c Hcc; apply Hmono, Hc, Hcc|auto].
Qed.

Lemma decode_good fuel (s s':st) e v Rc : Good s -> Sound Rc s -> Rc e -> e < N0 ->
  decode sxor s0 fuel s e v = Some s' ->
  Good s' /\ Sound Rc s' /\ Kmono s s' /\ known s' e = true.
Proof.
  intros (W & HG) HS HR He Hdec.
  destruct HG as [Hc|(HI & HN)].
  - destruct (decode_complete fuel s s' e v W Hc He Hdec) as (W' & C' & K' & M' & E').
    split; [split; auto|]. split; [|auto].
    intros c Hcc. destruct (K' c Hcc) as [Hk| ->]; [auto|now apply peel_recv].
  - destruct (known s e) eqn:Hke.
    + destruct fuel as [|f]; [discriminate|]. rewrite decode_unfold, Hke in Hdec. inversion Hdec; subst.
      split; [split; auto|]. split; auto. split; [intros c; auto|auto].
    + destruct (decode_contract fuel s e v s' W (Inv_PInv s e HI) Hke He Hdec) as (W' & M' & E' & S' & Post).
      split; [split; auto|].
      * destruct Post as [|(HI' & R')]; [now left|right]. split; auto.
        intros i Hi Hr. apply (HN i Hi). auto.
      * split; [apply S'; auto; now apply peel_recv|auto].
Qed.

Lemma munk_le_N0 (s:st) : munk s <= N0.
Proof.
  pose proof (filter_length_split (fun c => negb (known s c)) (seq 0 N0)) as H. rewrite seq_length in H.
  unfold munk. lia.
Qed.

Lemma decode_total_good fuel (s:st) e v : Good s -> e < N0 -> N0 < fuel ->
  exists s', decode sxor s0 fuel s e v = Some s'.
Proof.
  intros (W & HG) He Hf. destruct fuel as [|f]; [lia|].
  destruct (known s e) eqn:Hke; [rewrite decode_unfold, Hke; eauto|].
  destruct HG as [Hc|(HI & HN)].
  - destruct (decode_iscomp f s e v W Hc He Hke) as (s' & E & _). eauto.
  - apply decode_total; auto; [apply Inv_PInv; auto|]. pose proof (munk_le_N0 s). lia.
Qed.

Definition run fuel (hist : list (nat * Sy)) : option st :=
  fold_left (fun os ev => match os with Some s => decode sxor s0 fuel s (fst ev) (snd ev) | None => None end)
            hist (Some (init Sy R0 N0 H0)).

Lemma nth_map_length (l:list (list nat)) i : nth i (map (@length nat) l) 0 = length (nth i l []).
Proof. exact (map_nth (@length nat) l [] i). Qed.
Lemma nth_repeat_none {A} k i : nth i (repeat (@None A) k) None = None.
Proof. apply nth_repeat. Qed.

Lemma init_good : Good (init Sy R0 N0 H0) /\ forall c, known (init Sy R0 N0 H0) c = false.
Proof.
  assert (Hk : forall c, known (init Sy R0 N0 H0) c = false).
  { intros c. unfold known, init; simpl. now rewrite nth_repeat_none. }
  split; auto. split.
  - constructor; simpl; rewrite ?map_length, ?repeat_length; auto; try lia.
  - right. split.
    + intros i Hi. unfold rowinv. simpl. rewrite nth_repeat_none. left.
      assert (HU : Urow (known (init Sy R0 N0 H0)) i = nth i H0 []) by (apply filter_all; intros c _; now rewrite Hk).
      unfold lazy; simpl. unfold getn. rewrite !nth_map_length, HU. repeat split; auto.
    + intros i Hi (Hc & _). simpl in Hc. rewrite nth_repeat_none in Hc. tauto.
Qed.

Lemma fold_good_seen fuel (Rc : nat -> Prop) : forall h (sA s1 : st),
  (forall ev, In ev h -> fst ev < N0 /\ Rc (fst ev)) ->
  fold_left (fun os ev => match os with Some s => decode sxor s0 fuel s (fst ev) (snd ev) | None => None end) h (Some sA) = Some s1 ->
  Good sA -> Sound Rc sA ->
  Good s1 /\ Sound Rc s1 /\ Kmono sA s1 /\ (forall ev, In ev h -> known s1 (fst ev) = true).
Proof.
  induction h as [|ev h IH]; intros sA s1 Hh Hf HG HS; simpl in Hf.
  - inversion Hf; subst. repeat (split; [assumption|]). split; [intros c; auto|intros ev []].
  - destruct (decode sxor s0 fuel sA (fst ev) (snd ev)) as [sB|] eqn:Ed; [|now rewrite fold_left_None in Hf].
    destruct (Hh ev (or_introl eq_refl)) as (Hr & HRc).
    destruct (decode_good fuel sA sB (fst ev) (snd ev) Rc HG HS HRc Hr Ed) as (GB & SB & MB & KB).
    destruct (IH sB s1 (fun e He => Hh e (or_intror He)) Hf GB SB) as (G1 & S1 & M1 & K1).
    repeat (split; [assumption|]). split; [intros c Hc; apply M1, MB, Hc|].
    intros e [<-|He]; [apply M1; auto|auto].
Qed.

Lemma fold_good fuel (Rc : nat -> Prop) : forall h (sA s1 : st),
  (forall ev, In ev h -> fst ev < N0 /\ Rc (fst ev)) ->
  fold_left (fun os ev => match os with Some s => decode sxor s0 fuel s (fst ev) (snd ev) | None => None end) h (Some sA) = Some s1 ->
  Good sA -> Sound Rc sA -> Good s1 /\ Sound Rc s1 /\ Kmono sA s1.
Proof. intros h sA s1 Hh Hf HG HS. destruct (fold_good_seen fuel Rc h sA s1 Hh Hf HG HS) as (A & B & C & _). auto. Qed.

(* when only Good matters, everything may count as received *)
Lemma Sound_top (s:st) : Sound (fun _ => True) s.
Proof. intros c _. now apply peel_recv. Qed.

Lemma decode_keeps_good fuel (s s':st) e v : Good s -> e < N0 -> decode sxor s0 fuel s e v = Some s' ->
  Good s' /\ Kmono s s'.
Proof.
  intros HG He Hd.
  destruct (decode_good fuel s s' e v (fun _ => True) HG (Sound_top s) I He Hd) as (G & _ & M & _). auto.
Qed.

Lemma fold_keeps_good fuel : forall h (sA s1 : st), (forall ev, In ev h -> fst ev < N0) ->
  fold_left (fun os ev => match os with Some s => decode sxor s0 fuel s (fst ev) (snd ev) | None => None end) h (Some sA) = Some s1 ->
  Good sA -> Good s1 /\ Kmono sA s1.
Proof.
  intros h sA s1 Hh Hf HG.
  destruct (fold_good fuel (fun _ => True) h sA s1 (fun ev Hev => conj (Hh ev Hev) I) Hf HG (Sound_top sA)) as (G & _ & M).
  auto.
Qed.

Theorem it_is_peeling fuel (hist : list (nat * Sy)) (s:st) :
  (forall ev, In ev hist -> fst ev < N0) -> run fuel hist = Some s ->
  let Rc := fun e => In e (map fst hist) in
  (forall c, known s c = true -> peel Rc c)
  /\ (forall c, R0 <= c < N0 -> peel Rc c -> known s c = true)
  /\ (~ iscomp s -> forall c, peel Rc c -> known s c = true).
Proof.
  intros Hrange Hrun Rc.
  destruct init_good as (G0 & K0).
  assert (HS0 : Sound Rc (init Sy R0 N0 H0)) by (intros c Hc; rewrite K0 in Hc; discriminate).
  assert (Hh : forall ev, In ev hist -> fst ev < N0 /\ Rc (fst ev)).
  { intros ev Hev. split; auto. unfold Rc. apply in_map. auto. }
  destruct (fold_good_seen fuel Rc hist _ s Hh Hrun G0 HS0) as ((W & HG) & HS & _ & HK).
  split; [exact HS|].
  assert (Hclosed : Inv s -> (forall i, i < R0 -> ~ ready1 s i) -> forall c, peel Rc c -> known s c = true).
  { intros HI HN c Hp. induction Hp as [c Hc|i c Hi Hin Hall IHp].
    - unfold Rc in Hc. apply in_map_iff in Hc. destruct Hc as (ev & <- & Hev). auto.
    - destruct (known s c) eqn:Hkc; auto. exfalso.
      assert (HU : Urow (known s) i = [c]).
      { apply filter_single; auto; [now rewrite Hkc|]. intros c' Hc' Hne. now rewrite IHp. }
      specialize (HI i Hi). unfold rowinv in HI. destruct (nth i (ct s) None) as [t|] eqn:Ect.
      + destruct HI as (A & B & C & D). apply (HN i Hi). split; [rewrite Ect; discriminate|]. rewrite A, HU. reflexivity.
      + destruct HI as [(A & B & C & D)|(A & B & C)].
        * rewrite HU in D. simpl in D. lia.
        * rewrite HU in C. specialize (C c (or_introl eq_refl)). discriminate. }
  split.
  - intros c Hc Hp. destruct HG as [Hcomp|(HI & HN)]; [apply Hcomp; auto|apply Hclosed; auto].
  - intros Hnc c Hp. destruct HG as [Hcomp|(HI & HN)]; [tauto|apply Hclosed; auto].
Qed.

Theorem run_complete_flag fuel (hist : list (nat * Sy)) (s : st) :
  (forall ev, In ev hist -> fst ev < N0) -> run fuel hist = Some s ->
  (fst (is_complete s) = true <-> forall c, R0 <= c < N0 -> known s c = true).
Proof.
  intros Hr Hrun. destruct (fold_keeps_good fuel hist _ s Hr Hrun (proj1 init_good)) as ((W & _) & _).
  pose proof (is_complete_spec s W) as Hs. destruct (is_complete s) as [b sx]. apply Hs.
Qed.

Theorem run_monotone fuel (h1 h2 : list (nat * Sy)) (s1 s2 : st) :
  (forall ev, In ev (h1 ++ h2) -> fst ev < N0) -> run fuel h1 = Some s1 -> run fuel (h1 ++ h2) = Some s2 ->
  forall c, known s1 c = true -> known s2 c = true.
Proof.
  intros Hr H1 H2. unfold run in *. rewrite fold_left_app, H1 in H2.
  destruct (fold_keeps_good fuel h1 _ s1 (fun ev Hev => Hr ev (in_or_app _ _ _ (or_introl Hev))) H1 (proj1 init_good)) as (G1 & _).
  exact (proj2 (fold_keeps_good fuel h2 s1 s2 (fun ev Hev => Hr ev (in_or_app _ _ _ (or_intror Hev))) H2 G1)).
Qed.

Theorem run_total fuel (hist : list (nat * Sy)) :
  N0 < fuel -> (forall ev, In ev hist -> fst ev < N0) -> exists s, run fuel hist = Some s.
Proof.
  intros Hf Hrange. unfold run. generalize (proj1 init_good). generalize (init Sy R0 N0 H0).
  induction hist as [|ev h IH]; intros sA HG; simpl; [eauto|].
  assert (Hr : fst ev < N0) by (apply Hrange; now left).
  destruct (decode_total_good fuel sA (fst ev) (snd ev) HG Hr Hf) as (sB & Ed). rewrite Ed.
  apply IH; [intros e He; apply Hrange; now right|exact (proj1 (decode_keeps_good fuel sA sB _ _ HG Hr Ed))].
Qed.

(* values: every symbol the decoder stores is the codeword's (C01) *)
Hypothesis sxor_assoc : forall a b c, sxor a (sxor b c) = sxor (sxor a b) c.
Hypothesis sxor_comm : forall a b, sxor a b = sxor b a.
Hypothesis sxor_0_l : forall a, sxor s0 a = a.
Hypothesis sxor_nilp : forall a, sxor a a = s0.
Variable cw : nat -> Sy.                         (* the codeword: value of every matrix column *)
Definition xs (l : list nat) : Sy := fold_right sxor s0 (map cw l).
Hypothesis parity : forall i, i < R0 -> xs (nth i H0 []) = s0.

Lemma sxor_0_r' a : sxor a s0 = a.  Proof. now rewrite sxor_comm, sxor_0_l. Qed.

Lemma xs_filter_split (p : nat -> bool) l : xs l = sxor (xs (filter p l)) (xs (filter (fun x => negb (p x)) l)).
Proof.
  unfold xs. induction l as [|x l IH]; simpl; [now rewrite sxor_0_l|]. rewrite IH.
  destruct (p x); simpl.
  - now rewrite sxor_assoc.
  - rewrite !sxor_assoc. f_equal. apply sxor_comm.
Qed.

Lemma xs_remove c l : NoDup l -> In c l -> xs l = sxor (cw c) (xs (filter (fun x => negb (x =? c)) l)).
Proof.
  intros Hnd Hin. rewrite (xs_filter_split (fun x => x =? c) l), (filter_single (fun x => x =? c) l c Hnd Hin (Nat.eqb_refl c)).
  - unfold xs at 1. simpl. now rewrite sxor_0_r'.
  - intros x _ Hne. now apply Nat.eqb_neq.
Qed.

Lemma fold_known_values (s : st) : (forall c v, nth c (tab s) None = Some v -> v = cw c) ->
  forall l t1, (forall c, In c l -> known s c = true) ->
  fold_left (fun acc c' => match nth c' (tab s) None with Some w => sxor acc w | None => acc end) l t1 = sxor t1 (xs l).
Proof.
  intros V1. unfold xs. induction l as [|c l IH]; intros t1 Hk; simpl; [now rewrite sxor_0_r'|].
  destruct (known_inv s c (Hk c (or_introl eq_refl))) as (w & E). rewrite E, (V1 c w E).
  rewrite IH by (intros; apply Hk; now right). now rewrite sxor_assoc.
Qed.

Lemma grp1 x A B : sxor (sxor (sxor x (sxor A B)) x) A = B.
Proof.
  rewrite (sxor_comm (sxor x (sxor A B)) x). rewrite (sxor_assoc x x (sxor A B)).
  rewrite sxor_nilp, sxor_0_l. rewrite (sxor_comm A B). rewrite <- sxor_assoc, sxor_nilp. apply sxor_0_r'.
Qed.

(* An invariant of the decoder that holds in EVERY reachable state, complete or not (RJ, Keep): rows are
   duplicate-free sub-lists of the original rows, a row carries a partial sum exactly when its entry counter is
   the row length and the sum is the sum of the codeword symbols of the entries that are left, and no unknown
   column is ever removed from a row. *)
Definition RowJ (s : st) (i : nat) : Prop :=
  NoDup (nth i (rws s) []) /\ incl (nth i (rws s) []) (nth i H0 []) /\
  match nth i (ct s) None with
  | None => nth i (rws s) [] = [] \/ (nth i (rws s) [] = nth i H0 [] /\ getn (enc s) i = length (nth i H0 []))
  | Some t => getn (enc s) i = length (nth i (rws s) []) /\ (nth i (rws s) [] <> [] -> t = xs (nth i (rws s) []))
  end.

Record RJ (s : st) : Prop := {
  rj_r : r s = R0;
  rj_rws : length (rws s) = R0;
  rj_enc : length (enc s) = R0;
  rj_ct : length (ct s) = R0;
  rj_tab : length (tab s) = N0;
  rj_val : forall c v, nth c (tab s) None = Some v -> v = cw c;
  rj_row : forall i, i < R0 -> RowJ s i }.

Definition Keep (s : st) : Prop :=
  forall i c, i < R0 -> In c (nth i H0 []) -> known s c = false -> In c (nth i (rws s) []).
Definition KeepX (e : nat) (s : st) : Prop :=
  forall i c, i < R0 -> In c (nth i H0 []) -> known s c = false -> c <> e -> In c (nth i (rws s) []).

Lemma srS_J (s : st) c v row t : RJ s -> Keep s -> known s c = true -> v = cw c -> row < R0 ->
  In c (nth row (rws s) []) -> getn (enc s) row = length (nth row (rws s) []) -> t = xs (nth row (rws s) []) ->
  RJ (srS s c v row t) /\ Keep (srS s c v row t).
Proof.
  intros J K Hkc Hv Hrow Hin Henc Ht.
  destruct J as [J1 J2 J3 J4 J5 J6 J7].
  destruct (J7 row Hrow) as (ND & Incl & _).
  unfold srS.
  set (rowl := nth row (rws s) []) in *.
  set (ents := filter (fun c' => negb (c' =? c)) rowl).
  set (kn := filter (known s) ents).
  set (ents' := filter (fun c' => negb (known s c')) ents).
  set (t1 := if 1 <? getn (enc s) row then sxor t v else t).
  assert (Lents : length ents = length rowl - 1) by (apply filter_remove_nodup; auto).
  assert (Lsplit : length ents = length kn + length ents') by (apply filter_length_split).
  assert (Hfold : fold_left (fun acc c' => match nth c' (tab s) None with Some w => sxor acc w | None => acc end) kn t1
                  = sxor t1 (xs kn)).
  { apply (fold_known_values s J6). intros x Hx. apply filter_In in Hx. apply Hx. }
  rewrite Hfold.
  split.
  - constructor; cbn [r rws enc ct tab]; rewrite ?upd_length; auto.
    intros i Hi. unfold RowJ. cbn [rws enc ct]. unfold getn.
    destruct (Nat.eq_dec i row) as [->|Hne].
    + rewrite !nth_upd_eq by lia.
      split; [unfold ents', ents; apply NoDup_filter, NoDup_filter; exact ND|].
      split.
      { intros x Hx. apply Incl. unfold ents', ents in Hx. apply filter_In in Hx. destruct Hx as (Hx & _).
        apply filter_In in Hx. apply Hx. }
      split; [unfold getn in Henc; lia|].
      intros Hne.
      assert (L1 : 1 <= length ents') by (destruct ents'; [now elim Hne|simpl; lia]).
      assert (E1 : t1 = sxor t v).
      { unfold t1. replace (1 <? getn (enc s) row) with true; [reflexivity|]. symmetry. apply Nat.ltb_lt. lia. }
      rewrite E1, Ht, Hv.
      rewrite (xs_remove c rowl ND Hin). fold ents.
      rewrite (xs_filter_split (known s) ents). fold kn. fold ents'.
      apply grp1.
    + rewrite !nth_upd_neq by auto. exact (J7 i Hi).
  - intros i x Hi Hx Hk'. cbn [rws]. change (known s x = false) in Hk'.
    pose proof (K i x Hi Hx Hk') as Hin'.
    destruct (Nat.eq_dec i row) as [->|Hne].
    + rewrite nth_upd_eq by lia. unfold ents', ents. apply filter_In. split.
      * apply filter_In. split; [exact Hin'|]. apply negb_true_iff. apply Nat.eqb_neq. intros ->. congruence.
      * now rewrite Hk'.
    + rewrite nth_upd_neq by auto. exact Hin'.
Qed.

Lemma step2_row_J (s : st) c v row : RJ s -> Keep s -> known s c = true -> v = cw c -> row < R0 ->
  In c (nth row (rws s) []) ->
  RJ (fst (step2_row sxor s0 s c v row)) /\ Keep (fst (step2_row sxor s0 s c v row)).
Proof.
  intros J K Hkc Hv Hrow Hin.
  rewrite step2_row_cases.
  destruct (rj_row s J row Hrow) as (ND & Incl & M).
  destruct (nth row (ct s) None) as [t|] eqn:Ect.
  - destruct M as (M1 & M2). apply srS_J; auto.
    apply M2. intros E. rewrite E in Hin. destruct Hin.
  - destruct M as [M|(M1 & M2)]; [rewrite M in Hin; destruct Hin|].
    destruct (getn (unk s) row - 1 =? 1).
    + apply srS_J; auto; rewrite M1; [exact M2|]. symmetry. apply parity. exact Hrow.
    + (* only the counter unk moves, of which RJ and Keep do not speak *)
      split; [destruct J; constructor; assumption|exact K].
Qed.

Lemma row_lt (s : st) row x : length (rws s) = R0 -> In x (nth row (rws s) []) -> row < R0.
Proof.
  intros L Hin. destruct (Nat.lt_ge_cases row R0) as [H|H]; [exact H|].
  rewrite nth_overflow in Hin by (rewrite L; exact H). destruct Hin.
Qed.

Lemma consume_J (s : st) row cc t : RJ s -> Keep s -> nth row (rws s) [] = [cc] ->
  nth row (ct s) None = Some t -> RJ (consume s row) /\ KeepX cc (consume s row) /\ cc < N0 /\ t = cw cc.
Proof.
  intros J K Hr Hct.
  assert (Hrow : row < R0) by (apply (row_lt s row cc); [apply J|rewrite Hr; now left]).
  destruct (rj_row s J row Hrow) as (ND & Incl & M). rewrite Hct in M. destruct M as (M1 & M2).
  assert (Hcc : cc < N0) by (apply (H0_range row cc Hrow); apply Incl; rewrite Hr; now left).
  assert (Ht : t = cw cc).
  { rewrite M2 by (rewrite Hr; discriminate). rewrite Hr. exact (sxor_0_r' (cw cc)). }
  destruct J as [J1 J2 J3 J4 J5 J6 J7].
  split; [|split; [|split; [exact Hcc|exact Ht]]].
  - constructor; cbn [consume r rws enc ct tab]; rewrite ?upd_length; auto.
    intros i Hi. unfold RowJ. cbn [consume rws enc ct]. unfold getn.
    destruct (Nat.eq_dec i row) as [->|Hne].
    + rewrite !nth_upd_eq by lia. split; [constructor|]. split; [intros x []|]. now left.
    + rewrite !nth_upd_neq by auto. exact (J7 i Hi).
  - intros i x Hi Hx Hk' Hne. change (known s x = false) in Hk'.
    pose proof (K i x Hi Hx Hk') as Hin'. cbn [consume rws].
    destruct (Nat.eq_dec i row) as [->|Hne'].
    + rewrite Hr in Hin'. destruct Hin' as [->|[]]. now elim Hne.
    + rewrite nth_upd_neq by auto. exact Hin'.
Qed.

Lemma set_tab_J (s : st) e v : RJ s -> KeepX e s -> e < N0 -> v = cw e ->
  RJ (set_tab s e v) /\ Keep (set_tab s e v).
Proof.
  intros J K He Hv. split.
  - destruct J as [J1 J2 J3 J4 J5 J6 J7].
    constructor; cbn [set_tab r rws enc ct tab]; rewrite ?upd_length; auto.
    intros c w Hc. rewrite nth_upd_same_or in Hc.
    destruct ((c =? e) && (e <? length (tab s))) eqn:E.
    + apply andb_true_iff in E. destruct E as (E & _). apply Nat.eqb_eq in E. subst c. congruence.
    + exact (J6 c w Hc).
  - intros i c Hi Hc Hk.
    rewrite known_set_tab in Hk by (rewrite (rj_tab s J); exact He).
    apply orb_false_iff in Hk. destruct Hk as (Hk & Hne). apply Nat.eqb_neq in Hne. exact (K i c Hi Hc Hk Hne).
Qed.

Lemma init_J : RJ (init Sy R0 N0 H0) /\ Keep (init Sy R0 N0 H0).
Proof.
  split.
  - constructor; cbn [init r rws enc ct tab]; rewrite ?map_length, ?repeat_length; auto.
    + intros c v Hc. rewrite nth_repeat_none in Hc. discriminate Hc.
    + intros i Hi. unfold RowJ. cbn [init rws enc ct]. rewrite nth_repeat_none.
      split; [now apply H0_nodup|]. split; [apply incl_refl|]. right. split; [reflexivity|].
      unfold getn. apply nth_map_length.
  - intros i c Hi Hc _. exact Hc.
Qed.

Lemma decode_J fuel (s : st) e v s' : RJ s -> KeepX e s -> e < N0 -> v = cw e ->
  decode sxor s0 fuel s e v = Some s' -> RJ s' /\ Keep s'.
Proof using All. (* H0_deg and R_le_N are premises of the closed statement although RJ and Keep do not need them *)
  intros J K He Hv.
  apply (decode_P (fun s => RJ s /\ Keep s) (fun e v s => RJ s /\ KeepX e s /\ e < N0 /\ v = cw e)); [| | | | |auto].
  - intros s2 e2 v2 (J2 & K2 & _) Hke. split; [exact J2|].
    intros i c Hi Hc Hk. apply (K2 i c Hi Hc Hk). intros ->. congruence.
  - intros s2 e2 v2 (J2 & K2 & He2 & Hv2) _. now apply set_tab_J.
  - intros s2 (J2 & K2). split; [destruct J2; constructor; assumption|exact K2].
  - intros s2 c v2 row (J2 & K2) Hv2 Hin.
    assert (Hrow : row < R0) by (apply (row_lt s2 row c); [apply J2|exact Hin]).
    destruct (rj_row s2 J2 row Hrow) as (_ & Incl & _).
    assert (Hc : c < length (tab s2)) by (rewrite (rj_tab s2 J2); exact (H0_range row c Hrow (Incl c Hin))).
    specialize (Hv2 Hc).
    apply step2_row_J; auto; [exact (known_some s2 c v2 Hv2)|exact (rj_val s2 J2 c v2 Hv2)].
  - intros s2 row cc t (J2 & K2) Er Ect. now apply consume_J.
Qed.

Lemma run_ind fuel (P : list (nat * Sy) -> st -> Prop) : P [] (init Sy R0 N0 H0) ->
  (forall h ev s s', P h s -> decode sxor s0 fuel s (fst ev) (snd ev) = Some s' -> P (h ++ [ev]) s') ->
  forall hist s, run fuel hist = Some s -> P hist s.
Proof.
  intros P0 PS. induction hist as [|ev h IH] using rev_ind; intros s Hr.
  - injection Hr as <-. exact P0.
  - unfold run in Hr. rewrite fold_left_app in Hr. cbn [fold_left] in Hr.
    destruct (fold_left _ h _) as [sA|] eqn:E; [|discriminate Hr]. exact (PS h ev sA s (IH sA E) Hr).
Qed.

Theorem run_J fuel (hist : list (nat * Sy)) (s : st) :
  (forall ev, In ev hist -> fst ev < N0 /\ snd ev = cw (fst ev)) -> run fuel hist = Some s -> RJ s /\ Keep s.
Proof.
  intros Hh Hrun. revert Hh.
  apply (run_ind fuel (fun h s => (forall ev, In ev h -> fst ev < N0 /\ snd ev = cw (fst ev)) -> RJ s /\ Keep s))
    with (3 := Hrun).
  - intros _. exact init_J.
  - intros h ev sA sB IHh Ed Hh. destruct IHh as (J & K); [intros e He; apply Hh, in_or_app; now left|].
    destruct (Hh ev) as (Hr & Hcw); [apply in_or_app; right; now left|].
    apply (decode_J fuel sA (fst ev) (snd ev) sB J); auto. intros i c Hi Hc Hk _. exact (K i c Hi Hc Hk).
Qed.

(* The values in the form of Contract, for one call from a PInv state (run_values does not go through this).
   Val: stored symbols are codeword symbols, and the partial sum of a row with a single remaining entry is the
   codeword symbol of that entry. *)
Definition Val (s : st) : Prop :=
  (forall c v, nth c (tab s) None = Some v -> v = cw c) /\
  (forall i t cc, i < R0 -> nth i (ct s) None = Some t -> nth i (rws s) [] = [cc] -> t = cw cc).

Lemma PInv_RJ (s:st) e : WF s -> PInv s e -> Val s -> RJ s /\ KeepX e s.
Proof.
  intros W HP (V1 & V2). split.
  - destruct W as [Wr Wn Wrws Wunk Wenc Wct Wtab Wfnd Wcur]. constructor; auto.
    intros i Hi. specialize (HP i Hi). unfold rowinv in HP. unfold RowJ.
    destruct (nth i (ct s) None) as [t|] eqn:Ect.
    + destruct HP as (A & B & C & _).
      assert (HU : NoDup (Urow (known s) i) /\ incl (Urow (known s) i) (nth i H0 []))
        by (split; [apply NoDup_filter, H0_nodup, Hi|apply incl_filter]).
      specialize (V2 i t). rewrite A in *. repeat split; try tauto.
      intros Hne. destruct (Urow (known s) i) as [|cc [|? ?]]; [now elim Hne| |simpl in B; lia].
      rewrite (V2 cc Hi Ect eq_refl). symmetry. apply sxor_0_r'.
    + destruct HP as [(A & _ & C & _)|(A & _)]; rewrite A.
      * split; [apply H0_nodup, Hi|]. split; [apply incl_refl|]. now right.
      * split; [constructor|]. split; [intros x []|]. now left.
  - intros i c Hi Hc Hk Hne. specialize (HP i Hi).
    assert (HU : In c (Urow (known s) i)) by (apply Urow_In; auto).
    unfold rowinv in HP. destruct (nth i (ct s) None).
    + destruct HP as (A & _). now rewrite A.
    + destruct HP as [(A & _)|(_ & _ & C)]; [now rewrite A|]. specialize (C c HU). congruence.
Qed.

Lemma RJ_Val (s:st) : RJ s -> Val s.
Proof.
  intros J. split; [exact (rj_val s J)|]. intros i t cc Hi Hct Hr.
  destruct (rj_row s J i Hi) as (_ & _ & M). rewrite Hct, Hr in M.
  rewrite (proj2 M) by discriminate. apply sxor_0_r'.
Qed.

Definition ValContract (dec : st -> nat -> Sy -> option st) := forall s e v s',
  WF s -> PInv s e -> known s e = false -> e < N0 -> Val s -> v = cw e -> dec s e v = Some s' -> Val s'.

Lemma decode_val fuel : ValContract (decode sxor s0 fuel).
Proof.
  intros s e v s' W HP Hke He HV Hv Hdec. destruct (PInv_RJ s e W HP HV) as (J & K).
  exact (RJ_Val s' (proj1 (decode_J _ s e v s' J K He Hv Hdec))).
Qed.

Theorem run_values fuel (hist : list (nat * Sy)) (s : st) :
  (forall ev, In ev hist -> fst ev < N0 /\ snd ev = cw (fst ev)) -> run fuel hist = Some s ->
  forall c v, nth c (tab s) None = Some v -> v = cw c.
Proof.
  intros Hh Hrun. exact (rj_val s (proj1 (run_J fuel hist s Hh Hrun))).
Qed.

End P.

Print Assumptions it_is_peeling.
