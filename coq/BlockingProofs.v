(* RFC 5052's partition (Blocking.rfc5052) is a partition, and the generated of_compute_blocking_struct
   (gen/GenBlocking.v) up to its last rounding: the integer quotients taken through binary64 are exact. *)
From Flocq Require Import Core Relative IEEE754.BinarySingleNaN.
From Coq Require Import Reals ZArith Lia Lra Bool.
From OFV Require Import CSem CSemProofs FloatLemmas Blocking.
From OFV.gen Require Import GenBlocking.
Local Open Scope Z_scope.

Lemma ceil_div_bounds a b : 1 <= a -> 1 <= b -> 1 <= ceil_div a b <= a /\ (ceil_div a b - 1) * b < a <= ceil_div a b * b.
Proof.
  intros Ha Hb. unfold ceil_div.
  pose proof (Z.div_mod (a + b - 1) b ltac:(lia)) as H. pose proof (Z.mod_pos_bound (a + b - 1) b ltac:(lia)) as Hr.
  set (q := (a + b - 1) / b) in *. set (r := (a + b - 1) mod b) in *. clearbody q r. nia.
Qed.

Lemma partition_exact_proof B L E : 1 <= B -> 1 <= L -> 1 <= E ->
  let p := rfc5052 B L E in
  1 <= p_T p <= L /\ 1 <= p_N p <= p_T p /\
  p_A_large p <= B /\ p_A_small p <= p_A_large p <= p_A_small p + 1 /\ 0 <= p_I p < p_N p /\
  p_I p * p_A_large p + (p_N p - p_I p) * p_A_small p = p_T p.
Proof.
  intros HB HL HE. cbv zeta. unfold rfc5052. cbn [p_T p_N p_A_large p_A_small p_I].
  destruct (ceil_div_bounds L E HL HE) as [HT HT']. set (T := ceil_div L E) in *. clearbody T.
  destruct (ceil_div_bounds T B ltac:(lia) HB) as [HN HN']. set (N := ceil_div T B) in *. clearbody N.
  destruct (ceil_div_bounds T N ltac:(lia) ltac:(lia)) as [HA HA']. set (Al := ceil_div T N) in *. clearbody Al.
  pose proof (Z.div_mod T N ltac:(lia)) as Hd. pose proof (Z.mod_pos_bound T N ltac:(lia)) as Hr.
  set (q := T / N) in *. set (r := T mod N) in *. clearbody q r.
  assert (HAl : Al = if r =? 0 then q else q + 1).
  { destruct (Z.eqb_spec r 0); nia. }
  repeat split; try lia.
  - (* A_large <= B: N blocks of B symbols hold T *) nia.
  - destruct (Z.eqb_spec r 0); lia.
  - destruct (Z.eqb_spec r 0); lia.
  - destruct (Z.eqb_spec r 0); nia.
Qed.

(* The four conversions of rounded quotients are exact: the generated function is brought to the
   point where it rounds the scaled fraction v to the nearest integer to obtain I. *)
Lemma blocking_prefix B L E : 1 <= B < 2^32 -> 1 <= L < 2^32 -> 1 <= E < 2^32 ->
  let T := ceil_div L E in let N := ceil_div T B in
  (1 <= N <= T /\ T < 2^32) /\
  of_compute_blocking_struct B L E =
    bind (double_to_closest_int (d_mul (d_sub (d_div (d_of_Z T) (d_of_Z N)) (d_of_Z (T / N))) (d_of_Z N)))
         (fun i => Some (N, ceil_div T N, T / N, i)).
Proof.
  intros HB HL HE T N.
  destruct (ceil_div_bounds L E ltac:(lia) ltac:(lia)) as [HT _]. fold T in HT.
  destruct (ceil_div_bounds T B ltac:(lia) ltac:(lia)) as [HN _]. fold N in HN.
  split; [lia|]. unfold of_compute_blocking_struct.
  rewrite (u32_ceil_quot L E) by lia. cbn [bind]. fold (ceil_div L E). fold T.
  rewrite (u32_ceil_quot T B) by lia. cbn [bind]. fold (ceil_div T B). fold N.
  rewrite (u32_ceil_quot T N), (u32_floor_quot T N) by lia. reflexivity.
Qed.

(* whenever the generated function returns (no undefined conversion), N, A_large and A_small are
   the RFC 5052 values *)
Lemma blocking_N_A_proof B L E n al asm i : 1 <= B < 2^32 -> 1 <= L < 2^32 -> 1 <= E < 2^32 ->
  of_compute_blocking_struct B L E = Some (n, al, asm, i) ->
  let p := rfc5052 B L E in n = p_N p /\ al = p_A_large p /\ asm = p_A_small p.
Proof.
  intros HB HL HE H. rewrite (proj2 (blocking_prefix B L E HB HL HE)) in H.
  destruct (double_to_closest_int _); [|discriminate H]. inversion H. repeat split.
Qed.
