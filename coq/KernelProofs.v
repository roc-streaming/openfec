(* Each symbol kernel of Kernels.v (word loop, then byte tail, operands taken in groups) is one upd_range:
   byte i of the destination, for i below size, is combined with byte i of the operands; nothing else moves. *)
From Coq Require Import NArith ZArith Arith List Bool Lia ZifyNat.
From OFV Require Import ListAux Kernels.
Import ListNotations.

Lemma upd_range_length f off len l : length (upd_range f off len l) = length l.
Proof. unfold upd_range. generalize 0. induction l as [|x t IH]; intros i; simpl; auto. Qed.

Lemma nth_upd_range_aux f off len d : forall l i j,
  nth j (upd_range_aux f off len i l) d =
  if (off <=? i + j) && (i + j <? off + len) && (j <? length l) then f (i + j) (nth j l d) else nth j l d.
Proof.
  induction l as [|x t IH]; intros i j; simpl.
  - destruct j; rewrite andb_false_r; reflexivity.
  - destruct j as [|j].
    + rewrite Nat.add_0_r. simpl. rewrite andb_true_r. reflexivity.
    + rewrite IH. replace (S i + j) with (i + S j) by lia.
      replace (S j <? S (length t)) with (j <? length t) by reflexivity. reflexivity.
Qed.
Lemma nth_upd_range f off len l j d :
  nth j (upd_range f off len l) d =
  if (off <=? j) && (j <? off + len) && (j <? length l) then f j (nth j l d) else nth j l d.
Proof. unfold upd_range. rewrite nth_upd_range_aux. reflexivity. Qed.

Ltac nth_cases :=
  repeat match goal with
  | |- context [?a <=? ?b] => destruct (Nat.leb_spec a b)
  | |- context [?a <? ?b] => destruct (Nat.ltb_spec a b)
  end; simpl; try reflexivity; try lia.

Lemma upd_range_ext f g off len l :
  (forall j, off <= j < off + len -> j < length l -> f j (nth j l 0%N) = g j (nth j l 0%N)) ->
  upd_range f off len l = upd_range g off len l.
Proof.
  intros H. apply (nth_ext _ _ 0%N 0%N); [rewrite !upd_range_length; reflexivity|].
  intros j Hj. rewrite !nth_upd_range.
  destruct (Nat.leb_spec off j), (Nat.ltb_spec j (off + len)), (Nat.ltb_spec j (length l)); simpl; auto; apply H; lia.
Qed.

Lemma upd_range_id f off len l : (forall j x, off <= j < off + len -> f j x = x) -> upd_range f off len l = l.
Proof.
  intros H. apply (nth_ext _ _ 0%N 0%N); [apply upd_range_length|]. intros j Hj. rewrite nth_upd_range.
  nth_cases. apply H. lia.
Qed.
Lemma upd_range_zero f off l : upd_range f off 0 l = l.
Proof. apply upd_range_id. lia. Qed.

Lemma upd_range_adjacent f a n b m l : b = a + n ->
  upd_range f b m (upd_range f a n l) = upd_range f a (n + m) l.
Proof.
  intros ->. apply (nth_ext _ _ 0%N 0%N); [rewrite !upd_range_length; reflexivity|].
  intros j Hj. rewrite !nth_upd_range, !upd_range_length. nth_cases.
Qed.

Lemma upd_range_frame f off len l j : ~ (off <= j < off + len) -> nth j (upd_range f off len l) 0%N = nth j l 0%N.
Proof. intros H. rewrite nth_upd_range. nth_cases. Qed.

Lemma upd_range_frame_beyond : forall f size l j, size <= j -> nth j (upd_range f 0 size l) 0%N = nth j l 0%N.
Proof. intros f size l j H. apply upd_range_frame. lia. Qed.

Lemma loop64_spec grp : forall cnt w dst,
  loop64 cnt w grp dst = (upd_range (fx grp) (8 * w) (8 * cnt) dst, w + cnt).
Proof.
  induction cnt as [|c IH]; intros w dst; simpl loop64.
  - rewrite Nat.mul_0_r, upd_range_zero, Nat.add_0_r. reflexivity.
  - rewrite IH, upd_range_adjacent by lia. f_equal; [f_equal|]; lia.
Qed.

Lemma tail_loop_spec grp off : forall cnt i dst,
  tail_loop cnt i off grp dst = upd_range (fx grp) (off + i) cnt dst.
Proof.
  induction cnt as [|c IH]; intros i dst; simpl tail_loop.
  - rewrite upd_range_zero. reflexivity.
  - rewrite IH, upd_range_adjacent by lia. reflexivity.
Qed.

Lemma xor_block_spec size grp dst : xor_block size grp dst = upd_range (fx grp) 0 size dst.
Proof.
  unfold xor_block. rewrite loop64_spec. simpl (8 * 0). rewrite Nat.add_0_l.
  destruct (Nat.ltb_spec (size / 8 * 2) (size / 4)); rewrite tail_loop_spec, !upd_range_adjacent by lia; f_equal; lia.
Qed.

Lemma upd_range_fx_app g1 g2 off len l :
  upd_range (fx g2) off len (upd_range (fx g1) off len l) = upd_range (fx (g1 ++ g2)) off len l.
Proof.
  apply (nth_ext _ _ 0%N 0%N); [rewrite !upd_range_length; reflexivity|].
  intros j Hj. rewrite !nth_upd_range, !upd_range_length. nth_cases. unfold fx. rewrite fold_left_app. reflexivity.
Qed.

(* The grouping loop as a rule for what follows it: the operands left over, applied to the result so
   far, give the XOR with all operands; with enough fuel fewer than g operands are left. *)
Lemma take_groups_rule {T} g size (k : list N -> list (list N) -> T) v : forall fuel from dst,
  (forall d fr, upd_range (fx fr) 0 size d = upd_range (fx from) 0 size dst -> length fr <= length from ->
     (length from < fuel -> 0 < g -> length fr < g) -> k d fr = v) ->
  (let '(d, fr) := take_groups g fuel size from dst in k d fr) = v.
Proof.
  induction fuel as [|f IH]; intros from dst H; cbn [take_groups]; [apply H; [reflexivity|lia..]|].
  destruct (Nat.leb_spec g (length from)) as [Hle|Hgt]; [|apply H; [reflexivity|lia..]].
  apply IH. intros d fr E. rewrite skipn_length. intros L G. apply H; [|lia|intros; apply G; lia].
  rewrite E, xor_block_spec, upd_range_fx_app, firstn_skipn. reflexivity.
Qed.

Theorem add_from_multiple_spec dst from size :
  add_from_multiple dst from size = upd_range (fx from) 0 size dst.
Proof.
  unfold add_from_multiple.
  apply take_groups_rule. intros d1 f1 <- L1 _. apply take_groups_rule. intros d2 f2 <- L2 _.
  apply take_groups_rule. intros d3 f3 <- _ G3.
  destruct f3 as [|f [|f' r]]; [symmetry; apply upd_range_id; reflexivity|apply xor_block_spec|].
  specialize (G3 ltac:(lia) ltac:(lia)). simpl in G3. lia.
Qed.

(* the kernels never look at operand bytes at or beyond `size` *)
Lemma fx_agree grp grp' i x : map (fun s => nth i s 0%N) grp = map (fun s => nth i s 0%N) grp' -> fx grp i x = fx grp' i x.
Proof.
  unfold fx. revert grp' x. induction grp as [|s t IH]; intros [|s' t'] x H; simpl in *; try discriminate; auto.
  inversion H as [[H1 H2]]. rewrite H1. apply IH. exact H2.
Qed.
Theorem add_from_multiple_reads_only_size dst from from' size :
  (forall i, i < size -> map (fun s => nth i s 0%N) from = map (fun s => nth i s 0%N) from') ->
  add_from_multiple dst from size = add_from_multiple dst from' size.
Proof.
  intros H. rewrite !add_from_multiple_spec. apply upd_range_ext. intros j Hj _. apply fx_agree, H. lia.
Qed.

(* one source into many targets: the same rule, the targets done followed by those left over *)
Lemma take_groups_to_rule {T} g size from (k : list (list N) -> list (list N) -> T) v : forall fuel tos done,
  (forall dn ts, dn ++ map (xor_block size [from]) ts = done ++ map (xor_block size [from]) tos ->
     length ts <= length tos -> (length tos < fuel -> 0 < g -> length ts < g) -> k dn ts = v) ->
  (let '(dn, ts) := take_groups_to g fuel size from tos done in k dn ts) = v.
Proof.
  induction fuel as [|f IH]; intros tos done H; cbn [take_groups_to]; [apply H; [reflexivity|lia..]|].
  destruct (Nat.leb_spec g (length tos)) as [Hle|Hgt]; [|apply H; [reflexivity|lia..]].
  apply IH. intros dn ts E. rewrite skipn_length. intros L G. apply H; [|lia|intros; apply G; lia].
  rewrite E, <- app_assoc, <- map_app, firstn_skipn. reflexivity.
Qed.

Theorem add_to_multiple_spec tos from size :
  add_to_multiple tos from size = map (upd_range (fun i x => N.lxor x (nth i from 0%N)) 0 size) tos.
Proof.
  unfold add_to_multiple.
  rewrite (map_ext _ (xor_block size [from])) by (intros; symmetry; apply xor_block_spec).
  change (map (xor_block size [from]) tos) with ([] ++ map (xor_block size [from]) tos).
  apply take_groups_to_rule. intros d1 t1 <- L1 _. apply take_groups_to_rule. intros d2 t2 <- L2 _.
  apply take_groups_to_rule. intros d3 t3 <- _ G3.
  destruct t3 as [|t [|t' r]]; [symmetry; apply app_nil_r|reflexivity|].
  specialize (G3 ltac:(lia) ltac:(lia)). simpl in G3. lia.
Qed.

Local Open Scope Z_scope.
Lemma addmul_main_spec f sz : forall fuel off dst, 0 <= off ->
  exists off', addmul_main fuel off sz f dst = (upd_range f (Z.to_nat off) (Z.to_nat (off' - off)) dst, off')
    /\ off <= off' /\ (off' <= sz \/ off' = off)
    /\ (sz - off <= Z.of_nat fuel * 16 + 15 -> sz - off' <= 15).
Proof.
  induction fuel as [|k IH]; intros off dst Hoff; simpl addmul_main.
  - exists off. rewrite Z.sub_diag, upd_range_zero. simpl. repeat split; try lia.
  - destruct (Z.ltb_spec off (sz - 15)) as [Hlt|Hge].
    + destruct (IH (off + 16) (upd_range f (Z.to_nat off + 8) 8 (upd_range f (Z.to_nat off) 8 dst)) ltac:(lia))
        as (off' & E & H1 & H2 & H3).
      exists off'. rewrite E. split; [|split; [lia|split; [lia|intros; apply H3; lia]]].
      rewrite !upd_range_adjacent by lia. do 2 f_equal. lia.
    + exists off. rewrite Z.sub_diag, upd_range_zero. simpl. repeat split; try lia.
Qed.

Lemma addmul_tail_spec f sz : forall fuel off dst, 0 <= off -> (sz - off <= Z.of_nat fuel)%Z ->
  addmul_tail fuel off sz f dst = upd_range f (Z.to_nat off) (Z.to_nat (sz - off)) dst.
Proof.
  induction fuel as [|k IH]; intros off dst Hoff Hf; simpl addmul_tail.
  - replace (Z.to_nat (sz - off)) with 0%nat by lia. rewrite upd_range_zero. reflexivity.
  - destruct (Z.ltb_spec off sz) as [Hlt|Hge].
    + rewrite IH, upd_range_adjacent by lia. f_equal. lia.
    + replace (Z.to_nat (sz - off)) with 0%nat by lia. rewrite upd_range_zero. reflexivity.
Qed.

(* main and tail functions may differ syntactically (compact kernel) as long as they agree on
   the bytes of dst: the tail only meets bytes the main loop has left alone *)
Lemma addmul_gen_spec fmain ftail sz dst :
  (forall j, (j < length dst)%nat -> ftail j (nth j dst 0%N) = fmain j (nth j dst 0%N)) ->
  addmul_gen fmain ftail sz dst = upd_range fmain 0 (Z.to_nat sz) dst.
Proof.
  intros Hag. unfold addmul_gen.
  destruct (addmul_main_spec fmain sz (Z.to_nat sz) 0 dst ltac:(lia)) as (off' & E & H1 & H2 & H3).
  rewrite E, addmul_tail_spec by lia. rewrite (upd_range_ext ftail fmain).
  - rewrite upd_range_adjacent by lia. f_equal. lia.
  - intros j Hj Hl. rewrite upd_range_length in Hl. rewrite upd_range_frame by lia. apply Hag, Hl.
Qed.

Theorem addmul1_spec mulc dst src sz : 0 <= sz ->
  addmul1 mulc dst src sz = upd_range (fun i x => N.lxor x (mulc (nth i src 0%N))) 0 (Z.to_nat sz) dst.
Proof. intros _. apply addmul_gen_spec. reflexivity. Qed.
