(* C15 — the "last repair symbol is null" claim.
   For ANY parity-check matrix (rows as duplicate-free lists of in-range columns) whose source columns
   all have even weight and whose repair part is the staircase, and any codeword over any abelian
   group of exponent 2 (symbols of any length under XOR), the last repair symbol is null.  The check
   evaluates these hypotheses on the matrix of every session whose claim is true (read from the C). *)
From Coq Require Import Arith List Bool.
From Coq Require Import ZArith.
From OFV Require Import LastNull Sparse Prng Pchk PchkConcrete ClaimTie.
From OFV.gen Require Import GenClaim.

Theorem last_repair_is_null :
  forall (Sy : Type) (sxor : Sy -> Sy -> Sy) (s0 : Sy),
  (forall a b c, sxor a (sxor b c) = sxor (sxor a b) c) -> (forall a b, sxor a b = sxor b a) ->
  (forall a, sxor s0 a = a) -> (forall a, sxor a a = s0) ->
  forall (cw : nat -> Sy) (H : list (list nat)) (r n : nat),
  1 <= r -> r <= n ->
  (forall row, In row H -> NoDup row /\ forall c, In c row -> c < n) ->
  (forall row, In row H -> rowsum Sy sxor s0 cw row = s0) ->
  (forall c, r <= c < n -> Nat.even (colcount H c) = true) ->
  (forall c, c < r - 1 -> colcount H c = 2) -> colcount H (r - 1) = 1 ->
  cw (r - 1) = s0.
Proof. exact last_repair_is_null_proof. Qed.
(* ... and the construction model (Pchk.v) satisfies those hypotheses whenever it makes the claim: for every
   accepted seed and every outcome of the pseudo-random choices, if no extra entry was added and N1 is even
   (exactly when OF_CRTL_LDPC_STAIRCASE_IS_LAST_SYMBOL_NULL answers true), the last repair symbol of EVERY
   codeword of the constructed matrix is null *)
Theorem ldpc_last_null_claim_is_true_of_the_construction :
  forall fuel k r n1 seed g0 m extra g,
  1 <= k -> 1 <= r -> (Z.of_nat k <= 2^24)%Z -> (Z.of_nat r <= 2^24)%Z ->
  (1 <= seed <= PM_P - 1)%Z -> pchk fuel k r n1 seed g0 = Some (m, extra, g) ->
  last_symbol_null_claim n1 extra = true ->
  forall (Sy : Type) (sxor : Sy -> Sy -> Sy) (s0 : Sy),
  (forall a b c, sxor a (sxor b c) = sxor (sxor a b) c) -> (forall a b, sxor a b = sxor b a) ->
  (forall a, sxor s0 a = a) -> (forall a, sxor a a = s0) ->
  forall cw : nat -> Sy, (forall row, In row (rws m) -> rowsum Sy sxor s0 cw row = s0) -> cw (r - 1) = s0.
Proof. exact pchk_last_repair_null_s. Qed.

(* what the control parameter answers is that claim: the case of of_ldpc_staircase_get_control_parameter is regenerated
   from the source on every run (gen/GenClaim.v) and proved to compute last_symbol_null_claim (ClaimTie.v) *)
Theorem the_control_parameter_answers_the_claim : forall (n1 : nat) (extra : bool), n1 < 256 ->
  is_last_symbol_null_case (Z.of_nat n1) (if extra then 1%Z else 0%Z) = Some (if last_symbol_null_claim n1 extra then 1%Z else 0%Z).
Proof. exact is_last_symbol_null_answers_the_claim. Qed.

Print Assumptions last_repair_is_null.
Print Assumptions ldpc_last_null_claim_is_true_of_the_construction.
Print Assumptions the_control_parameter_answers_the_claim.
